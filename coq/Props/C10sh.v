(* C10, shell half (part C10sh) -- the shell tokenizer partitions its input and
   always makes progress.  Only statements; every proof is `exact <lemma>`.

   The model is Model/ShTok.v (shtokenizer.go on textproc/lexer.go).  MkLexer.Expr,
   which ShAtom calls first, belongs to part C10mk: here it is an arbitrary
   function `expr` that meets the advance contract
       expr s = Some (t, r)  ->  s = t ++ r  /\  t <> []
   (None: the lexer is left alone).  Every theorem holds for every such `expr`,
   for ALL byte strings s (no length bound), for both values of the hidden
   inWord flag, and -- where a quoting state is an input -- for all 13 of them.
   `Ok` in a conclusion excludes both `Panic` (a Go index/slice panic or a failed
   assert) and `OutOfFuel` (the fuel the model gives its loops: |s|+1 for the
   loop of shAtomInternal and of ShAtoms, |s|+2 for ShToken). *)
From PV Require Import Lib.Bytes Model.ShTok Spec.ShPartition Spec.ShWords
  Proofs.ShTok Proofs.ShTokLoop Proofs.ShTokSpec Proofs.ShTokSplit Proofs.ShTokWords Proofs.ShTokMk.
Open Scope N_scope.

Definition advance_contract (expr : str -> option (str * str)) : Prop :=
  forall s t r, expr s = Some (t, r) -> s = t ++ r /\ t <> [].

(* One call of ShAtom, any quoting state: it returns nil and leaves the lexer
   where it was, or an atom whose text is a non-empty prefix of the input, the
   rest being the remainder; a space atom consists of blanks only. *)
Theorem C10sh_shatom_partition :
  forall expr, advance_contract expr ->
  forall (q : quoting) (in_word : bool) (s : str),
  exists in_word',
    sh_atom expr q (in_word, s) = Ok (None, (in_word', s)) \/
    exists a r,
      sh_atom expr q (in_word, s) = Ok (Some a, (in_word', r)) /\
      s = a_text a ++ r /\ a_text a <> [] /\
      (a_type a = ShtSpace -> forallb is_hspace (a_text a) = true).
Proof. exact sh_atom_spec. Qed.
Print Assumptions C10sh_shatom_partition.

Theorem C10sh_shatom_total :
  forall expr, advance_contract expr ->
  forall (q : quoting) (in_word : bool) (s : str),
    sh_atom expr q (in_word, s) <> Panic /\ sh_atom expr q (in_word, s) <> OutOfFuel.
Proof. exact sh_atom_total. Qed.
Print Assumptions C10sh_shatom_total.

(* The loop of ShAtoms, started in any quoting state: the atom texts, in order,
   followed by the rest are the input; no atom is empty. *)
Theorem C10sh_shatoms_partition :
  forall expr, advance_contract expr ->
  forall (q : quoting) (in_word : bool) (s : str),
  exists atoms in_word' rest,
    sh_atoms_from expr q (in_word, s) = Ok (atoms, (in_word', rest)) /\
    s = concat (map a_text atoms) ++ rest /\
    Forall (fun a => a_text a <> []) atoms.
Proof. exact sh_atoms_from_ok. Qed.
Print Assumptions C10sh_shatoms_partition.

(* ShAtoms() as the Go code has it (plain state, fresh tokenizer) *)
Theorem C10sh_shatoms_plain_partition :
  forall expr, advance_contract expr ->
  forall s : str,
  exists atoms in_word' rest,
    sh_atoms expr s = Ok (atoms, (in_word', rest)) /\
    s = concat (map a_text atoms) ++ rest /\
    Forall (fun a => a_text a <> []) atoms.
Proof. exact sh_atoms_ok. Qed.
Print Assumptions C10sh_shatoms_plain_partition.

(* the same, through the executable specification that the check also runs on
   the implementation's output *)
Theorem C10sh_shatoms_meet_spec :
  forall expr, advance_contract expr ->
  forall (q : quoting) (in_word : bool) (s : str),
  exists atoms in_word' rest,
    sh_atoms_from expr q (in_word, s) = Ok (atoms, (in_word', rest)) /\
    partition_ok s (map a_text atoms) rest = true.
Proof. exact sh_atoms_from_partition_ok. Qed.
Print Assumptions C10sh_shatoms_meet_spec.

Theorem C10sh_shatoms_total :
  forall expr, advance_contract expr ->
  forall (q : quoting) (in_word : bool) (s : str),
    sh_atoms_from expr q (in_word, s) <> Panic /\ sh_atoms_from expr q (in_word, s) <> OutOfFuel.
Proof. exact sh_atoms_from_total. Qed.
Print Assumptions C10sh_shatoms_total.

(* One call of ShToken.  What it skips without reporting are blanks and copies of
   the expression ${_ULIMIT_CMD}; after these comes the token (if any), whose text
   is non-empty and is the concatenation of its non-empty atoms, then the rest.
   When it returns nil the skipped pieces and the rest are the input. *)
Theorem C10sh_shtoken_partition :
  forall expr, advance_contract expr ->
  forall (in_word : bool) (s : str),
  exists skipped in_word' rest,
    Forall (fun p => p <> [] /\ (forallb is_hspace p = true \/ p = ulimit_cmd)) skipped /\
    ((sh_token expr (in_word, s) = Ok (None, (in_word', rest)) /\
      s = concat skipped ++ rest) \/
     exists t,
       sh_token expr (in_word, s) = Ok (Some t, (in_word', rest)) /\
       s = concat skipped ++ tok_text t ++ rest /\
       tok_text t <> [] /\
       tok_text t = concat (map a_text (tok_atoms t)) /\
       tok_atoms t <> [] /\
       Forall (fun a => a_text a <> []) (tok_atoms t)).
Proof. exact sh_token_ok. Qed.
Print Assumptions C10sh_shtoken_partition.

(* in particular neither assert of NewShToken can fail *)
Theorem C10sh_shtoken_total :
  forall expr, advance_contract expr ->
  forall (in_word : bool) (s : str),
    sh_token expr (in_word, s) <> Panic /\ sh_token expr (in_word, s) <> OutOfFuel.
Proof. exact sh_token_total. Qed.
Print Assumptions C10sh_shtoken_total.

(* Calling ShToken until it returns nil (the driver of the correspondence run, and
   what the shell parser's lexer does): it ends within |s|+1 calls, and every call
   satisfies the law above with respect to the rest the previous call left
   (Spec.ShPartition.chain_ok: per token its text, its atoms' texts and the rest
   after the call). *)
Theorem C10sh_shtokens_partition :
  forall expr, advance_contract expr ->
  forall s : str,
  exists l in_word' rest,
    sh_tokens expr s = Ok (l, (in_word', rest)) /\
    chain_ok s (map (fun p => (tok_text (fst p), map a_text (tok_atoms (fst p)), snd p)) l) rest.
Proof. exact sh_tokens_chain_ok. Qed.
Print Assumptions C10sh_shtokens_partition.

(* the same through the executable specification that the check runs on the
   implementation's output *)
Theorem C10sh_shtokens_meet_spec :
  forall expr, advance_contract expr ->
  forall s : str,
  exists l in_word' rest,
    sh_tokens expr s = Ok (l, (in_word', rest)) /\
    tokens_ok s (map (fun p => (tok_text (fst p), snd p)) l) rest = true.
Proof. exact sh_tokens_meet_spec. Qed.
Print Assumptions C10sh_shtokens_meet_spec.

(* splitIntoShellTokens (shell.go): command text -> token strings *)

(* For ALL texts: splitIntoShellTokens succeeds (no panic, fuel suffices) and
   (1) the token strings are, in order, the texts of the tokens that repeated
       ShToken calls return; none is empty; every token is the concatenation of
       its (non-empty list of) atoms, and these form a chain from the plain
       quoting state (Spec.ShWords.atoms_chain): an atom produced outside quotes,
       backticks and subshells is never a space atom, and unless it is a make
       expression ${...}, a shell expression $$x / $${...} or a comment, it has no
       blank except directly after a backslash -- blanks inside a token lie
       inside quotes, backticks, $$(...), ${...}, $${...}, a comment, or are escaped;
   (2) text = gap_0 ++ tok_1 ++ gap_1 ++ ... ++ tok_n ++ gap_n ++ rest where every
       gap consists of blanks and copies of ${_ULIMIT_CMD} only. *)
Theorem C10sh_split_tokens :
  forall expr, advance_contract expr ->
  forall text : str,
  exists toks rest,
    split_tokens expr text = Ok (toks, rest) /\
    exists l in_word,
      sh_tokens expr text = Ok (l, (in_word, rest)) /\
      toks = map (fun p => tok_text (fst p)) l /\
      Forall (fun t => t <> []) toks /\
      Forall (fun p => tok_text (fst p) = concat (map a_text (tok_atoms (fst p))) /\
                       tok_atoms (fst p) <> [] /\
                       atoms_chain QPlain (tok_atoms (fst p))) l /\
      exists gaps, length gaps = S (length toks) /\ Forall gap_ok gaps /\
                   text = weave gaps toks rest.
Proof. exact split_tokens_ok. Qed.
Print Assumptions C10sh_split_tokens.

(* (3) On a text made of simple words (Spec.ShWords: text bytes, \c, "..." , '...',
   $$var / $${var...}, make expressions that `rx` recognises; or an operator
   ; ;; & && | || ( ) [n]< [n]> [n]>> [n]<& [n]>& [n]<> [n]>| [n]<< [n]<<-) joined by
   single blanks, the token list is exactly the list of words and nothing is left.
   Needed of the expression lexer: it returns nil unless the text starts with a
   dollar followed by a byte other than a dollar; it takes what rx recognises,
   whatever follows; rx does not recognise ${_ULIMIT_CMD}. *)
Theorem C10sh_split_simple_words :
  forall (expr : str -> option (str * str)) (rx : str -> option str),
  (forall s, dollar_start s = false -> expr s = None) ->
  (forall w r x, rx (36 :: w) = Some r ->
     exists e, 36 :: w = e ++ r /\ e <> [] /\ expr ((36 :: w) ++ x) = Some (e, r ++ x)) ->
  (forall r, rx (ulimit_cmd ++ r) = None) ->
  forall ws : list str, Forall (simple_word rx) ws ->
  split_tokens expr (unwords ws) = Ok (ws, []).
Proof. exact split_simple_words. Qed.
Print Assumptions C10sh_split_simple_words.

(* the executable test simple_word_b is sound for simple_word *)
Theorem C10sh_simple_word_test :
  forall rx w, simple_word_b rx w = true -> simple_word rx w.
Proof. exact simple_word_b_sound. Qed.
Print Assumptions C10sh_simple_word_test.

(* End to end with the expression lexer of part C10mk:
   mk_expr is Model.MkLexer.Expr (the model of MkLexer.Expr, proved advancing and
   total in Props/C10mk.v) in the shape `expr` has here.  With it no hypothesis
   about the expression lexer is left. *)
Theorem C10sh_mk_expr_contract : advance_contract mk_expr.
Proof. exact mk_expr_contract. Qed.
Print Assumptions C10sh_mk_expr_contract.

Theorem C10sh_split_tokens_mk :
  forall text : str,
  exists toks rest,
    split_tokens mk_expr text = Ok (toks, rest) /\
    exists l in_word,
      sh_tokens mk_expr text = Ok (l, (in_word, rest)) /\
      toks = map (fun p => tok_text (fst p)) l /\
      Forall (fun t => t <> []) toks /\
      Forall (fun p => tok_text (fst p) = concat (map a_text (tok_atoms (fst p))) /\
                       tok_atoms (fst p) <> [] /\
                       atoms_chain QPlain (tok_atoms (fst p))) l /\
      exists gaps, length gaps = S (length toks) /\ Forall gap_ok gaps /\
                   text = weave gaps toks rest.
Proof. exact split_tokens_mk. Qed.
Print Assumptions C10sh_split_tokens_mk.

(* the form the C11 development can use: mkvar_rx recognises ${NAME}, NAME over
   [A-Za-z0-9_] (not ${_ULIMIT_CMD}); simple_word_b is computable *)
Theorem C10sh_split_simple_words_mk :
  forall ws : list str, Forall (simple_word mkvar_rx) ws ->
  split_tokens mk_expr (unwords ws) = Ok (ws, []).
Proof. exact split_simple_words_mk. Qed.
Print Assumptions C10sh_split_simple_words_mk.

Theorem C10sh_split_simple_words_mk_b :
  forall ws : list str, forallb (simple_word_b mkvar_rx) ws = true ->
  split_tokens mk_expr (unwords ws) = Ok (ws, []).
Proof. exact split_simple_words_mk_b. Qed.
Print Assumptions C10sh_split_simple_words_mk_b.

(* words of the kinds C11's printer uses:
   echo  "my cmd"  'x y'  $$cmd  $${var}  "$${x:-default}"  ${ECHO}  ${WRKSRC}/file
   x\ y  PATH=${PREFIX}/bin:$$PATH  [0-9]*  $$@  ;  ;;  &&  ||  |  (  )  {  }  2>&  >>  < *)
Definition ex_words : list str :=
  [ [101; 99; 104; 111]; [34; 109; 121; 32; 99; 109; 100; 34]; [39; 120; 32; 121; 39];
    [36; 36; 99; 109; 100]; [36; 36; 123; 118; 97; 114; 125];
    [34; 36; 36; 123; 120; 58; 45; 100; 101; 102; 97; 117; 108; 116; 125; 34];
    [36; 123; 69; 67; 72; 79; 125]; [36; 123; 87; 82; 75; 83; 82; 67; 125; 47; 102; 105; 108; 101];
    [120; 92; 32; 121];
    [80; 65; 84; 72; 61; 36; 123; 80; 82; 69; 70; 73; 88; 125; 47; 98; 105; 110; 58; 36; 36; 80; 65; 84; 72];
    [91; 48; 45; 57; 93; 42]; [36; 36; 64];
    [59]; [59; 59]; [38; 38]; [124; 124]; [124]; [40]; [41]; [123]; [125];
    [50; 62; 38]; [62; 62]; [60] ].
Example C10sh_example_simple_words : forallb (simple_word_b mkvar_rx) ex_words = true.
Proof. vm_compute. reflexivity. Qed.
(* ... and the model computes what the theorem says *)
Example C10sh_example_split : split_tokens mk_expr (unwords ex_words) = Ok (ex_words, []).
Proof. vm_compute. reflexivity. Qed.
(* outside the fragment: a word starting with '#' is a comment to the end of the text *)
Example C10sh_example_comment :
  simple_word_b mkvar_rx [35; 120] = false /\
  split_tokens mk_expr (unwords [[97]; [35; 120]; [98]]) = Ok ([[97]; [35; 120; 32; 98]], []).
Proof. vm_compute. split; reflexivity. Qed.

(* the advance contract is satisfiable: the expression lexer of the correspondence run
   (a lookup in the table measured on the real MkLexer.Expr) meets it, whatever the table says *)
Theorem C10sh_table_expr_contract :
  forall total tbl, advance_contract (table_expr total tbl).
Proof. exact table_expr_contract. Qed.
Print Assumptions C10sh_table_expr_contract.

(* `echo ${X}$$y "a b"`, the table says that Expr takes 4 bytes at offset 5 *)
Definition ex_input : str :=
  [101; 99; 104; 111; 32; 36; 123; 88; 125; 36; 36; 121; 32; 34; 97; 32; 98; 34].
Definition ex_table : list nat := [0; 0; 0; 0; 0; 4; 0; 0; 0; 0; 0; 0; 0; 0; 0; 0; 0; 0; 0]%nat.
Definition ex_expr := table_expr (length ex_input) ex_table.
Example C10sh_example_atoms :
  option_map (fun x => (map a_text (fst x), map a_quot (fst x), snd (snd x)))
             (match sh_atoms ex_expr ex_input with Ok x => Some x | _ => None end)
  = Some ([ [101; 99; 104; 111]; [32]; [36; 123; 88; 125]; [36; 36; 121]; [32]; [34]; [97; 32; 98]; [34] ],
          [QPlain; QPlain; QPlain; QPlain; QPlain; QDquot; QDquot; QPlain], []).
Proof. vm_compute. reflexivity. Qed.

(* three tokens: echo, ${X}$$y, "a b" *)
Example C10sh_example_tokens :
  option_map (fun x => map (fun p => tok_text (fst p)) (fst x))
             (match sh_tokens ex_expr ex_input with Ok x => Some x | _ => None end)
  = Some [ [101; 99; 104; 111]; [36; 123; 88; 125; 36; 36; 121]; [34; 97; 32; 98; 34] ].
Proof. vm_compute. reflexivity. Qed.

(* an unfinished quotation: ShToken returns nil and puts the lexer back *)
Example C10sh_example_unfinished :
  match sh_token (fun _ => None) (false, [32; 34; 97]) with
  | Ok (None, (_, rest)) => rest = [34; 97]
  | _ => False
  end.
Proof. vm_compute. reflexivity. Qed.
