(* C04 -- default, --show-autofix and --autofix tell one consistent story.
   Only statements and examples; the proof of every theorem is `exact <lemma>`.
   The machine is Model/Modes.v: a run is a list of checks, a check is ANY
   function from the current line states to events (plain diagnostics,
   explanations, fix transactions `Xxxf; [Explain]; ops...; Apply`, saves, the
   summary); the mode is not an argument of a check.  `only` is the --only list. *)
From PV Require Import Lib.Bytes Model.Modes Proofs.Modes Proofs.ModesDiags.
Open Scope N_scope.

(* -f announces exactly the AUTOFIX actions that -F performs, in the same
   order, for all lists of checks: both modes update texts/Line.Text
   identically, so every later check sees the same line state *)
Theorem C04_show_equals_do : forall only ls (cs : list check),
  actions (run ShowAutofix only ls cs) = actions (run Autofix only ls cs).
Proof. exact show_equals_do. Qed.
Print Assumptions C04_show_equals_do.

(* the same for any two of -f, -F, -f -F, together with the line states (what
   -F writes to disk is what -f -F writes) and the assertion failures *)
Theorem C04_autofix_modes_agree : forall m1 m2 only ls (cs : list check),
  is_autofix m1 = true -> is_autofix m2 = true ->
  actions (run m1 only ls cs) = actions (run m2 only ls cs)
  /\ s_lines (run m1 only ls cs) = s_lines (run m2 only ls cs)
  /\ s_panic (run m1 only ls cs) = s_panic (run m2 only ls cs).
Proof. exact autofix_modes_agree. Qed.
Print Assumptions C04_autofix_modes_agree.

(* the property's third clause: the default run advertises automatic fixing
   (autofixAvailable, which drives the two "(Run ... -fs/-F ...)" hints) only
   when -f has an action to show.  Guard: the -f run does not die of an
   assertion (after a ReplaceAfter the two runs are in different line states,
   so a later ReplaceAt may be valid in one and not in the other) *)
Theorem C04_advertise_implies_show : forall only ls (cs : list check),
  Forall (fun l => l_modified l = false) ls ->
  s_panic (run ShowAutofix only ls cs) = false ->
  autofix_available (run Default only ls cs) = true ->
  actions (run ShowAutofix only ls cs) <> [].
Proof. exact advertise_implies_show. Qed.
Print Assumptions C04_advertise_implies_show.

(* the converse is not demanded by the property; it holds in the model because
   `run` saves every line at the end (the real code does not for ALTERNATIVES) *)
Theorem C04_advertise_iff_show : forall only ls (cs : list check),
  Forall (fun l => l_modified l = false) ls ->
  s_panic (run Default only ls cs) = false ->
  s_panic (run ShowAutofix only ls cs) = false ->
  (autofix_available (run Default only ls cs) = true <-> actions (run ShowAutofix only ls cs) <> []).
Proof. exact advertise_iff_show. Qed.
Print Assumptions C04_advertise_iff_show.

(* the second clause in full generality -- every diagnostic of -f is a
   diagnostic of the default run -- is FALSE of the faithful model:
   ReplaceAfter updates texts/Line.Text only with -f/-F, so a later check may
   see different text (witness: `X = v`, the parse-time fix followed by the
   alignment check; replayed on the real binary: known finding
   C04/b/f-diag-not-in-default/after-ReplaceAfter-fix-in-same-file(confirmed)) *)
Definition C04_show_diags_subset_default_full : Prop := show_diags_subset_default_full.
Theorem C04_show_diags_subset_default_refuted : ~ C04_show_diags_subset_default_full.
Proof. exact show_diags_subset_default_refuted. Qed.
Print Assumptions C04_show_diags_subset_default_refuted.

(* what remains true, with the guard spelled out: for all lists of checks none
   of which uses Replace/ReplaceAfter (op_no_ra: ReplaceAt, InsertAbove/Below,
   Delete, Custom are allowed) and whose diagnostics have a level determined by
   their message (event_level), every diagnostic (level, file, line numbers,
   message) printed with -f is printed by the default run *)
Theorem C04_show_diags_subset_default_partial : forall (lvl : str -> level) only ls (cs : list check),
  (forall c ls' e, In c cs -> In e (c ls') -> event_no_ra e /\ event_level lvl e) ->
  forall it, In it (diags (run ShowAutofix only ls cs)) -> In it (diags (run Default only ls cs)).
Proof. exact show_diags_subset_default_partial. Qed.
Print Assumptions C04_show_diags_subset_default_partial.

(* the refutation's witness violates exactly that guard (its first check uses ReplaceAfter) *)
Example C04_partial_guard_needed : ~ checks_ok (fun _ => Note) [wit_check1; wit_check2].
Proof. exact partial_guard_needed. Qed.

(* the guard is satisfiable by checks that do fix something *)
Example C04_partial_nonvacuous :
  checks_ok (fun _ => Note) [wit_check2]
  /\ diags (run ShowAutofix [] [mk_line [102] 1 [88;61;32;118] [[88;61;32;118;10]]] [wit_check2]) <> [].
Proof.
  split.
  - intros c ls e [<-|[]] He. unfold wit_check2 in He.
    destruct ls as [|l r]; [destruct He|]. destruct (has_prefix _ _); [|destruct He].
    destruct He as [<-|[]]. split; [|reflexivity]. cbn. repeat constructor.
  - vm_compute. discriminate.
Qed.

(* non-vacuity: the witness run really prints, advertises and shows something *)
Example C04_witness_nontrivial :
  actions (run ShowAutofix [] [wit_line] [wit_check1; wit_check2]) <> []
  /\ autofix_available (run Default [] [wit_line] [wit_check1; wit_check2]) = true
  /\ s_panic (run ShowAutofix [] [wit_line] [wit_check1; wit_check2]) = false.
Proof. repeat split; vm_compute; congruence. Qed.

(* A paragraph-level check between other fixes (Model/ModesPara.v).
   VaralignBlock: Process remembers the raw texts of every line of the paragraph
   when the line is checked; the other checkers of the same round (any checks)
   may then fix lines already remembered with Replace/ReplaceAfter, InsertAbove
   or Custom (mid_ok); Finish compares and, as coded, gives the paragraph up
   when a remembered line has changed; otherwise it prints notes that are a
   function of what was remembered, fixing with ReplaceAt (notes_ok).
   Then Finish adds nothing to the -f run that the default run lacks: every
   diagnostic of the -f run was there before Finish, or is a diagnostic of the
   default run.  The checks before the paragraph are as in
   C04_show_diags_subset_default_partial; Panic excluded in the statement. *)
From PV Require Import Model.ModesPara Proofs.ModesPara.
Theorem C04_para_finish_adds_nothing :
  forall (lvl : str -> level) only ls (pre : list check) (phases : list (nat * list check)) (notes : snap -> list event),
  checks_ok lvl pre -> mid_ok lvl [] phases -> notes_ok lvl notes ->
  s_panic (run_para para_finish Default only ls pre phases notes) = false ->
  forall it, In it (diags (run_para para_finish ShowAutofix only ls pre phases notes)) ->
    In it (diags (p_st (para_before ShowAutofix only ls pre phases)))
    \/ In it (diags (run_para para_finish Default only ls pre phases notes)).
Proof. exact para_finish_adds_nothing. Qed.
Print Assumptions C04_para_finish_adds_nothing.

(* the same statement for a Finish that splits a changed line again and goes
   on is FALSE (witness: `A=v`, "=" replaced by "+=" after Process, notes that
   depend on the width of varname+operator) *)
Definition C04_para_resplit_adds_nothing : Prop := para_resplit_adds_nothing.
Theorem C04_para_resplit_refuted : ~ C04_para_resplit_adds_nothing.
Proof. exact para_resplit_refuted. Qed.
Print Assumptions C04_para_resplit_refuted.

(* non-vacuity: on that witness Finish as coded gives the paragraph up with -f
   (nothing added), the default run does not panic; and without the other fix
   both modes print the note *)
Example C04_para_witness_as_coded :
  diags (run_para para_finish ShowAutofix [] [pw_line] [] [(0%nat, [pw_mid])] pw_notes)
  = diags (p_st (para_before ShowAutofix [] [pw_line] [] [(0%nat, [pw_mid])]))
  /\ s_panic (run_para para_finish Default [] [pw_line] [] [(0%nat, [pw_mid])] pw_notes) = false
  /\ In pw_item (diags (run_para para_finish ShowAutofix [] [pw_line2] [] [(0%nat, [])] pw_notes))
  /\ In pw_item (diags (run_para para_finish Default [] [pw_line2] [] [(0%nat, [])] pw_notes)).
Proof. exact para_witness_as_coded. Qed.
Example C04_para_guards_satisfiable :
  checks_ok pw_lvl [] /\ mid_ok pw_lvl [] [(0%nat, [pw_mid])] /\ notes_ok pw_lvl pw_notes.
Proof. exact (conj pw_pre_ok (conj pw_mid_ok pw_notes_ok)). Qed.
