(* C02 -- without --autofix nothing on disk changes; with it only reported files do.
   Only statements and examples; the proof of every theorem is `exact <lemma>`.

   The run model: Model/Autofix.v, [run o keys evs st] executes any list of events
   (fix transactions on any lines, SaveAutofixChanges, the PLIST sorter, the
   executable-bit check) and collects the file operations [s_ops] (write of the
   temporary file, rename, chmod) and the printed AUTOFIX lines [s_log]. *)
From PV Require Import Lib.Bytes Model.Autofix Proofs.AutofixFs Gen.WriteSites.
From Coq Require Import String.

(* without --autofix the model performs no file operation, whatever the other
   options (--show-autofix, --only ...) and whatever the checks do: the fast lane
   of SaveAutofixChanges, and Custom fixers receive autofix = false *)
Theorem C02_no_autofix_no_ops :
  forall o keys evs st st',
    o_autofix o = false -> run o keys evs st = Ok st' -> s_ops st' = s_ops st.
Proof. exact no_autofix_no_ops. Qed.
Print Assumptions C02_no_autofix_no_ops.

(* with --autofix every operation is: write f.pkglint.tmp / rename it to f for a
   file f with a printed AUTOFIX line, or chmod of a file with a printed
   "Clearing executable bits" line *)
Theorem C02_autofix_touches_only_changed :
  forall o keys evs st st',
    o_autofix o = true -> fresh st -> run o keys evs st = Ok st' ->
    Forall (op_justified (s_log st')) (s_ops st').
Proof. exact autofix_touches_only_changed. Qed.
Print Assumptions C02_autofix_touches_only_changed.

(* in a fault-free run every temporary file is renamed onto its target directly
   after it was written *)
Theorem C02_no_tmp_left :
  forall o keys evs st st',
    o_autofix o = true -> fresh st -> run o keys evs st = Ok st' -> wpaired (s_ops st').
Proof. exact no_tmp_left. Qed.
Print Assumptions C02_no_tmp_left.

(* a line is only marked as modified (the mark that makes SaveAutofixChanges write
   its file) if an AUTOFIX line was printed for its file -- including the PLIST
   sorter's silent fix under --only (DESIGN section 8, item 4) *)
Theorem C02_changed_implies_logged :
  forall o keys evs st st',
    o_autofix o = true -> fresh st -> run o keys evs st = Ok st' ->
    forall l, In l (s_store st') -> line_modified l = true -> logged (s_log st') (l_file l).
Proof. exact changed_implies_logged. Qed.
Print Assumptions C02_changed_implies_logged.

(* One call of SaveAutofixChanges with faults ([save_env e]: the exclusive create,
   the write, the stat of the original, the chmod of the temporary file or the rename may
   fail, per file); [save] above is [save_env no_faults]. *)

(* whatever fails, no temporary file is left behind *)
Theorem C02_no_tmp_left_faults : forall e o ls, tmp_left [] (fst (save_env e o ls)) = [].
Proof. exact no_tmp_left_faults. Qed.
Print Assumptions C02_no_tmp_left_faults.

(* if the temporary file cannot be created exclusively (it exists already), nothing is touched *)
Theorem C02_create_fails_untouched :
  forall e f c, e_tmp_exists e (f ++ tmp_suffix)%list = true -> save_file e f c = ([], false)%list.
Proof. exact create_fails_untouched. Qed.
Print Assumptions C02_create_fails_untouched.

(* every operation concerns f.pkglint.tmp of a changed file f (create, write, chmod to the
   mode of f, remove); only the rename touches f itself *)
Theorem C02_save_touches_only_changed :
  forall e o ls, Forall (op_on_changed (changed_files ls [])) (fst (save_env e o ls)).
Proof. exact save_env_touches_only_changed. Qed.
Print Assumptions C02_save_touches_only_changed.

(* a file is only replaced by a temporary file that got its mode first (if the original
   could be examined): the mode of f is preserved *)
Theorem C02_saved_with_mode :
  forall e f c, snd (save_file e f c) = true -> e_stat_fails e f = false ->
                fst (save_file e f c) = save_seq f c.
Proof. exact saved_with_mode. Qed.
Print Assumptions C02_saved_with_mode.

Theorem C02_save_is_fault_free_save_env : forall o ls, save_env no_faults o ls = save o ls.
Proof. exact save_env_no_faults. Qed.
Print Assumptions C02_save_is_fault_free_save_env.

(* the static tie: the write sites found in the source, apart from the three wrappers in
   path.go and the test-support package intqa, are exactly the operations of the model *)
Open Scope string_scope.
Definition modelled_write_sites : list (string * string * string * nat) :=
  List.filter (fun s => match s with (file, _, _, _) =>
                 negb (String.eqb file "path.go") && negb (String.eqb file "intqa/qa.go") end) write_sites.
Theorem C02_write_sites_are_the_models :
  modelled_write_sites =
  [("autofix.go", "SaveAutofixChanges", "CurrPath.Chmod", 1%nat);
   ("autofix.go", "SaveAutofixChanges", "CurrPath.Rename", 1%nat);
   ("autofix.go", "SaveAutofixChanges", "os.OpenFile", 1%nat);
   ("autofix.go", "SaveAutofixChanges", "os.Remove", 2%nat);
   ("pkglint.go", "Pkglint.checkExecutable", "CurrPath.Chmod", 1%nat)]%list.
Proof. exact (eq_refl _). Qed.
Print Assumptions C02_write_sites_are_the_models.

(* non-vacuity: the same history (a replacement, a save) on the same freshly loaded
   file performs no operation with --show-autofix and the four of one save (exclusive create of the
   temporary file, write, chmod to the original's mode, rename) with --autofix *)
Definition ex2_file : str := [47;102]%N%list.
Definition ex2_groups : list (list str * str) := [ ([[97;10]%N], [97]%N) ]%list.
Definition ex2_events : list event :=
  [ ETxn (Txn 0 [68;46]%N [OReplaceAfter [] [97]%N [98]%N]); ESave ]%list.
Example C02_witness :
  fresh (init_state ex2_file ex2_groups) /\
  (exists st, run (Opts false true []) [] ex2_events (init_state ex2_file ex2_groups) = Ok st /\
     s_ops st = [] /\ List.length (s_log st) = 1%nat) /\
  (exists st, run (Opts true false []) [] ex2_events (init_state ex2_file ex2_groups) = Ok st /\
     s_ops st = save_seq ex2_file [98;10]%N).
Proof.
  split; [repeat constructor|].
  split; eexists; (split; [vm_compute; reflexivity|]); try split; vm_compute; reflexivity.
Qed.

(* The printed path and the written path (composition with C19, Model/Paths.v).
   Included makefiles are written under their raw path (line.Filename(), e.g.
   "cat/pkg/../other/../../devel/lib/version.mk") while the AUTOFIX line prints what
   Logger.Logf makes of it: [printed_path f] = CleanPath of a non-empty f, "" for ".".
   For every working directory: the path printed in some AUTOFIX line of the run denotes
   (lexically, Spec/PathDenote.v) the very file that a rename replaces / a chmod changes. *)
From PV Require Import Spec.PathDenote Proofs.AutofixPaths.

Theorem C02_printed_path_denotes : forall cwd f : str, denote cwd (printed_path f) = denote cwd f.
Proof. exact printed_path_denotes. Qed.
Print Assumptions C02_printed_path_denotes.

Theorem C02_printed_path_denotes_written :
  forall o keys evs st st',
    o_autofix o = true -> fresh st -> run o keys evs st = Ok st' ->
    forall cwd,
    Forall (fun op => forall f, op_target op = Some f ->
              exists g, In g (s_log st') /\ denote cwd (printed_path (g_file g)) = denote cwd f)
           (s_ops st').
Proof. exact printed_path_denotes_written. Qed.
Print Assumptions C02_printed_path_denotes_written.

(* all operations, the temporary files included: [op_justified] with "an AUTOFIX line whose
   printed path denotes f" in the place of "an AUTOFIX line for the raw name f" *)
Theorem C02_autofix_ops_named :
  forall o keys evs st st',
    o_autofix o = true -> fresh st -> run o keys evs st = Ok st' ->
    forall cwd, Forall (op_named cwd (s_log st')) (s_ops st').
Proof. exact autofix_ops_named. Qed.
Print Assumptions C02_autofix_ops_named.

(* non-vacuity: "cat/pkg/../oth/../../dev/lib/v.mk" is printed as it is (CleanPath starts at
   the third component and needs two names before "../.."), "a/b/c/d/../../e" is printed as
   "a/b/e", "." is printed as ""; all denote the same file as the raw path *)
Example C02_printed_path_examples :
  printed_path [97;47;98;47;99;47;100;47;46;46;47;46;46;47;101]%N = [97;47;98;47;101]%N /\
  printed_path [46]%N = []%list /\
  printed_path [99;47;112;47;46;46;47;111;47;46;46;47;46;46;47;100;47;118]%N
             = [99;47;112;47;46;46;47;111;47;46;46;47;46;46;47;100;47;118]%N /\
  denote [47;114]%N [99;47;112;47;46;46;47;111;47;46;46;47;46;46;47;100;47;118]%N
             = [[114]; [100]; [118]]%N%list.
Proof. repeat split; vm_compute; reflexivity. Qed.

(* mode changes are changes: every chmod the run performs (checkExecutable's Custom
   fixer) has its printed "Clearing executable bits" line for that very file -- for all
   histories and all option records with --autofix, in particular under --only *)
Theorem C02_mode_change_implies_logged :
  forall o keys evs st st',
    o_autofix o = true -> fresh st -> run o keys evs st = Ok st' ->
    forall p, In (OpChmod p) (s_ops st') ->
      exists g, In g (s_log st') /\ g_file g = p /\ g_descr g = DChmod.
Proof. exact mode_change_implies_logged. Qed.
Print Assumptions C02_mode_change_implies_logged.

(* Symbolic links (Model/FsLinks.v).
   The names state, path, lookup, ... below are those of Model/FsProto.v and Model/FsLinks.v
   (entry names in the lstat view; see Props/C05.v for the description of the model). *)
From PV Require Import Model.FsProto Model.FsLinks Proofs.FsLinks.
Open Scope N_scope.

(* every entry that differs from the initial one -- content, mode or kind, at the end of the
   run, after any fault, at any crash point -- is named by the run: a saved file, its
   temporary name, or a checked argument; never what a link refers to *)
Theorem C02_link_changed_entry_is_named :
  forall (s : Model.FsProto.state) (prog : list laction) (plan : lplan) (q : Model.FsProto.path),
    Model.FsProto.lookup q (st_fs (lw_st (lrun prog (init_lworld s plan)))) <> Model.FsProto.lookup q (st_fs s) ->
    l_named prog q.
Proof. exact link_changed_entry_is_named. Qed.
Print Assumptions C02_link_changed_entry_is_named.

(* the command-line argument is examined with Lstat: only the entry itself can change *)
Theorem C02_lstat_argument_frame :
  forall (s : Model.FsProto.state) (f : Model.FsProto.path) (plan : lplan) (q : Model.FsProto.path), q <> f ->
    Model.FsProto.lookup q (st_fs (lw_st (check_exec_l f (init_lworld s plan)))) = Model.FsProto.lookup q (st_fs s).
Proof. exact (fun s f plan => check_exec_l_frame (init_lworld s plan) f). Qed.
Print Assumptions C02_lstat_argument_frame.

(* NOT the code: with Stat the target of a link given as argument is chmod-ed although only
   the link is named *)
Theorem C02_stat_argument_refuted :
  ~ (forall (s : Model.FsProto.state) (f : Model.FsProto.path) (plan : lplan) (q : Model.FsProto.path), q <> f ->
       Model.FsProto.lookup q (st_fs (lw_st (check_exec_stat f (init_lworld s plan)))) = Model.FsProto.lookup q (st_fs s)).
Proof. exact stat_argument_refuted. Qed.
Print Assumptions C02_stat_argument_refuted.
