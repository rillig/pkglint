(* C20 -- The file cache is transparent: cached loads equal fresh loads, never stale.
   Only statements: the theorems are proved by `exact <lemma>`, the examples by evaluation.

   Model/FileCache.v: FileCache (Put, removeOldEntries, Get, Evict, key), Load,
   Line.Autofix and the five fix operations, SaveAutofixChanges, over an explicit
   heap of Line objects.  A history is any list of
     OLoad fn o | OFix view line fixop | OSave view failing-files | OModify file content (+ Evict);
   overflow of the cache is what loads of further *.mk files do.
   `reach convert is_mk md cap disk s`: s is reachable from a fresh G (cache of
   capacity cap, files as in disk) in mode md (default / --show-autofix / --autofix)
   by SOME history; convert stands for convertToLogicalLines, is_mk for the
   ".mk" suffix test; both are arbitrary. *)
From PV Require Import Lib.Bytes Model.FileCache Model.FileCacheLines Spec.FreshLoad
  Proofs.FileCacheWf Proofs.FileCacheInv Proofs.FileCache Proofs.FileCacheSim Proofs.FileCachePrivate
  Proofs.FileCacheModes.
From PV Require Model.Lines Spec.LinesSpec.
From Coq Require Import Permutation.
Open Scope N_scope.

(* table and mapping are in bijection, after every history *)
Theorem C20_table_mapping_bijection :
  forall convert is_mk md cap disk s, (1 <= cap)%nat -> reach convert is_mk md cap disk s ->
  let c := st_cache s in
  (forall k eid, map_get k (c_map c) = Some eid <->
                 In eid (c_table c) /\ e_key (entry_at (c_store c) eid) = k) /\
  NoDup (c_table c) /\ NoDup (map fst (c_map c)) /\
  (forall eid, In eid (c_table c) -> (eid < length (c_store c))%nat).
Proof. exact table_mapping_bijection. Qed.
Print Assumptions C20_table_mapping_bijection.

(* the table never holds more than NewFileCache's size; cap(table) never changes *)
Theorem C20_capacity_respected :
  forall convert is_mk md cap disk s, (1 <= cap)%nat -> reach convert is_mk md cap disk s ->
  (length (c_table (st_cache s)) <= cap)%nat /\ c_cap (st_cache s) = cap.
Proof. exact capacity_respected. Qed.
Print Assumptions C20_capacity_respected.

(* sort.Slice is unstable: whichever descending permutation of the table it
   produces, removeOldEntries evicts the same keys, halves the same counts and
   keeps the same set of entries; the model's insertion sort is one such result *)
Theorem C20_evicted_set_order_independent : forall c s1 s2 c1 c2,
  NoDup (c_table c) ->
  Permutation (c_table c) s1 -> desc_sorted (c_store c) s1 ->
  Permutation (c_table c) s2 -> desc_sorted (c_store c) s2 ->
  remove_old_entries_sorted c s1 = Ok c1 ->
  remove_old_entries_sorted c s2 = Ok c2 ->
  c_map c1 = c_map c2 /\ c_store c1 = c_store c2 /\ Permutation (c_table c1) (c_table c2) /\
  c_cap c1 = c_cap c2 /\ c_hits c1 = c_hits c2 /\ c_misses c1 = c_misses c2.
Proof. exact evicted_set_order_independent. Qed.
Print Assumptions C20_evicted_set_order_independent.

Theorem C20_model_sort_admissible : forall c,
  Permutation (c_table c) (sort_desc (c_store c) (c_table c)) /\
  desc_sorted (c_store c) (sort_desc (c_store c) (c_table c)).
Proof. exact model_sort_admissible. Qed.
Print Assumptions C20_model_sort_admissible.

(* Load panics in no reachable state (the index in removeOldEntries is safe);
   it stops only through TechFatalf when MustSucceed is given *)
Theorem C20_load_never_panics :
  forall convert is_mk md cap disk s fn o w, (1 <= cap)%nat -> reach convert is_mk md cap disk s ->
  load convert is_mk s fn o = Stop w -> w = Fatal /\ has_opt o MustSucceed = true.
Proof. exact load_never_panics. Qed.
Print Assumptions C20_load_never_panics.

(* TRANSPARENCY, under the protocol guard.  After any history, in any mode: if no
   view of this file through which a fix was made is still unsaved
   (guard_step: "each fixed view is saved before the file is loaded again"), then
   Load returns exactly the lines of convert (disk f) o, with no fix attached --
   what Spec.FreshLoad.fresh_read computes from the disk alone -- or nil exactly
   when a load without cache returns nil; and it leaves the disk alone. *)
Theorem C20_load_transparent_partial :
  forall convert is_mk md cap disk s fn o s' r, (1 <= cap)%nat -> reach convert is_mk md cap disk s ->
  guard_step s (OLoad fn o) = true ->
  load convert is_mk s fn o = Ok (s', r) ->
  load_obs s' r = fresh_read convert (st_disk s) fn o /\ st_disk s' = st_disk s.
Proof. exact load_transparent. Qed.
Print Assumptions C20_load_transparent_partial.

(* The same for whole histories: if the guard holds at every Load of a history
   (`guarded`: evaluated along the run of the machine with the cache), then the
   run shows exactly what the run of the machine WITHOUT a cache shows (no_mk:
   nothing is ever Put, every Load reads the disk): the same observation for every
   operation (lines returned by each Load, bytes written by each save), the same
   panic / fatal stop if any, and the same disk at the end. *)
Theorem C20_cache_unobservable :
  forall convert is_mk md cap disk h, (1 <= cap)%nat ->
  guarded convert is_mk md (init_state cap disk) h = true ->
  snd (fst (run convert is_mk md (init_state cap disk) h)) =
  snd (fst (run convert no_mk md (init_state cap disk) h)) /\
  snd (run convert is_mk md (init_state cap disk) h) =
  snd (run convert no_mk md (init_state cap disk) h) /\
  st_disk (fst (fst (run convert is_mk md (init_state cap disk) h))) =
  st_disk (fst (fst (run convert no_mk md (init_state cap disk) h))).
Proof. exact cache_unobservable. Qed.
Print Assumptions C20_cache_unobservable.

(* TRANSPARENCY ACROSS LOAD MODES.  The model run with the C09 model of
   convertToLogicalLines (Model/FileCacheLines.v: convert_lines raw o =
   Lines.convert_to_logical_lines raw (o & Makefile != 0)), so that the lines of a
   Load depend on the REQUESTED options.  After any history -- loads of any files
   under any of the 16 option sets in any order (Makefile mode then plain mode of
   the same file, plain then Makefile, sub- and supersets), fixes, saves, failing
   saves, modifications, overflow -- under the same protocol guard as above:
   Load(f, o) returns nil exactly when f is unreadable or empty with NotEmpty, and
   otherwise exactly the logical lines of the file's present content converted in
   the mode that THIS call asks for (mode_read, Proofs/FileCacheModes.v, spelled
   out with Lines.convert_to_logical_lines; the conversion never panics), no fix
   attached.  What an earlier Load of the file asked for does not matter. *)
Theorem C20_load_transparent_mixed_modes :
  forall is_mk md cap disk s fn o s' r, (1 <= cap)%nat -> reach convert_lines is_mk md cap disk s ->
  guard_step s (OLoad fn o) = true ->
  load convert_lines is_mk s fn o = Ok (s', r) ->
  match map_get (key fn) (st_disk s) with
  | None => load_obs s' r = None
  | Some raw =>
    if FileCache.is_empty raw && has_opt o NotEmpty then load_obs s' r = None
    else exists ls e,
        Model.Lines.convert_to_logical_lines raw (has_opt o Makefile) = Model.Lines.Ok (ls, e) /\
        load_obs s' r = Some (map lobs_of_line ls)
  end /\ st_disk s' = st_disk s.
Proof. exact load_transparent_mixed_modes. Qed.
Print Assumptions C20_load_transparent_mixed_modes.

(* ... in particular a plain-mode Load (no Makefile bit) returns one logical line
   per physical line, line k numbered k, Text = the physical line without its
   line feed -- also for a *.mk file with continuation lines that is in the cache
   from a Makefile-mode load (C09's clause for plain mode, through the cache) *)
Theorem C20_plain_load_one_line_per_physical_line :
  forall is_mk md cap disk s fn o s' r obs, (1 <= cap)%nat -> reach convert_lines is_mk md cap disk s ->
  guard_step s (OLoad fn o) = true ->
  has_opt o Makefile = false ->
  load convert_lines is_mk s fn o = Ok (s', r) ->
  load_obs s' r = Some obs ->
  Forall (fun ob : lobs => let '(no, text, raw, fx) := ob in
            exists p, raw = [p] /\ text = Spec.LinesSpec.content p /\ fx = false) obs /\
  (forall k ob, nth_error obs k = Some ob -> fst (fst (fst ob)) = 1 + N.of_nat k).
Proof. exact plain_load_one_line_per_physical_line. Qed.
Print Assumptions C20_plain_load_one_line_per_physical_line.

(* the options are part of the cache key EXACTLY: a Load is served by the cache
   (hits goes up by one; otherwise it stays) iff the file is in the mapping with an
   entry that was stored with exactly the requested options -- for every state,
   every convert *)
Theorem C20_hit_same_options : forall convert is_mk s fn o s' r,
  load convert is_mk s fn o = Ok (s', r) ->
  (c_hits (st_cache s') = c_hits (st_cache s) \/ c_hits (st_cache s') = c_hits (st_cache s) + 1) /\
  (c_hits (st_cache s') = c_hits (st_cache s) + 1 <->
   exists eid, map_get (key fn) (c_map (st_cache s)) = Some eid /\
               e_opts (entry_at (c_store (st_cache s)) eid) = o).
Proof. exact hit_same_options. Qed.
Print Assumptions C20_hit_same_options.

(* why exact equality is needed: the variant of Get whose hit condition is
   `entry.options&options == options` (Model/FileCacheLines.v: get_superset,
   load_superset; otherwise the same Load) is NOT transparent, already for two
   loads on a fresh G without any fix: f.mk = "A= \\\n b\nC= d\n"; Load(f, Makefile);
   Load(f, 0) is served the two joined lines instead of the three physical ones *)
Definition C20_superset_hit_variant : Prop := superset_hit_transparent.
Theorem C20_superset_hit_refuted : ~ C20_superset_hit_variant.
Proof. exact superset_hit_refuted. Qed.
Print Assumptions C20_superset_hit_refuted.

(* The full statement (no guard) is FALSE of the faithful model: FileCache.Put keeps
   the caller's *Lines, ReplaceAt edits Line.Text of those objects in every mode,
   and Get copies that Text.  Witness (any mode): a.mk = "V= 1\n";
   Load(a.mk); ReplaceAt(0, 2, " ", "\t") through the returned view; Load(a.mk)
   returns Text "V=\t1" next to the raw line "V= 1\n". *)
Definition C20_load_transparent_full : Prop := load_transparent_full.
Theorem C20_load_transparent_refuted : ~ C20_load_transparent_full.
Proof. exact load_transparent_refuted. Qed.
Print Assumptions C20_load_transparent_refuted.

(* SaveAutofixChanges evicts: every file it rewrites, and in every mode the file
   of every line with a modified fix, is out of the cache afterwards, so the next
   Load of it reads the disk -- unconditionally *)
Theorem C20_no_stale_after_save :
  forall convert is_mk md cap disk s v fail s' w, (1 <= cap)%nat -> reach convert is_mk md cap disk s ->
  step convert is_mk md s (OSave v fail) = Ok (s', ObsSave w) ->
  (forall k x, In (k, x) w -> map_get k (c_map (st_cache s')) = None) /\
  (forall fn ls l, view_lines s v = Some (fn, ls) -> In l ls -> is_modified l = true ->
     map_get (key (ln_file l)) (c_map (st_cache s')) = None) /\
  (forall fn o s'' r,
     (In (key fn) (map fst w) \/
      exists f ls l, view_lines s v = Some (f, ls) /\ In l ls /\ is_modified l = true /\
                     key (ln_file l) = key fn) ->
     load convert is_mk s' fn o = Ok (s'', r) ->
     load_obs s'' r = fresh_read convert (st_disk s') fn o).
Proof. exact no_stale_after_save. Qed.
Print Assumptions C20_no_stale_after_save.

(* ... and under EVERY outcome of the write: when the rewrite of a file fails
   (pre-existing *.pkglint.tmp, unwritable directory, failing rename -- the list
   `fail`), nothing is reported as written for it, the disk keeps its content, the
   file is evicted all the same, and the next Load returns the lines of the
   UNCHANGED file, not the fixed lines that are still in memory *)
Theorem C20_no_stale_after_failed_save :
  forall convert is_mk md cap disk s v fail s' w, (1 <= cap)%nat -> reach convert is_mk md cap disk s ->
  step convert is_mk md s (OSave v fail) = Ok (s', ObsSave w) ->
  (forall k, key_in k fail = true ->
     map_get k (st_disk s') = map_get k (st_disk s) /\ ~ In k (map fst w)) /\
  (forall f ls l fn o s'' r,
     view_lines s v = Some (f, ls) -> In l ls -> is_modified l = true ->
     key fn = key (ln_file l) -> key_in (key fn) fail = true ->
     load convert is_mk s' fn o = Ok (s'', r) ->
     map_get (key fn) (c_map (st_cache s')) = None /\
     load_obs s'' r = fresh_read convert (st_disk s) fn o).
Proof. exact no_stale_after_failed_save. Qed.
Print Assumptions C20_no_stale_after_failed_save.

(* over a whole run no Line object is handed out twice *)
Theorem C20_line_ids_never_reused :
  forall convert is_mk md cap disk s, (1 <= cap)%nat -> reach convert is_mk md cap disk s ->
  (forall v w fv av fw aw a,
     nth_error (st_views s) v = Some (fv, av) -> nth_error (st_views s) w = Some (fw, aw) ->
     In a av -> In a aw -> v = w) /\
  (forall v fn addrs, nth_error (st_views s) v = Some (fn, addrs) -> NoDup addrs).
Proof. exact line_ids_never_reused. Qed.
Print Assumptions C20_line_ids_never_reused.

(* every Load hands out Line objects that did not exist before, with no fix
   attached, disjoint from every earlier view, and leaves the earlier views alone *)
Theorem C20_fresh_lines_per_load :
  forall convert is_mk md cap disk s fn o s' v, (1 <= cap)%nat -> reach convert is_mk md cap disk s ->
  load convert is_mk s fn o = Ok (s', Some v) ->
  v = length (st_views s) /\
  exists addrs, nth_error (st_views s') v = Some (fn, addrs) /\
    (forall a, In a addrs ->
       (length (st_heap s) <= a < length (st_heap s'))%nat /\ ln_fix (line_at (st_heap s') a) = None) /\
    (forall w fw aw a, nth_error (st_views s) w = Some (fw, aw) -> In a aw -> ~ In a addrs) /\
    (forall w, (w < length (st_views s))%nat -> view_lines s' w = view_lines s w).
Proof. exact fresh_lines_per_load. Qed.
Print Assumptions C20_fresh_lines_per_load.

(* FileCache.Get hands out lines that stay PRIVATE to the caller.  A Load that is
   served by Get (the file is cached with these options) returns a view none of
   whose Line objects is reachable from the cache (addr_cached: some table entry
   holds the address) -- then and after EVERY continuation of the run (further
   loads, overflow, fixes through any view, successful and failing saves,
   modifications) -- and no other view holds any of them.  So whatever is done to
   these Line objects (Autofix changes of Text, Line.once marks) cannot change
   what a later Get copies from, in any mode.  (The view of a cache MISS is what
   Put stores; that aliasing is C20_load_transparent_refuted.) *)
Theorem C20_get_lines_fresh :
  forall convert is_mk md cap disk s fn o eid s1 v, (1 <= cap)%nat -> reach convert is_mk md cap disk s ->
  map_get (key fn) (c_map (st_cache s)) = Some eid ->
  e_opts (entry_at (c_store (st_cache s)) eid) = o ->
  load convert is_mk s fn o = Ok (s1, Some v) ->
  forall h s2 obs w, run convert is_mk md s1 h = (s2, obs, w) ->
  exists addrs, nth_error (st_views s2) v = Some (fn, addrs) /\
    (forall a, In a addrs -> ~ addr_cached s2 a) /\
    (forall u fu au a, u <> v -> nth_error (st_views s2) u = Some (fu, au) -> In a au -> ~ In a addrs).
Proof. exact get_lines_private. Qed.
Print Assumptions C20_get_lines_fresh.

(* a fix through one view changes no Line of any other view (the cache entry of the
   first view is NOT another view: that aliasing is what the guard is about) *)
Theorem C20_fix_touches_one_view :
  forall convert is_mk md cap disk s v i f s' ob, (1 <= cap)%nat -> reach convert is_mk md cap disk s ->
  step convert is_mk md s (OFix v i f) = Ok (s', ob) ->
  forall w, w <> v -> view_lines s' w = view_lines s w.
Proof. exact fix_touches_one_view. Qed.
Print Assumptions C20_fix_touches_one_view.

(* the hypotheses are satisfiable, and the guard is what fails: the refutation witness is
   reachable and violates exactly the guard *)
Example C20_witness_reachable : forall md, reach convert_plain all_mk md 2 wit_disk (wit_state md).
Proof. exact wit_reach. Qed.
Example C20_witness_breaks_guard : forall md, guard_step (wit_state md) (OLoad (0, 0) 4) = false.
Proof. exact wit_guard_false. Qed.

(* the same history followed by SaveAutofixChanges of the fixed view satisfies the
   guard, and the Load is served correctly (here from the disk: the save evicted) *)
Definition ex_ops : list op := wit_ops ++ [OSave 0 []].
Definition ex_state (md : mode) : state :=
  fst (fst (run convert_plain all_mk md (init_state 2 wit_disk) ex_ops)).
Example C20_guard_satisfiable : forall md,
  guard_step (ex_state md) (OLoad (0, 0) 4) = true /\
  exists s' r, load convert_plain all_mk (ex_state md) (0, 0) 4 = Ok (s', r) /\
    load_obs s' r = fresh_read convert_plain (st_disk (ex_state md)) (0, 0) 4 /\
    load_obs s' r <> None.
Proof.
  intros md. split; [destruct md; vm_compute; reflexivity|].
  destruct (load convert_plain all_mk (ex_state md) (0, 0) 4) as [[s' r]|w] eqn:L;
    [|destruct md; vm_compute in L; discriminate].
  exists s', r. split; auto.
  destruct md; vm_compute in L; inversion L; subst; vm_compute; split; congruence.
Qed.

(* a guarded history with a hit, a fix, a save and a reload; without the save it is not guarded *)
Example C20_guarded_history :
  guarded convert_plain all_mk ModeAutofix (init_state 2 wit_disk)
          ([OLoad (0, 0) 4; OLoad (0, 1) 4] ++ [OFix 0 0 (FReplaceAt 0 2 [32] [9]); OSave 0 []; OLoad (0, 0) 4]) = true /\
  guarded convert_plain all_mk ModeAutofix (init_state 2 wit_disk) (wit_ops ++ [OLoad (0, 0) 4]) = false.
Proof. split; vm_compute; reflexivity. Qed.

(* a cache hit under the guard: two loads in a row, the second is served by Get *)
Example C20_hit_under_guard :
  let s1 := fst (fst (run convert_plain all_mk ModeAutofix (init_state 2 wit_disk) [OLoad (0, 0) 4])) in
  guard_step s1 (OLoad (0, 1) 4) = true /\
  exists s' r, load convert_plain all_mk s1 (0, 1) 4 = Ok (s', r) /\
    c_hits (st_cache s') = 1 /\ load_obs s' r = fresh_read convert_plain (st_disk s1) (0, 1) 4.
Proof.
  split; [vm_compute; reflexivity|].
  eexists; eexists. split; [vm_compute; reflexivity|]. split; vm_compute; reflexivity.
Qed.

(* a failing save: Load a.mk; ReplaceAt through the view; SaveAutofixChanges whose
   write fails; Load a.mk: nothing written, disk unchanged, and the second Load
   shows the lines of the unchanged file (whereas without the save it shows the
   fixed Text, C20_load_transparent_refuted) *)
Definition failed_save_run :=
  run convert_plain all_mk ModeAutofix (init_state 2 wit_disk) (wit_ops ++ [OSave 0 [0]; OLoad (0, 0) 4]).
Example C20_failed_save_example :
  snd failed_save_run = None /\
  st_disk (fst (fst failed_save_run)) = wit_disk /\
  nth 2 (snd (fst failed_save_run)) ObsBad = ObsSave [] /\
  nth 3 (snd (fst failed_save_run)) ObsBad = ObsLoad (fresh_read convert_plain wit_disk (0, 0) 4) /\
  fresh_read convert_plain wit_disk (0, 0) 4 <> None.
Proof. vm_compute. repeat split; try reflexivity. discriminate. Qed.

(* mixed modes on the faithful model: Makefile then plain, plain then Makefile of a
   file with a continuation line: each Load shows the lines of ITS mode (they
   differ), no hit; the same options twice: one hit *)
Example C20_mixed_modes_example :
  snd (fst (modes_run 4 0)) =
    [ObsLoad (fresh_read convert_lines modes_disk (0, 0) 4); ObsLoad (fresh_read convert_lines modes_disk (0, 1) 0)] /\
  snd (fst (modes_run 0 4)) =
    [ObsLoad (fresh_read convert_lines modes_disk (0, 0) 0); ObsLoad (fresh_read convert_lines modes_disk (0, 1) 4)] /\
  fresh_read convert_lines modes_disk (0, 0) 4 <> fresh_read convert_lines modes_disk (0, 0) 0 /\
  c_hits (st_cache (fst (fst (modes_run 4 0)))) = 0 /\
  c_hits (st_cache (fst (fst (modes_run 4 4)))) = 1.
Proof. exact modes_example. Qed.
