(* C13 -- make glob patterns match like bmake; intersection and emptiness are exact.
   Only statements; every proof is `exact <lemma>`.
   Model: Model/Makepat.v (pat.go, mayMatchNumber).  Specifications: Spec/StrMatch.v
   (bmake's Str_Match, `malformed`), Spec/CNumber.v (C99 number grammar). *)
From PV Require Import Lib.Bytes Lib.ByteRange Model.Makepat Spec.StrMatch Spec.CNumber
  Proofs.MakepatRefute Proofs.MakepatMalformed Proofs.MakepatStrMatch Proofs.NumberExact
  Proofs.MakepatNFA Proofs.MakepatReach Proofs.MakepatIntersect3 Proofs.MakepatMayMatch Proofs.MakepatChainRanges.
Open Scope N_scope.

(* Compile never panics and never runs out of fuel, for any pattern *)
Theorem C13_compile_total : forall pat : str, exists r, compile pat = Ok r.
Proof. exact compile_total. Qed.
Print Assumptions C13_compile_total.

(* Compile returns an error exactly for the malformed patterns (unfinished
   escape sequence / character list / character range), for any pattern *)
Theorem C13_compile_fails_iff_malformed : forall pat : str,
  compile pat = Ok None <-> malformed pat = true.
Proof. exact compile_fails_iff_malformed. Qed.
Print Assumptions C13_compile_fails_iff_malformed.

(* the full statement: false of the faithful model *)
Definition C13_match_is_strmatch_full : Prop :=
  forall (p : str) (a : pattern) (s : str),
    compile p = Ok (Some a) -> res_to_option (matchp a s) = str_match p s.

(* witness: the pattern [a-]] and the word a (Match: true, Str_Match: false) *)
Theorem C13_match_is_strmatch_refuted : ~ C13_match_is_strmatch_full.
Proof. exact match_is_strmatch_refuted. Qed.
Print Assumptions C13_match_is_strmatch_refuted.

(* the guarded statement, for all patterns and all strings:
   - the string consists of bytes,
   - no non-negated character list of the pattern contains a range ending in ']'.
   Then Match neither panics nor runs out of fuel, Str_Match does not run out
   of fuel, and both give the same answer. *)
Theorem C13_match_is_strmatch_partial : forall (p : str) (a : pattern) (s : str),
  is_bytes s -> range_to_rbracket p = false ->
  compile p = Ok (Some a) ->
  exists b, matchp a s = Ok b /\ str_match p s = Some b.
Proof. exact match_is_strmatch_partial. Qed.
Print Assumptions C13_match_is_strmatch_partial.

(* Intersect, reachable, CanMatch: for all well-formed automata.
   wf a        (Proofs/MakepatNFA.v):   a has at least one state and every transition
                                        leads to an existing state;
   ranges_ok a (Proofs/MakepatReach.v): every transition has min <= max <= 255.
   Both hold of every compiled pattern (the next two theorems), of Number(), and
   are preserved by Intersect (C13_intersect_exact). *)
Theorem C13_compile_wf : forall (p : str) (a : pattern),
  compile p = Ok (Some a) -> wf a.
Proof. exact compile_wf. Qed.
Print Assumptions C13_compile_wf.

Theorem C13_compile_ranges : forall (p : str) (a : pattern),
  is_bytes p -> compile p = Ok (Some a) -> ranges_ok a.
Proof. exact compile_ranges. Qed.
Print Assumptions C13_compile_ranges.

Theorem C13_number_wf : wf number /\ ranges_ok number.
Proof. exact number_wf_ranges. Qed.
Print Assumptions C13_number_wf.

(* Intersect neither panics nor (it has no fuel) diverges; the result is again
   well-formed; it matches a string iff both arguments do. *)
Theorem C13_intersect_exact : forall a b : pattern,
  wf a -> wf b ->
  exists i, intersect a b = Ok i /\ wf i /\ (ranges_ok a \/ ranges_ok b -> ranges_ok i) /\
    forall s, exists x y, matchp a s = Ok x /\ matchp b s = Ok y /\ matchp i s = Ok (x && y).
Proof. exact intersect_exact_match. Qed.
Print Assumptions C13_intersect_exact.

(* the `goto again` loop of reachable() terminates within its fuel and never
   indexes out of range; the result marks exactly the states that can be
   reached from state 0 *)
Theorem C13_reachable_total : forall a : pattern, wf a ->
  exists rc, reachable a = Ok rc /\ reach_ok a rc.
Proof. exact reachable_total. Qed.
Print Assumptions C13_reachable_total.

(* CanMatch is true exactly when some byte string is matched *)
Theorem C13_can_match_exact : forall a : pattern, wf a -> ranges_ok a ->
  exists b, can_match a = Ok b /\ (b = true <-> exists s, is_bytes s /\ matchp a s = Ok true).
Proof. exact can_match_exact. Qed.
Print Assumptions C13_can_match_exact.

(* the automaton literal (regenerated from pat.go on every run) accepts exactly
   the C99 constants of Spec/CNumber.v; for every word, byte or not *)
Theorem C13_number_exact : forall s : str, matchp number s = Ok (is_c_number s).
Proof. exact number_exact. Qed.
Print Assumptions C13_number_exact.

(* the recogniser of the spec is the textbook language of the grammar *)
Theorem C13_c_number_is_grammar : forall s : str, is_c_number s = true <-> lang c_number s.
Proof. exact c_number_is_grammar. Qed.
Print Assumptions C13_c_number_is_grammar.

(* for a pattern without the "x-]" quirk: mayMatchNumber never panics; it reports an
   error exactly for malformed patterns; otherwise its answer is true exactly
   when some byte string is matched by the pattern (bmake's Str_Match) and is a
   C99 number *)
Theorem C13_may_match_number_exact : forall p : str,
  range_to_rbracket p = false ->
  exists b e, may_match_number p = Ok (b, e) /\
    (e = true <-> malformed p = true) /\
    (e = false ->
     (b = true <-> exists s, is_bytes s /\ str_match p s = Some true /\ is_c_number s = true)).
Proof. exact may_match_number_exact. Qed.
Print Assumptions C13_may_match_number_exact.

(* what the caller relies on: "false" means no numeric word can be matched *)
Theorem C13_may_match_number_sound : forall p : str,
  range_to_rbracket p = false ->
  may_match_number p = Ok (false, false) ->
  forall s, is_bytes s -> str_match p s = Some true -> is_c_number s = false.
Proof. exact may_match_number_sound. Qed.
Print Assumptions C13_may_match_number_sound.

(* The hypotheses can be met, and the functions compute what they should. *)

Definition ex_pat : str := [42; 46; 91; 99; 104; 93].        (* *.[ch] *)
Definition ex_str : str := [102; 111; 111; 46; 104].         (* foo.h *)
Example C13_witness_match :
  (exists a, compile ex_pat = Ok (Some a) /\ matchp a ex_str = Ok true)
  /\ str_match ex_pat ex_str = Some true /\ range_to_rbracket ex_pat = false
  /\ malformed ex_pat = false /\ is_bytes ex_str.
Proof.
  split; [eexists; split; vm_compute; reflexivity|].
  split; [vm_compute; reflexivity|]. split; [vm_compute; reflexivity|]. split; [vm_compute; reflexivity|].
  apply is_bytesb_spec. vm_compute. reflexivity.
Qed.

Definition ex_bad : str := [97; 91; 98; 45].                 (* a[b- *)
Example C13_witness_malformed : compile ex_bad = Ok None /\ malformed ex_bad = true.
Proof. split; vm_compute; reflexivity. Qed.

Definition ex_num : str := [45; 48; 120; 49; 46; 56; 112; 43; 51].   (* -0x1.8p+3 *)
Example C13_witness_number : matchp number ex_num = Ok true /\ matchp number [48; 120] = Ok false.
Proof. split; vm_compute; reflexivity. Qed.

Definition ex_c : str := [42; 46; 99].    (* *.c *)
Definition ex_h : str := [42; 46; 104].   (* *.h *)
Definition ex_ac : str := [97; 42].       (* a* *)
Example C13_witness_intersect :
  exists a b c i j,
    compile ex_c = Ok (Some a) /\ compile ex_h = Ok (Some b) /\ compile ex_ac = Ok (Some c)
    /\ intersect a b = Ok i /\ can_match i = Ok false
    /\ intersect a c = Ok j /\ can_match j = Ok true /\ matchp j [97; 46; 99] = Ok true.
Proof.
  do 5 eexists. repeat (split; [vm_compute; reflexivity|]). vm_compute. reflexivity.
Qed.

Example C13_witness_may_match_number :
  may_match_number [42] = Ok (true, false)                    (* "*" may be a number *)
  /\ may_match_number [97; 42] = Ok (false, false)             (* "a*" cannot *)
  /\ may_match_number [91; 48; 45; 57; 93; 42] = Ok (true, false)   (* "[0-9]*" may *)
  /\ may_match_number [91] = Ok (true, true).                 (* "[" is malformed *)
Proof. repeat split; vm_compute; reflexivity. Qed.
