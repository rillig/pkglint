(* C19 -- Relative paths in diagnostics and lookups resolve to the file they mean.
   Only statements; every proof is `exact <lemma>`.
   Model: Model/Paths.v (path.go, Pkglint.Abs, Pkgsrc.Relpath, Line.Rel as they are after
   the fix: commits 514c6db, 9dfe426 and the four repairs of CleanDot/CleanPath,
   HasPrefixPath, ContainsPath, HasSuffixPath).  Specification: Spec/PathDenote.v. *)
From PV Require Import Lib.Bytes Model.Paths Spec.PathDenote Proofs.PathsClean
  Proofs.PathsPrefix Proofs.PathsContains Proofs.PathsSuffix Proofs.PathsRelpath.
Open Scope N_scope.

(* Cleaning a path never changes the file it denotes: all byte strings, all working directories. *)

(* Path.Clean (Go's path.Clean) *)
Theorem C19_clean_denotes : forall cwd p : str, denote cwd (clean p) = denote cwd p.
Proof. exact clean_denotes. Qed.
Print Assumptions C19_clean_denotes.

(* Path.CleanDot (a spelling of the root such as "/." becomes "/") *)
Theorem C19_clean_dot_denotes : forall cwd p : str, denote cwd (clean_dot p) = denote cwd p.
Proof. exact clean_dot_denotes. Qed.
Print Assumptions C19_clean_dot_denotes.

(* Path.CleanPath *)
Theorem C19_clean_path_denotes : forall cwd p : str, denote cwd (clean_path p) = denote cwd p.
Proof. exact clean_path_denotes. Qed.
Print Assumptions C19_clean_path_denotes.

(* The component-wise tests agree with comparing component lists.
   For non-empty paths: the empty path denotes nothing; the test suite fixes
   "x".HasPrefixPath("") = false and "".HasPrefixPath("") = true.
   Paths may contain any redundant "/", "./", "/." -- no canonical form is assumed. *)

Theorem C19_prefix_is_parts_prefix : forall p q : str,
  p <> [] -> q <> [] ->
  (components q = [] -> is_abs p = rooted p) -> (* for q = ".", "./", ...: p has no Windows drive prefix "X:/" *)
  has_prefix_path p q = path_prefixb q p.
Proof. exact prefix_is_parts_prefix. Qed.
Print Assumptions C19_prefix_is_parts_prefix.

Theorem C19_contains_is_parts_infix : forall p sub : str,
  p <> [] -> sub <> [] ->
  (components sub = [] -> ~ In colon p) ->      (* for sub = ".", "./", ...: no ':' in p (same drive rule) *)
  contains_path p sub = path_infixb sub p.
Proof. exact contains_is_parts_infix. Qed.
Print Assumptions C19_contains_is_parts_infix.

(* "It doesn't really make sense to ask whether a path ends with the current directory"
   (path_test.go, which fixes "dir".HasSuffixPath(".") = false): the suffix has a component *)
Theorem C19_suffix_is_parts_suffix : forall p suffix : str,
  p <> [] -> suffix <> [] -> components suffix <> [] ->
  has_suffix_path p suffix = path_suffixb suffix p.
Proof. exact suffix_is_parts_suffix. Qed.
Print Assumptions C19_suffix_is_parts_suffix.

(* Pkgsrc.Relpath.
   From every directory inside the pkgsrc tree to every location, inside or outside:
   Relpath does not panic, and from/Relpath(from, to) denotes what `to` denotes.
   cwd = G.cwd (absolute), topdir = the pkgsrc root as given (relative or absolute).
   All seven branches of Relpath are covered. *)
Definition C19_relpath_denotes_full : Prop :=
  forall cwd topdir from to : str,
  rooted cwd = true -> from <> [] -> inside cwd topdir from = true ->
  exists r, relpath cwd topdir from to = Ok r /\ denote cwd (join_path from r) = denote cwd to.
Theorem C19_relpath_denotes_refuted : ~ C19_relpath_denotes_full.
Proof. exact relpath_denotes_refuted. Qed.     (* Relpath("a", "a/c:/x"): NewRelPath("c:/x") panics *)
Print Assumptions C19_relpath_denotes_refuted.
Theorem C19_relpath_denotes_partial : forall cwd topdir from to : str,
  rooted cwd = true ->
  ~ In colon cwd -> ~ In colon topdir -> ~ In colon from -> ~ In colon to ->  (* no ':' anywhere *)
  from <> [] ->
  inside cwd topdir from = true ->
  exists r, relpath cwd topdir from to = Ok r /\ denote cwd (join_path from r) = denote cwd to.
Proof. exact relpath_denotes. Qed.
Print Assumptions C19_relpath_denotes_partial.

(* the shortcut `cfrom == "." && !cto.IsAbs()` is dead code: the HasPrefixPath shortcut takes those pairs *)
Theorem C19_relpath_branch4_dead : forall cwd topdir from to : str,
  fst (relpath_b cwd topdir from to) <> 4%nat.
Proof. exact relpath_branch4_dead. Qed.
Print Assumptions C19_relpath_branch4_dead.

(* Line.Rel (line.go): the path printed in a diagnostic leads from the directory of the
   line's file to the file that is meant *)
Theorem C19_line_rel_denotes : forall cwd topdir filename other : str,
  rooted cwd = true ->
  ~ In colon cwd -> ~ In colon topdir -> ~ In colon (dir filename) -> ~ In colon other ->
  inside cwd topdir (dir filename) = true ->
  exists r, line_rel cwd topdir filename other = Ok r
            /\ denote cwd (join_path (dir filename) r) = denote cwd other.
Proof. exact line_rel_denotes. Qed.
Print Assumptions C19_line_rel_denotes.

(* the hypotheses are satisfiable, the verdicts non-trivial *)
Definition ex_cwd : str := [47; 120; 47; 99; 97; 116; 47; 112; 107; 103].          (* "/x/cat/pkg" *)
Definition ex_top : str := [46; 46; 47; 46; 46].                                   (* "../.."      *)
Definition ex_from : str := [46].                                                  (* "."          *)
Definition ex_to : str := [46; 46; 47; 46; 46; 47; 109; 107; 47; 97; 46; 109; 107]. (* "../../mk/a.mk" *)
Example C19_relpath_witness :
  inside ex_cwd ex_top ex_from = true /\
  relpath ex_cwd ex_top ex_from ex_to = Ok ex_to /\
  denote ex_cwd ex_to = [[120]; [109; 107]; [97; 46; 109; 107]].
Proof. repeat split; vm_compute; reflexivity. Qed.

(* 8-10 of DESIGN.md, on the repaired code: Relpath("/x", ".") from /x/cat/pkg is "cat/pkg" *)
Example C19_relpath_absolute_from :
  relpath ex_cwd ex_top [47; 120] [46] = Ok [99; 97; 116; 47; 112; 107; 103].
Proof. vm_compute; reflexivity. Qed.

(* 8-9 of DESIGN.md, on the repaired code *)
Example C19_prefix_trailing_slash :
  has_prefix_path [97; 47; 98] [97; 47] = true /\ has_prefix_path [47; 97] [47] = true.
Proof. split; vm_compute; reflexivity. Qed.

(* the repaired cases *)
Example C19_repaired :
  clean_dot [47; 46] = [47] /\ clean_path [47] = [47] /\                        (* "/." -> "/", "/" -> "/" *)
  has_prefix_path [97] [46; 47] = true /\                                       (* "a" has prefix "./" *)
  contains_path [97; 47; 98] [98; 47] = true /\                                 (* "a/b" contains "b/" *)
  contains_path [97; 47; 47; 98] [47; 98] = false /\                            (* "a//b" does not contain "/b" *)
  has_suffix_path [97; 47; 98; 47] [98] = true /\                               (* "a/b/" ends with "b" *)
  has_suffix_path [120; 47; 47; 97] [47; 97] = false.                           (* "x//a" does not end with "/a" *)
Proof. repeat split; vm_compute; reflexivity. Qed.
