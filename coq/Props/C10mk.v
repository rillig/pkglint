(* C10 (make half) -- the make tokenizers partition their input and always make
   progress.  Only statements; every proof is `exact <lemma>`.
   Strings are lists of bytes (N); every theorem is for ALL byte strings.
   Result of a modelled Go function: Ok v | OutOfFuel (the model's fuel did not
   suffice) | Panic (the Go code panics: index/slice out of range, failed assert). *)
From PV Require Import Lib.Bytes Model.MkLexPrim Model.MkLexer Model.MkTokensLexer Model.MkLineSplit
  Model.VaralignSplit Spec.MkPartition Proofs.MkLexPrim Proofs.MkLexer Proofs.MkLineSplit Proofs.VaralignSplit Proofs.Varassign Proofs.VarassignFull.
From PV Require Import Model.MatchVarassign Proofs.MatchVarassign.
From PV Require Model.Lines.
Open Scope N_scope.

(* mklexer.go *)

(* MkLexer.Expr returns nil and leaves the lexer where it was, or returns an
   expression and has chopped off a non-empty prefix: s = c ++ r with c <> [].
   This covers the whole mutually recursive block (exprBrace, Varname, exprText,
   ExprModifiers and every modifier parser, parseModifierPart, exprAlnum). *)
Theorem C10mk_expr_advance : forall s : str,
  Expr s = Ok None \/ exists r, Expr s = Ok (Some r) /\ chops s r.
Proof. exact expr_advance. Qed.
Print Assumptions C10mk_expr_advance.

(* ... in particular the fuel |s|+1 (nesting depth) and the per-loop fuels
   suffice and no Go panic site is reached *)
Theorem C10mk_expr_total : forall s : str, Expr s <> OutOfFuel /\ Expr s <> Panic.
Proof. exact expr_total. Qed.
Print Assumptions C10mk_expr_total.

(* MkLexer.MkTokens: the token texts, in order, followed by Rest() are the input,
   and no token text is empty; MkTokens is total *)
Theorem C10mk_mktokens_partition : forall s : str,
  exists toks rest, MkTokens s = Ok (toks, rest) /\ partitions toks rest s.
Proof. exact mktokens_partition. Qed.
Print Assumptions C10mk_mktokens_partition.

(* staging: the same for ANY expression parser E that satisfies the advance
   contract on texts of at most n bytes (this is what the layers above Expr need) *)
Theorem C10mk_mktokens_partition_under_contract : forall (E : exprfn) (n : nat),
  step_ok E n ->
  forall fuel s, (length s <= n)%nat -> (length s < fuel)%nat ->
  exists toks rest, mk_tokens_loop E fuel s = Ok (toks, rest) /\ partitions toks rest s.
Proof. exact mk_tokens_loop_ok. Qed.
Print Assumptions C10mk_mktokens_partition_under_contract.

(* MkLexer.Varname: the variable name followed by Rest() is the input *)
Theorem C10mk_varname_partition : forall s : str,
  exists v r, Varname s = Ok (v, r) /\ v ++ r = s.
Proof. exact varname_partition. Qed.
Print Assumptions C10mk_varname_partition.

(* mklineparser.go *)

(* MkLineParser.tokenize: the token texts are the text, none is empty, nothing is
   left over; the assert in tokenize cannot fail *)
Theorem C10mk_tokenize_partition : forall s : str,
  exists toks, tokenize s = Ok toks /\ partitions toks [] s.
Proof. exact tokenize_partition. Qed.
Print Assumptions C10mk_tokenize_partition.

(* unescapeComment: the comment is a suffix of the text, empty or starting with '#';
   the main part is the text before it with "\#" unescaped *)
Theorem C10mk_unescape_comment_exact : forall s main comment : str,
  unescape_comment s = Ok (main, comment) ->
  exists pre, s = pre ++ comment /\ main = unescape_hash pre /\
              (comment = [] \/ exists t, comment = 35 :: t).
Proof. exact unescape_comment_exact. Qed.
Print Assumptions C10mk_unescape_comment_exact.

(* unescapeComment is total on texts without a newline (a Line.Text never contains
   one); with a newline the Go code asserts: see C10mk_unescape_comment_newline *)
Theorem C10mk_unescape_comment_total : forall s : str,
  ~ In 10 s -> exists main comment, unescape_comment s = Ok (main, comment).
Proof. exact unescape_comment_total. Qed.
Print Assumptions C10mk_unescape_comment_total.

Theorem C10mk_unescape_comment_fuel : forall s : str, unescape_comment s <> OutOfFuel.
Proof. exact unescape_comment_fuel. Qed.
Print Assumptions C10mk_unescape_comment_fuel.

(* the guard is needed *)
Example C10mk_unescape_comment_newline : unescape_comment [97; 10; 98] = Panic.
Proof. vm_compute. reflexivity. Qed.

(* the three rules in the documentation of unescapeComment:
   "\#" is an escaped '#';  after an even number of backslashes the '#' starts the
   comment;  "[#" does not start a comment *)
Example C10mk_comment_rules :
  unescape_comment [97; 92; 35; 98] = Ok ([97; 35; 98], []) /\
  unescape_comment [97; 92; 92; 35; 98] = Ok ([97; 92; 92], [35; 98]) /\
  unescape_comment [91; 35; 93; 32; 35; 99] = Ok ([91; 35; 93; 32], [35; 99]).
Proof. vm_compute. repeat split; reflexivity. Qed.

(* split: main ++ spaceBeforeComment is the (unescaped) text before the comment,
   the space consists of blanks, main has no trailing blank, and the comment with
   its '#' ends the text *)
Theorem C10mk_split_recombines : forall (text : str) (trim : bool) (r : split_result),
  split text trim = Ok r ->
  exists pre, text = pre ++ comment_tail r /\
    (if trim then unescape_hash pre else pre) = sr_main r ++ sr_space_before_comment r /\
    forallb is_hspace (sr_space_before_comment r) = true /\
    rtrim_hspace (sr_main r ++ sr_space_before_comment r) = sr_main r /\
    (sr_has_comment r = false -> sr_comment r = []).
Proof. exact split_recombines. Qed.
Print Assumptions C10mk_split_recombines.

(* split is total on texts without newline that do not start with a tab (the
   assert at its start) *)
Theorem C10mk_split_total : forall (text : str) (trim : bool),
  ~ In 10 text -> peek_is text 9 = false -> exists r, split text trim = Ok r.
Proof. exact split_total. Qed.
Print Assumptions C10mk_split_total.

(* mktokenslexer.go *)

(* Rest() of a fresh MkTokensLexer is the concatenation of the token texts;
   NextExpr chops exactly the text of the returned token off Rest();
   SkipMixed leaves a suffix of Rest() *)
Theorem C10mk_tokenslexer_rest : forall toks : list token,
  tl_rest (tl_new toks) = concat (map fst toks).
Proof. exact tl_rest_new. Qed.
Print Assumptions C10mk_tokenslexer_rest.

Theorem C10mk_tokenslexer_next_expr : forall (m : tlexer) (t : token) (m' : tlexer),
  tl_next_expr m = Some (t, m') -> snd t = true /\ tl_rest m = fst t ++ tl_rest m'.
Proof. exact tl_next_expr_rest. Qed.
Print Assumptions C10mk_tokenslexer_next_expr.

Theorem C10mk_tokenslexer_skip_mixed : forall fuel k (m m' : tlexer),
  tl_skip_mixed fuel k m = Ok m' -> is_suffix (tl_rest m') (tl_rest m).
Proof. exact tl_skip_mixed_suffix. Qed.
Print Assumptions C10mk_tokenslexer_skip_mixed.

(* varalignblock.go *)

(* VaralignSplitter.split: varalignParts.String() is the raw text *)
Theorem C10mk_varalign_recombines : forall (raw : str) (initial : bool) (p : varalign_parts),
  varalign_split raw initial = Ok p -> parts_string p = raw.
Proof. exact varalign_recombines. Qed.
Print Assumptions C10mk_varalign_recombines.

(* only the last backslash of a raw line is the continuation marker (/repo e9b7350):
   `=\\\`  has the value `\\` and the continuation `\` *)
Example C10mk_varalign_continuation :
  exists p, varalign_split [61; 92; 92; 92] true = Ok p /\
            vp_value p = [92; 92] /\ vp_space_after_value p = [] /\ vp_continuation p = [92].
Proof. vm_compute. eexists; repeat split; reflexivity. Qed.

Theorem C10mk_varalign_fuel : forall (raw : str) (initial : bool),
  varalign_split raw initial <> OutOfFuel.
Proof. exact varalign_fuel. Qed.
Print Assumptions C10mk_varalign_fuel.

(* a follow-up line is always split; an initial line is split unless no
   assignment operator follows the variable name (assert(ok) in parseVarnameOp) *)
Theorem C10mk_varalign_follow_total : forall raw : str,
  ~ In 10 raw -> exists p, varalign_split raw false = Ok p.
Proof. exact varalign_follow_total. Qed.
Print Assumptions C10mk_varalign_follow_total.

Theorem C10mk_varalign_initial_total : forall raw : str, ~ In 10 raw ->
  (exists p, varalign_split raw true = Ok p) \/
  (varalign_split raw true = Panic /\
   parse_varname_op true (snd (parse_leading_comment true raw)) = Panic).
Proof. exact varalign_initial_total. Qed.
Print Assumptions C10mk_varalign_initial_total.

(* The full law: whenever matchVarassign accepts a (single raw) line without newline,
   VaralignSplitter.split succeeds on it, and the alignment prefix MkLine.ValueAlign()
   = leadingComment + varnameOp + spaceBeforeValue, the value (re-escaped: mid with
   unescape_hash mid = value), the space before the comment and the comment (with its
   '#') recombine to the line.  In particular MkLine.ValueAlign() cannot panic.
   (It rests on VaralignSplitter.parseVarnameOp parsing the same text as matchVarassign; a
   parseVarnameOp that parses the raw line instead asserts on `$\#=` and on `${A:S,a,b}=v # ,}`.) *)
Theorem C10mk_varassign_recombines : forall (text : str) (a : varassign),
  ~ In 10 text -> parse_varassign text = Ok (Some a) ->
  exists (p : varalign_parts) (mid : str),
    varalign_split text true = Ok p /\
    text = (vp_leading_comment p ++ vp_varname_op p ++ vp_space_before_value p) ++ mid ++
           sr_space_before_comment (va_split a) ++ comment_tail (va_split a) /\
    unescape_hash mid = va_value a.
Proof. exact varassign_recombines. Qed.
Print Assumptions C10mk_varassign_recombines.

(* the guard is needed only for texts that are no Line.Text: a newline inside the comment *)
Example C10mk_varassign_newline_in_comment :
  (exists a, parse_varassign [65; 61; 118; 32; 35; 10] = Ok (Some a)) /\
  varalign_split [65; 61; 118; 32; 35; 10] true = Panic.
Proof. split; [vm_compute; eexists; reflexivity|vm_compute; reflexivity]. Qed.

(* the parts of `$\#=` and of `${A:S,a,b}=v # ,}` *)
Example C10mk_varassign_former_witnesses :
  (exists p, varalign_split [36; 92; 35; 61] true = Ok p /\ vp_varname_op p = [36; 92; 35; 61]) /\
  (exists p, varalign_split [36; 123; 65; 58; 83; 44; 97; 44; 98; 125; 61; 118; 32; 35; 32; 44; 125] true = Ok p /\
             vp_varname_op p = [36; 123; 65; 58; 83; 44; 97; 44; 98; 125; 61] /\ vp_value p = [118; 32; 35; 32; 44; 125]).
Proof. split; vm_compute; eexists; repeat split; reflexivity. Qed.

(* What does hold for EVERY line that matchVarassign accepts (the part of the law
   that involves matchVarassign's own pieces): the line is [#] ++ pre ++ comment
   ("#" only for a commented assignment, comment with its leading '#'), and the
   unescaped pre is head ++ value ++ blanks, where head ++ value is the main part of
   the split result and the blanks are spaceBeforeComment (which matchVarassign
   moves into the alignment when the value is empty). *)
Theorem C10mk_varassign_value_comment_recombine : forall (text : str) (a : varassign),
  parse_varassign text = Ok (Some a) ->
  exists head pre sp,
    text = (if va_commented a then [35] else []) ++ pre ++ comment_tail (va_split a) /\
    unescape_hash pre = head ++ va_value a ++ sp /\
    sr_main (va_split a) = head ++ va_value a /\
    forallb is_hspace sp = true /\
    (va_value a <> [] -> sp = sr_space_before_comment (va_split a)).
Proof. exact varassign_value_comment_recombine. Qed.
Print Assumptions C10mk_varassign_value_comment_recombine.

(* the fuel of the matchVarassign model always suffices *)
Theorem C10mk_varassign_fuel : forall text : str, parse_varassign text <> OutOfFuel.
Proof. exact varassign_fuel. Qed.
Print Assumptions C10mk_varassign_fuel.

(* matchVarassign on logical lines made of SEVERAL raw lines (Model/MatchVarassign.v):
   raw0 = line.raw[0].Orig(), text = line.Text, multiline = line.IsMultiline().
   All statements are for ALL raw0 / text, hence for every line convertToLogicalLines builds. *)

(* a logical line of one raw line: literally the model the theorems above are about *)
Theorem C10mk_varassign_ml_single : forall text : str,
  parse_varassign_ml false text text = parse_varassign text.
Proof. exact ml_single. Qed.
Print Assumptions C10mk_varassign_ml_single.

(* the guard (/repo 96b19dc): an accepted multi-line assignment has its operator in the first raw
   line - the raw text of the logical line up to and including the operator is no longer than the
   first physical line without its continuation backslash and trailing blanks *)
Theorem C10mk_varassign_ml_guard : forall (raw0 text : str) (a : varassign),
  parse_varassign_ml true raw0 text = Ok (Some a) ->
  exists up_to_op r, text = up_to_op ++ r /\ (length up_to_op <= length (first_line_of raw0))%nat.
Proof. exact varassign_ml_guard. Qed.
Print Assumptions C10mk_varassign_ml_guard.

(* value, space and comment recombine to the LOGICAL text, whatever the raw lines are *)
Theorem C10mk_varassign_ml_value_comment_recombine :
  forall (multiline : bool) (raw0 text : str) (a : varassign),
  parse_varassign_ml multiline raw0 text = Ok (Some a) ->
  exists head pre sp,
    text = (if va_commented a then [35] else []) ++ pre ++ comment_tail (va_split a) /\
    unescape_hash pre = head ++ va_value a ++ sp /\
    sr_main (va_split a) = head ++ va_value a /\
    forallb is_hspace sp = true /\
    (va_value a <> [] -> sp = sr_space_before_comment (va_split a)).
Proof. exact varassign_ml_value_comment_recombine. Qed.
Print Assumptions C10mk_varassign_ml_value_comment_recombine.

(* the alignment prefix of an accepted assignment is a prefix of the FIRST RAW LINE, followed by
   blanks only when the value is empty (the spaceBeforeComment moved into it) *)
Theorem C10mk_varassign_ml_align_prefix :
  forall (multiline : bool) (raw0 text : str) (a : varassign),
  parse_varassign_ml multiline raw0 text = Ok (Some a) ->
  exists al r sp, raw0 = al ++ r /\ va_value_align a = al ++ sp /\ forallb is_hspace sp = true /\
    (va_value a <> [] -> sp = []).
Proof. exact varassign_ml_align_prefix. Qed.
Print Assumptions C10mk_varassign_ml_align_prefix.

(* the same, over the lines of a whole file as C09's convertToLogicalLines builds them *)
Theorem C10mk_varassign_file_lines :
  forall (raw_text : str) (ls : list (Lines.line * res (option varassign))),
  varassign_of_file raw_text = Ok ls ->
  Forall (fun lr : Lines.line * res (option varassign) =>
    forall a, snd lr = Ok (Some a) ->
      va_law (Lines.text (fst lr)) a /\
      (line_multiline (fst lr) = true ->
       exists up_to_op r, Lines.text (fst lr) = up_to_op ++ r /\
         (length up_to_op <= length (first_line_of (line_raw0 (fst lr))))%nat)) ls.
Proof. exact varassign_of_file_lines. Qed.
Print Assumptions C10mk_varassign_file_lines.

(* No panic on logical lines of several raw lines (since /repo 96b19dc).
   The shape of a line: one raw line = the text; several: F = the first physical line without its
   continuation backslash and trailing blanks starts both the raw line and the logical text. *)
Theorem C10mk_varassign_ml_no_panic_line : forall (multiline : bool) (raw0 text : str) (r : option varassign),
  (if multiline then exists x y, text = first_line_of raw0 ++ x /\ raw0 = first_line_of raw0 ++ y
   else raw0 = text) ->
  parse_varassign text = Ok r -> parse_varassign_ml multiline raw0 text <> Panic.
Proof. exact varassign_ml_no_panic. Qed.
Print Assumptions C10mk_varassign_ml_no_panic_line.

(* FULL statement over files: for every line convertToLogicalLines builds, matchVarassign does not
   panic unless parsing the logical text alone does.  Neither proved nor refuted; proved below with
   the shape of the line as a hypothesis - that
   convertToLogicalLines gives every line this shape is corresponded on every run
   (C10/correspondence/varassign-ml-line-shape), not yet derived from C09's theorems. *)
Definition C10mk_varassign_ml_no_panic_full : Prop := ml_no_panic_full.

Theorem C10mk_varassign_ml_no_panic_partial :
  forall (raw_text : str) (ls : list (Lines.line * res (option varassign))),
  varassign_of_file raw_text = Ok ls ->
  Forall (fun lr : Lines.line * res (option varassign) =>
    ml_shape (line_multiline (fst lr)) (line_raw0 (fst lr)) (Lines.text (fst lr)) ->
    (exists r, parse_varassign (Lines.text (fst lr)) = Ok r) -> snd lr <> Panic) ls.
Proof. exact ml_no_panic_lines. Qed.
Print Assumptions C10mk_varassign_ml_no_panic_partial.

(* VAR.${PARAM:S,=,,}\ / = value (the `=` of the expression in the first raw line, the operator in
   the second) is no assignment *)
Example C10mk_varassign_ml_witness :
  varassign_of_file ml_witness_file =
    Ok [(Lines.mk_line 1 ml_witness_text [ml_witness_raw0 ++ [10]; [61;32;118;97;108;117;101;10]], Ok None)].
Proof. exact ml_witness_lines. Qed.
