(* C17 -- 'redundant' / 'has no effect' / 'overwritten' verdicts are sound: the
   flagged line can be deleted.  Only statements; every proof is `exact <lemma>`.

   This is the state AFTER the fixes 01-04 of RedundantScope (a '!=' invalidates
   the remembered text; ':=' and '!=' also read the variables they reach through
   other variables; a later '?=' only replaces the single earlier definition; a
   '!=' that uses the variable itself does not make the previous definition
   redundant).  One finding cannot be repaired without changing what the test
   suite expects (VAR:= ${X} followed by VAR= ${X} must be reported as redundant,
   redundantscope_test.go), so the full statement is still false.

   check     : Model/Redundant.v, the model of RedundantScope.Check (verdicts =
               flagged line, line named in the message, kind)
   deletable : Spec/VerdictSound.v: deleting line i leaves the final value of
               every variable (Spec/MakeEval.v, for every fuel) unchanged
   wf_program: what the makefile parser can produce (no '$' in literal chunks
               and names, the value text does not start with a space)
   check p = Ok vs excludes Panic (include path runs off the stack) and OutOfFuel
   (closure of Var.Refs not reached in the allotted rounds; C17_check_total shows
   that this never happens). *)
From PV Require Import Lib.Bytes Model.Redundant Model.RedundantPaths Model.RedundantCond Spec.MakeEval Spec.VerdictSound
  Spec.PathDenote Spec.SpellingIndep
  Proofs.RedundantRefuted Proofs.RedundantReads Proofs.RedundantTotal
  Proofs.RedundantPaths Proofs.RedundantCond Proofs.RedundantCondSim
  Spec.VerdictSound2 Proofs.RedundantSound2 Proofs.RedundantSound3 Proofs.RedundantSound4
  Model.RedundantDir Spec.MakeEvalDir Spec.VerdictSoundDir Proofs.RedundantDir.

Definition C17_verdict_sound_full : Prop :=
  forall (p : program) (vs : list verdict) (vd : verdict),
    wf_program p = true -> check p = Ok vs -> In vd vs -> deletable p (vd_flagged vd).

(* Still false: VB= 1 / VA:= ${VB} / VA= ${VB} / VB= 2, "line 3 is redundant". *)
Theorem C17_verdict_sound_refuted : ~ C17_verdict_sound_full.
Proof. exact verdict_sound_full_refuted. Qed.
Print Assumptions C17_verdict_sound_refuted.

(* The partial theorem, for all programs (any include structure, every fuel).
   A verdict about variable x flags a deletable line whenever
   - the LATER of its two lines is flagged because it assigns the remembered text
     again ('=' or ':='): the last '=' / ':=' to x before it is not a ':=' whose
     text contains a '$' (the unrepaired finding);
     no condition if the later line is flagged because it is a '?=';
   - an EARLIER line is flagged: no ':=' / '!=' with a '$' in its text strictly
     between the two lines, and the later line is not one either. *)
Theorem C17_verdict_sound_partial :
  forall (p : program) (vs : list verdict) (vd : verdict),
    wf_program p = true -> check p = Ok vs -> In vd vs ->
    (if Nat.ltb (vd_flagged vd) (vd_because vd) then
       eager_plain (between p (vd_flagged vd) (vd_because vd)) && line_plain p (vd_because vd)
     else
       match line_op p (vd_flagged vd) with
       | Some OpDefault => true
       | _ => negb (after_eval_ref (writes_of (line_var p (vd_flagged vd)) 0 (firstn (vd_flagged vd) p)))
       end) = true ->
    deletable p (vd_flagged vd).
Proof. exact verdict_sound_partial. Qed.
Print Assumptions C17_verdict_sound_partial.

(* In plain terms: if no ':=' and no '!=' in the program has a '$' in its text,
   every verdict is sound -- in one file or with included files. *)
Theorem C17_eager_plain_sound :
  forall (p : program) (vs : list verdict) (vd : verdict),
    wf_program p = true -> eager_plain p = true ->
    check p = Ok vs -> In vd vs -> deletable p (vd_flagged vd).
Proof. exact eager_plain_sound. Qed.
Print Assumptions C17_eager_plain_sound.

(* The condition on a flagged later line is needed. *)
Theorem C17_guard_needs_eval_condition :
  ~ verdict_sound_on (fun p vd =>
      Nat.ltb (vd_flagged vd) (vd_because vd) = true ->
      eager_plain (between p (vd_flagged vd) (vd_because vd)) && line_plain p (vd_because vd) = true).
Proof. exact guard_needs_eval_condition. Qed.
Print Assumptions C17_guard_needs_eval_condition.

(* Reads block verdicts: when the last mention of x before an assignment to x
   is a use ${x} in a value, that assignment emits no verdict. *)
Theorem C17_read_blocks_verdict :
  forall (pre : program) (l : line) (post : program) (a : assign) (vs : list verdict),
    check (pre ++ l :: post) = Ok vs -> l_body l = Some a ->
    last_mention (a_var a) pre = ARead ->
    forall vd, In vd vs -> emitted_at vd <> length pre.
Proof. exact read_blocks_verdict. Qed.
Print Assumptions C17_read_blocks_verdict.

(* The fuel of the model (rounds for the closure of Var.Refs) always suffices:
   check p = Ok vs only excludes the panic of includePath.popUntil. *)
Theorem C17_check_total : forall p : program, check p <> OutOfFuel.
Proof. exact check_never_out_of_fuel. Qed.
Print Assumptions C17_check_total.

(* The hypotheses are satisfiable. *)
Example C17_guard_satisfiable :
  wf_program prog_good = true /\
  check prog_good = Ok [mkVerdict 1 0 KRedundant; mkVerdict 2 1 KNoEffect; mkVerdict 2 3 KOverwritten] /\
  forallb (guard prog_good) [mkVerdict 1 0 KRedundant; mkVerdict 2 1 KNoEffect; mkVerdict 2 3 KOverwritten] = true.
Proof. exact prog_good_facts. Qed.

Example C17_eager_plain_satisfiable : eager_plain prog_good = true.
Proof. exact prog_good_plain. Qed.

Example C17_guard_allows_eval_elsewhere :
  wf_program prog_good_eval = true /\ check prog_good_eval = Ok [mkVerdict 2 1 KRedundant] /\
  guard prog_good_eval (mkVerdict 2 1 KRedundant) = true /\ eager_plain prog_good_eval = false.
Proof. exact prog_good_eval_facts. Qed.

(* The former counterexamples: the repaired code no longer emits the wrong verdict. *)
Example C17_repaired_indirect_read : check prog_indirect = Ok [].
Proof. exact prog_indirect_facts. Qed.

Example C17_repaired_after_shell :
  check prog_shell = Ok [mkVerdict 0 1 KRedundant; mkVerdict 1 2 KOverwritten] /\
  deletable_b 6 prog_shell 0 = true /\ deletable_b 6 prog_shell 1 = true.
Proof. exact prog_shell_facts. Qed.

Example C17_repaired_included_default : check prog_incdefault = Ok [mkVerdict 0 1 KOverwritten].
Proof. exact prog_incdefault_facts. Qed.

Example C17_repaired_shell_reads_itself : check prog_shellself = Ok [].
Proof. exact prog_shellself_facts. Qed.

(* Verdicts in the context of the including file: file NAMES.

   pprogram      : lines labelled with the path under which the loader read their file
   check_spelled : Model/RedundantPaths.v, RedundantScope.Check as coded (names compared as strings)
   check_denoted : Spec/SpellingIndep.v, the same analysis with names compared by what they
                   denote (Spec/PathDenote.denote, the specification of C19)
   same_shape cwd p q : q is p respelled (line by line: same denotation, line number, body)
   one_spelling cwd p : no file of p is spelled in two ways (guaranteed by Package.loadIncluded,
                   which splices every file once: pkg.included.FirstTime(Relpath(...))) *)

(* On denotations the verdicts are the same for ALL programs and ALL spellings. *)
Theorem C17_denoted_spelling_independent :
  forall (cwd : str) (p q : pprogram),
    same_shape cwd p q -> check_denoted cwd p = check_denoted cwd q.
Proof. exact denoted_spelling_independent. Qed.
Print Assumptions C17_denoted_spelling_independent.

(* The Go code is that analysis whenever every file has one name. *)
Theorem C17_spelled_is_denoted :
  forall (cwd : str) (p : pprogram),
    one_spelling cwd p -> check_spelled p = check_denoted cwd p.
Proof. exact spelled_is_denoted. Qed.
Print Assumptions C17_spelled_is_denoted.

(* Hence: all spellings with equal denotation give the same verdicts. *)
Theorem C17_verdict_spelling_independent :
  forall (cwd : str) (p q : pprogram),
    same_shape cwd p q -> one_spelling cwd p -> one_spelling cwd q ->
    check_spelled p = check_spelled q.
Proof. exact verdict_spelling_independent. Qed.
Print Assumptions C17_verdict_spelling_independent.

(* one_spelling is needed: RedundantScope takes the same file under two names for two files. *)
Theorem C17_spelling_independent_needs_one_spelling :
  ~ (forall cwd p q, same_shape cwd p q -> check_spelled p = check_spelled q).
Proof. exact spelling_independent_needs_one_spelling. Qed.
Print Assumptions C17_spelling_independent_needs_one_spelling.

(* "the flagged line can be deleted" does not depend on names at all. *)
Theorem C17_deletable_spelling_independent :
  forall (cwd : str) (e1 e2 : str -> str -> bool) (p q : pprogram) (i : nat),
    same_shape cwd p q -> deletable (intern_by e1 p) i -> deletable (intern_by e2 q) i.
Proof. exact deletable_spelling_independent. Qed.
Print Assumptions C17_deletable_spelling_independent.

(* The partial soundness theorem for programs whose files are spelled arbitrarily,
   for the analysis as coded and for the analysis on denotations. *)
Theorem C17_verdict_sound_spelled_partial :
  forall (p : pprogram) (vs : list verdict) (vd : verdict),
    wf_program (forget p) = true -> check_spelled p = Ok vs -> In vd vs ->
    guard (forget p) vd = true -> deletable (forget p) (vd_flagged vd).
Proof. exact verdict_sound_spelled. Qed.
Print Assumptions C17_verdict_sound_spelled_partial.

Theorem C17_verdict_sound_denoted_partial :
  forall (cwd : str) (p : pprogram) (vs : list verdict) (vd : verdict),
    wf_program (forget p) = true -> check_denoted cwd p = Ok vs -> In vd vs ->
    guard (intern_by (same_denotation cwd) p) vd = true -> deletable (forget p) (vd_flagged vd).
Proof. exact verdict_sound_denoted. Qed.
Print Assumptions C17_verdict_sound_denoted_partial.

(* Which fragments pkglint has to analyse on their own (Spec/SpellingIndep.analysed_alone, the
   prediction the package-tree layer tests the binary against) does not depend on how the
   .include lines are spelled, and a fragment that an .include line denotes is never one of them. *)
Theorem C17_analysed_alone_spelling_independent :
  forall (cwd pkgdir fragdir fragbase : str) (incs incs' : list (str * str)),
    Forall2 (fun i j => denote cwd (join_path (fst i) (snd i)) = denote cwd (join_path (fst j) (snd j))) incs incs' ->
    analysed_alone cwd pkgdir fragdir fragbase incs = analysed_alone cwd pkgdir fragdir fragbase incs'.
Proof. exact analysed_alone_spelling_independent. Qed.
Print Assumptions C17_analysed_alone_spelling_independent.

Theorem C17_included_fragment_not_alone :
  forall (cwd pkgdir fragdir fragbase : str) (incs : list (str * str)) (i : str * str),
    In i incs -> denote cwd (join_path (fst i) (snd i)) = denote cwd (join_path fragdir fragbase) ->
    analysed_alone cwd pkgdir fragdir fragbase incs = false.
Proof. exact included_fragment_not_alone. Qed.
Print Assumptions C17_included_fragment_not_alone.

(* Conditional sections (.if ... .endif).

   cprogram      : every line carries Indentation.IsConditional() (Model/RedundantCond.v)
   check_lines_c : the verdicts of RedundantScope.Check, line by line
   plain p       : p without conditional sections *)

Theorem C17_check_c_plain : forall p : program, check_c (plain p) = check p.
Proof. exact check_c_plain. Qed.
Print Assumptions C17_check_c_plain.

(* An assignment inside a conditional section is never flagged and never makes
   another line flagged: nothing is emitted at its line. *)
Theorem C17_conditional_line_silent :
  forall (p : cprogram) (per : list (list verdict)) (i : nat) (l : line),
    check_lines_c p = Ok per -> nth_error p i = Some (true, l) -> nth_error per i = Some [].
Proof. exact conditional_line_silent_program. Qed.
Print Assumptions C17_conditional_line_silent.

(* Once x has been assigned inside a conditional section, no later assignment to x
   (conditional or not) emits a verdict. *)
Theorem C17_conditional_is_sticky :
  forall (pre : cprogram) (c : bool) (l : line) (post : cprogram) (per : list (list verdict)) (x : var),
    check_lines_c (pre ++ (c, l) :: post) = Ok per ->
    assigns x l = true -> cond_written x pre = true ->
    nth_error per (length pre) = Some [].
Proof. exact conditional_is_sticky_program. Qed.
Print Assumptions C17_conditional_is_sticky.

(* Every verdict given in the presence of conditional sections is also given for the
   program without them (which does not panic either) ... *)
Theorem C17_cond_verdicts_subset :
  forall (p : cprogram) (vsc : list verdict),
    check_c p = Ok vsc -> exists vs, check (map snd p) = Ok vs /\ incl vsc vs.
Proof. exact cond_verdicts_subset_total. Qed.
Print Assumptions C17_cond_verdicts_subset.

(* ... hence the partial soundness theorem holds with conditional sections (whose
   conditions mention no variable and are taken by make: deletable speaks about the
   lines as make reads them). *)
Theorem C17_verdict_sound_cond_partial :
  forall (p : cprogram) (vsc : list verdict) (vd : verdict),
    wf_program (map snd p) = true -> check_c p = Ok vsc -> In vd vsc ->
    guard (map snd p) vd = true -> deletable (map snd p) (vd_flagged vd).
Proof. exact verdict_sound_cond_total. Qed.
Print Assumptions C17_verdict_sound_cond_partial.

(* ':=' / '!=' lines with a '$' between the two lines *)

(* The guard of C17_verdict_sound_partial with its second conjunct weakened.  An
   EARLIER line lo is flagged because of the later line hi (variable x): every
   ':=' / '!=' whose text contains a '$' among the lines lo+1 .. hi (hi included)
   does not reach x, where "reach" is read off the program text -- z refers to w
   when some assignment to z in the lines BEFORE the line in question has ${w} in
   its text; [reaches pre ws x] closes the variables ws of the line's text under
   this relation and looks for x (Spec/VerdictSound2.v, executable).  The first
   conjunct (later line flagged) is unchanged. *)
Theorem C17_verdict_sound_partial2 :
  forall (p : program) (vs : list verdict) (vd : verdict),
    wf_program p = true -> check p = Ok vs -> In vd vs ->
    (if Nat.ltb (vd_flagged vd) (vd_because vd) then
       indep_lines (line_var p (vd_flagged vd)) (firstn (S (vd_flagged vd)) p)
                   (firstn (vd_because vd - vd_flagged vd) (skipn (S (vd_flagged vd)) p))
     else
       match line_op p (vd_flagged vd) with
       | Some OpDefault => true
       | _ => negb (after_eval_ref (writes_of (line_var p (vd_flagged vd)) 0 (firstn (vd_flagged vd) p)))
       end) = true ->
    deletable p (vd_flagged vd).
Proof. exact verdict_sound_partial2. Qed.
Print Assumptions C17_verdict_sound_partial2.

(* VA= a / VC= c / VB:= ${VC} / VA= b: the verdict "line 1 is overwritten in line
   4" is outside guard and inside guard2. *)
Theorem C17_partial2_covers_more :
  wf_program prog_between = true /\
  check prog_between = Ok [mkVerdict 0 3 KOverwritten] /\
  guard prog_between (mkVerdict 0 3 KOverwritten) = false /\
  guard2 prog_between (mkVerdict 0 3 KOverwritten) = true.
Proof. exact prog_between_facts. Qed.
Print Assumptions C17_partial2_covers_more.

(* The read marks of the model against the program text: Var.Refs() of z contains
   every variable named in a text assigned to z so far, and while the last action
   on x is not a read the lines after the last assignment to x do not reach x.
   Hence nothing has to be asked of the lines BETWEEN the two lines: only the later
   line itself, if it is a ':=' / '!=' with a '$', must not reach x. *)
Theorem C17_verdict_sound_partial3 :
  forall (p : program) (vs : list verdict) (vd : verdict),
    wf_program p = true -> check p = Ok vs -> In vd vs ->
    (if Nat.ltb (vd_flagged vd) (vd_because vd) then
       match nth_error p (vd_because vd) with
       | Some l => indep_line (firstn (vd_because vd) p) (line_var p (vd_flagged vd)) l
       | None => true
       end
     else
       match line_op p (vd_flagged vd) with
       | Some OpDefault => true
       | _ => negb (after_eval_ref (writes_of (line_var p (vd_flagged vd)) 0 (firstn (vd_flagged vd) p)))
       end) = true ->
    deletable p (vd_flagged vd).
Proof. exact verdict_sound_partial3. Qed.
Print Assumptions C17_verdict_sound_partial3.

(* ... and not of the later line either: the only later line with a '$' that
   makes an earlier line "redundant" is a '!=' on a constant variable whose command
   does not name the variable (repair 04); a constant variable whose last action is
   not a read has never been read, so no text names it and the command cannot reach
   it.  What is left of the guard is the condition for a LATER flagged line, i.e.
   the unrepaired finding (its need: C17_guard_needs_eval_condition). *)
Theorem C17_verdict_sound_partial4 :
  forall (p : program) (vs : list verdict) (vd : verdict),
    wf_program p = true -> check p = Ok vs -> In vd vs ->
    (if Nat.ltb (vd_flagged vd) (vd_because vd) then true
     else
       match line_op p (vd_flagged vd) with
       | Some OpDefault => true
       | _ => negb (after_eval_ref (writes_of (line_var p (vd_flagged vd)) 0 (firstn (vd_flagged vd) p)))
       end) = true ->
    deletable p (vd_flagged vd).
Proof. exact verdict_sound_partial4. Qed.
Print Assumptions C17_verdict_sound_partial4.

(* In plain terms: every verdict that flags the EARLIER of its two lines
   ("overwritten in line n", "redundant because of line n" with n further down)
   is sound, for all programs. *)
Theorem C17_earlier_line_sound :
  forall (p : program) (vs : list verdict) (vd : verdict),
    wf_program p = true -> check p = Ok vs -> In vd vs ->
    (vd_flagged vd < vd_because vd)%nat -> deletable p (vd_flagged vd).
Proof. exact earlier_line_sound. Qed.
Print Assumptions C17_earlier_line_sound.

(* The same for arbitrarily spelled files, for the analysis on denotations, and
   with conditional sections. *)
Theorem C17_verdict_sound_spelled_partial4 :
  forall (p : pprogram) (vs : list verdict) (vd : verdict),
    wf_program (forget p) = true -> check_spelled p = Ok vs -> In vd vs ->
    guard4 (forget p) vd = true -> deletable (forget p) (vd_flagged vd).
Proof. exact verdict_sound_spelled4. Qed.
Print Assumptions C17_verdict_sound_spelled_partial4.

Theorem C17_verdict_sound_denoted_partial4 :
  forall (cwd : str) (p : pprogram) (vs : list verdict) (vd : verdict),
    wf_program (forget p) = true -> check_denoted cwd p = Ok vs -> In vd vs ->
    guard4 (intern_by (same_denotation cwd) p) vd = true -> deletable (forget p) (vd_flagged vd).
Proof. exact verdict_sound_denoted4. Qed.
Print Assumptions C17_verdict_sound_denoted_partial4.

Theorem C17_verdict_sound_cond_partial4 :
  forall (p : cprogram) (vsc : list verdict) (vd : verdict),
    wf_program (map snd p) = true -> check_c p = Ok vsc -> In vd vsc ->
    guard4 (map snd p) vd = true -> deletable (map snd p) (vd_flagged vd).
Proof. exact verdict_sound_cond4. Qed.
Print Assumptions C17_verdict_sound_cond_partial4.

(* Makefiles with directives.

   dprogram      : lines with .if [!]defined/empty(X) / .else / .endif, .for / .endfor, .undef,
                   .include, files from mk/ (Model/RedundantDir.v, with the Indentation stack,
                   findGuardLine and the two callers check_file / check_pkg)
   final_d       : make's evaluation of such a makefile (Spec/MakeEvalDir.v)
   deletable_d   : removing the given lines leaves every final value unchanged *)

(* After ".undef x" - in a package file or in a file from mk/, inside a condition or not -
   no assignment to x gets or causes a verdict, whatever stands in between: no verdict
   relates lines across an .undef of that variable. *)
Theorem C17_undef_forgets :
  forall (g : option nat) (pre : dprogram) (l : dline) (rest : dprogram)
         (per : list (list verdict)) (x : var) (j : nat) (l2 : dline),
    check_lines_d g (pre ++ l :: rest) = Ok per -> d_undefs x l = true ->
    nth_error rest j = Some l2 -> d_assigns x l2 = true ->
    nth_error per (S (length pre + j)) = Some [].
Proof. exact undef_forgets. Qed.
Print Assumptions C17_undef_forgets.

(* An assignment inside an .if/.for section other than the multiple-inclusion guard of its
   MkLines gets no verdict and causes none - for every condition, taken by make or not.
   [in_conditional_section] is a specification of its own (Spec/VerdictSoundDir.v), not the
   Indentation stack of the model. *)
Theorem C17_conditional_line_silent_real_conditions :
  forall (g : option nat) (p : dprogram) (per : list (list verdict)) (j : nat) (l : dline) (a : assign),
    check_lines_d g p = Ok per -> nth_error p j = Some l -> dl_body l = DAssign a ->
    in_conditional_section g (firstn j p) = true -> nth_error per j = Some [].
Proof. exact conditional_line_silent_d. Qed.
Print Assumptions C17_conditional_line_silent_real_conditions.

(* On makefiles without directives the evaluator with directives is Spec/MakeEval.v,
   deletable_d is deletable, and the model with directives is Model/Redundant.v. *)
Theorem C17_evaldir_conservative :
  forall (fuel : nat) (p : sprogram) (x : str), final_d fuel (lift p) x = final fuel p x.
Proof. exact evaldir_conservative. Qed.
Print Assumptions C17_evaldir_conservative.

Theorem C17_deletable_d_conservative :
  forall (p : program) (i : nat), deletable_d (embed p) [i] <-> deletable p i.
Proof. exact deletable_d_embed. Qed.
Print Assumptions C17_deletable_d_conservative.

Theorem C17_check_pkg_conservative : forall p : program, check_pkg (embed p) = check p.
Proof. exact check_pkg_embed. Qed.
Print Assumptions C17_check_pkg_conservative.

Theorem C17_check_d_conservative : forall (g : option nat) (p : program), check_d g (embed p) = check p.
Proof. exact check_d_embed. Qed.
Print Assumptions C17_check_d_conservative.

(* Soundness of the verdicts of a whole package with directives: false of the code as it is.
   A condition in a file from mk/ is not counted as a read (RedundantScope.handleExpr returns
   early for directives of the infrastructure):
     Makefile: VA= a / .include "../../mk/reset.mk" / VA= b     mk/reset.mk: .if defined(VA) / VB= a / .endif
   -> "Makefile:1: Variable VA is overwritten in line 3"; without line 1 VB stays undefined.
   (Reproduced on the binary; finding C17/unsound/directives/condition-in-mk-file-reads-variable.
   The same condition in a file of the package is a read: no verdict.) *)
Definition C17_verdict_sound_dir_full : Prop :=
  forall (p : dprogram) (vs : list verdict) (vd : verdict),
    check_pkg p = Ok vs -> In vd vs -> deletable_d p [vd_flagged vd].

Theorem C17_verdict_sound_dir_refuted : ~ C17_verdict_sound_dir_full.
Proof. exact verdict_sound_dir_refuted. Qed.
Print Assumptions C17_verdict_sound_dir_refuted.

Example C17_package_condition_is_a_read : check_pkg witness_package_condition = Ok [].
Proof. exact package_condition_is_a_read. Qed.

(* Proved: on makefiles without directives, seen through the model and the evaluator WITH
   directives, the partial theorem holds (guard = that of C17_verdict_sound_partial). *)
Theorem C17_verdict_sound_dir_partial :
  forall (p : program) (vs : list verdict) (vd : verdict),
    wf_program p = true -> check_pkg (embed p) = Ok vs -> In vd vs -> guard p vd = true ->
    deletable_d (embed p) [vd_flagged vd].
Proof. exact verdict_sound_dir_partial. Qed.
Print Assumptions C17_verdict_sound_dir_partial.

(* What findGuardLine finds, and why the exemption of the guard is right for a file that is
   read on its own (closed world): make takes the guard, the body is active, the table is empty.
   In the whole-package scan other lines come first, and C17_conditional_line_silent_real_conditions
   with g = None says the model exempts nothing there (seed C17-r5m1 broke exactly that). *)
Theorem C17_find_guard_shape :
  forall (p : dprogram) (g : nat),
    find_guard p = Some g ->
    exists pre l x post,
      p = pre ++ l :: post /\ length pre = g /\ dl_body l = DIf true (DCDefined x) /\
      guard_name_ok x = true /\ Forall (fun l0 => dl_body l0 = DComment) pre.
Proof. exact find_guard_shape. Qed.
Print Assumptions C17_find_guard_shape.

Theorem C17_guard_taken_when_read_alone :
  forall (p : dprogram) (g : nat) (fuel : nat),
    find_guard p = Some g ->
    fold_left (exec_dline fuel) (to_spec_d (firstn (S g) p)) dinit
    = mkD empty_store [mkFrame true true false] false.
Proof. exact guard_taken_when_read_alone. Qed.
Print Assumptions C17_guard_taken_when_read_alone.
