(* C06 (whole-run part) -- the specification against which every run of the real
   binary is judged (Spec/OutputGrammar.v: line grammar + accounting predicate),
   and facts about the specification itself.  The weight of this part is the
   whole-run check (harness/c06run.go); the theorems show that the recogniser is
   not vacuous: it reads back what the documented forms print, for all counts,
   paths, line numbers and messages.
   Only statements: every theorem is proved by `exact` of a result of
   Proofs/OutputGrammar.v; the examples are proved here, by evaluation. *)
From PV Require Import Lib.Bytes Spec.OutputGrammar Proofs.OutputGrammar.
Import ListNotations.
Open Scope N_scope.

(* Go's %d and the spec's number parser are inverse, for every natural number *)
Theorem C06run_dec_roundtrip : forall n : N, parse_dec (print_dec n) = Some n.
Proof. exact dec_roundtrip. Qed.
Print Assumptions C06run_dec_roundtrip.

(* the summary line in all its singular / plural / joined forms ("1 error found.",
   "2 errors and 1 warning found.", "1 error, 3 warnings and 2 notes found.", ...)
   is read back exactly, for all counts that are not all zero *)
Theorem C06run_summary_line_roundtrip : forall e w n : N,
  (e <> 0 \/ w <> 0 \/ n <> 0) -> parse_summary (print_summary e w n) = Some (e, w, n).
Proof. exact summary_line_roundtrip. Qed.
Print Assumptions C06run_summary_line_roundtrip.

(* ... and consists of printable ASCII only *)
Theorem C06run_print_summary_safe : forall e w n : N, safe_line (print_summary e w n) = true.
Proof. exact print_summary_safe. Qed.
Print Assumptions C06run_print_summary_safe.

(* "LEVEL: path:N: message" is recognised with exactly these fields, for every
   level, every non-empty path without a colon, every line number and every message
   (the message may contain anything, including ": " and further "file:12:" references) *)
Theorem C06run_diag_line_roundtrip : forall lv path n msg,
  path <> [] -> not_byte 58 path ->
  classify false (print_diag_trad lv path n msg) = KDiag lv (Some path) (LNum n) msg.
Proof. exact diag_line_roundtrip. Qed.
Print Assumptions C06run_diag_line_roundtrip.

(* when the accounting predicate holds, no line was unknown and the exit status
   is the one the counted ERROR/WARN lines (and -Werror) demand *)
Theorem C06run_accounting_exit : forall gcc nosummary werror lines exit,
  accounting gcc nosummary werror lines exit = 0 ->
  exit = expected_exit werror (tally gcc lines) /\ c_unknown (tally gcc lines) = 0.
Proof. exact accounting_exit. Qed.
Print Assumptions C06run_accounting_exit.

(* examples: every documented line form, and what is rejected *)
Definition bs (l : list N) : str := l.
(* "cat/p/Makefile:3--4: warning: x" *)
Definition ex_gcc : str := [99;97;116;47;112;47;77;97;107;101;102;105;108;101;58;51;45;45;52;58;32;119;97;114;110;105;110;103;58;32;120].
(* "ERROR: a.mk:EOF: y" *)
Definition ex_eof : str := [69;82;82;79;82;58;32;97;46;109;107;58;69;79;70;58;32;121].
(* "NOTE: plain" (no path) *)
Definition ex_nopath : str := [78;79;84;69;58;32;112;108;97;105;110].
(* ">" TAB "x" and TAB "x" *)
Definition ex_src : str := [62;9;120].
Definition ex_ind : str := [9;120].
(* "1 error and 2 warnings found." *)
Definition ex_sum : str := print_summary 1 2 0.
(* "FATAL: x" is not a stdout line; ESC "[31m" is not recognised; "0 errors found." is not a summary *)
Definition ex_fatal : str := [70;65;84;65;76;58;32;120].
Definition ex_esc : str := [27;91;51;49;109].
Definition ex_zero : str := [48;32;101;114;114;111;114;115;32;102;111;117;110;100;46].

Example C06run_examples :
  classify true ex_gcc = KDiag LWarn (Some [99;97;116;47;112;47;77;97;107;101;102;105;108;101]) (LRange 3 4) [120]
  /\ classify false ex_eof = KDiag LError (Some [97;46;109;107]) LEOF [121]
  /\ classify false ex_nopath = KDiag LNote None NoLine [112;108;97;105;110]
  /\ classify false ex_src = KSource 62 /\ classify true ex_ind = KIndented /\ classify false [] = KEmpty
  /\ classify false ex_sum = KSummary 1 2 0 /\ classify true ex_sum = KSummary 1 2 0
  /\ classify false s_looks_fine = KLooksFine
  /\ classify false (s_run ++ [120] ++ s_hint1) = KHint 1 /\ classify false (s_run ++ [120] ++ s_hint3) = KHint 3
  /\ classify false ex_fatal = KUnknown /\ classify false ex_esc = KUnknown /\ classify false ex_zero = KUnknown
  /\ classify false ex_gcc = KUnknown /\ safe_line ex_esc = false.
Proof. vm_compute. repeat split. Qed.

(* accounting on small outputs: counts, "Looks fine." iff no errors and warnings, exit status *)
Definition ex_err : str := [69;82;82;79;82;58;32;97;58;49;58;32;120].   (* ERROR: a:1: x *)
Definition ex_warn : str := [87;65;82;78;58;32;97;58;49;58;32;120].     (* WARN: a:1: x *)
Definition ex_note : str := [78;79;84;69;58;32;97;58;49;58;32;120].     (* NOTE: a:1: x *)
Example C06run_accounting_examples :
  accounting false false false [ex_err; ex_warn; print_summary 1 1 0] 1 = 0
  /\ accounting false false false [ex_err; ex_warn; print_summary 1 1 0] 0 = 5      (* wrong exit *)
  /\ accounting false false false [ex_err; ex_note; print_summary 1 1 0] 1 = 3      (* a note counted as a warning *)
  /\ accounting false false false [ex_note; s_looks_fine] 0 = 0                     (* notes only: looks fine *)
  /\ accounting false false false [ex_warn; s_looks_fine] 0 = 3                     (* a warning, yet "Looks fine." *)
  /\ accounting false false true [ex_warn; print_summary 0 1 0] 1 = 0               (* -Werror *)
  /\ accounting false false true [ex_warn; print_summary 0 1 0] 0 = 5
  /\ accounting false true false [ex_err] 1 = 0                                     (* -q: no summary, exit still 1 *)
  /\ accounting false true false [ex_err] 0 = 5
  /\ accounting false true false [ex_err; print_summary 1 0 0] 1 = 2                (* -q but a summary *)
  /\ accounting false false false [ex_err] 1 = 2                                    (* summary missing *)
  /\ accounting false false false [print_summary 1 0 0; ex_err] 1 = 3.              (* summary before the diagnostics *)
Proof. vm_compute. repeat split. Qed.
