(* C05 -- autofixed files are replaced atomically, even across crashes and I/O errors.
   Only statements: every theorem is proved by `exact` of a result of Proofs/; the examples
   are proved here, by evaluation.

   The model follows SaveAutofixChanges after the three repairs (exclusive creation of
   the temporary file; mode of the original carried over; temporary file removed when the
   save fails).  With the exclusive open no guard "no original file is named
   <saved file>.pkglint.tmp" is needed: the statements hold for every initial tree.

   Model/FsProto.v   file system = map path -> (kind, bytes, mode); system calls OpenExcl
                     (O_WRONLY|O_CREAT|O_EXCL), Write, Close, Chmod, Rename, Unlink (and Open
                     with O_TRUNC for the refuted variants); the Go program: save_one (loop body
                     of SaveAutofixChanges), chmod_fix (checkExecutable), run; prog_ops s prog =
                     its system calls from state s when no call is made to fail.
   Spec/CrashSpec.v  atomic_at init prog cur: every path of `init` exists in `cur` and holds its old
                     content or one of the contents the run saves for it; crash_of ops t: t is a
                     prefix of ops, possibly followed by a partially performed write. *)
From PV Require Import Lib.Bytes Model.FsProto Spec.CrashSpec
  Proofs.FsProto Proofs.FsProtoFault Proofs.FsProtoVariants Proofs.FsProtoForeign
  Model.FsLinks Proofs.FsLinks.
Open Scope N_scope.

(* crash: for ALL lists of actions (saves of any files with any contents, mode fixes,
   saves conditional on the result of the previous save), ALL initial trees -- also
   trees that contain files named *.pkglint.tmp -- and every crash point (every prefix
   of the system calls, also with the next write only partially done) every original
   path exists and holds its complete old content or one of the complete new contents. *)
Theorem C05_crash_atomic : forall (s : state) (prog : list action) (t : list op),
  crash_of (prog_ops s prog) t ->
  atomic_at (st_fs s) prog (st_fs (exec t s)).
Proof. exact crash_atomic. Qed.
Print Assumptions C05_crash_atomic.

Theorem C05_no_file_disappears : forall (s : state) (prog : list action) (t : list op),
  crash_of (prog_ops s prog) t ->
  no_file_lost (st_fs s) (st_fs (exec t s)).
Proof. exact no_file_disappears. Qed.
Print Assumptions C05_no_file_disappears.

(* the operation list of the crash theorem is what the Go-like program really issues when
   no call is made to fail, and `exec` of it is the program's final state *)
Theorem C05_run_is_prog_ops : forall (s : state) (prog : list action),
  let w := run prog (init_world s None) in
  w_st w = exec (prog_ops s prog) s /\ map fst (w_trace w) = prog_ops s prog.
Proof. exact run_is_prog_ops. Qed.
Print Assumptions C05_run_is_prog_ops.

(* fault: the k-th system call of the run fails with any errno, a failing write after any
   number of bytes already accepted (short write).  The same old-or-new statement holds
   for the final tree, and if the call was reached at all, stderr carries an ERROR line. *)
Theorem C05_fault_atomic : forall (s : state) (prog : list action) (k : nat) (fl : fault),
  let w := run prog (init_world s (Some (k, fl))) in
  atomic_at (st_fs s) prog (st_fs (w_st w)) /\
  ((k < w_count w)%nat -> w_stderr w <> []).
Proof. exact fault_atomic. Qed.
Print Assumptions C05_fault_atomic.

(* the action during which the call fails leaves the content of every original file as
   it was before that action (the failed file keeps its old content), and the rest of
   the program then runs exactly as a program without any fault: later files are still
   processed *)
Theorem C05_fault_local : forall (s : state) (pre post : list action) (a : action) (k : nat) (fl : fault),
  let w1 := run pre (init_world s (Some (k, fl))) in
  let w2 := run_action w1 a in
  (w_count w1 <= k < w_count w2)%nat ->
  (forall p, orig (st_fs s) p -> content (st_fs (w_st w2)) p = content (st_fs (w_st w1)) p) /\
  clear_plan (run (pre ++ a :: post) (init_world s (Some (k, fl)))) = run post (clear_plan w2).
Proof. exact fault_local. Qed.
Print Assumptions C05_fault_local.

(* a save, failed (any fault plan) or not, leaves no temporary file behind: if the
   temporary name was free before, it is free afterwards *)
Theorem C05_no_leftover_tmp : forall (f : path) (new : str) (w : world),
  lookup (tmp_name f) (st_fs (w_st w)) = None ->
  lookup (tmp_name f) (st_fs (w_st (save_one f new w))) = None.
Proof. exact failed_save_no_leftover. Qed.
Print Assumptions C05_no_leftover_tmp.

(* a complete save gives the new file the mode of the file it replaces *)
Theorem C05_save_preserves_mode : forall (s : state) (f : path) (new : str) (old : file),
  lookup (tmp_name f) (st_fs s) = None -> lookup f (st_fs s) = Some old ->
  let s' := exec (save_ops s f new) s in
  lookup f (st_fs s') = Some (mkfile KReg new (f_mode old)) /\ lookup (tmp_name f) (st_fs s') = None.
Proof. exact save_preserves_mode. Qed.
Print Assumptions C05_save_preserves_mode.

(* "Clearing executable bits" is a single chmod: at every crash point the state is the one
   before or the one after it; the file keeps its content and has its old mode or the
   requested mode (mode &^ 0111), never anything else *)
Theorem C05_chmod_atomic : forall (s : state) (f : path) (mode : N) (t : list op),
  crash_of (prog_ops s [AChmod f mode]) t ->
  (exec t s = s \/ exec t s = fst (step s (Chmod f (N.ldiff mode 73)))) /\
  mode_atomic_at (st_fs s) f (N.ldiff mode 73) (st_fs (exec t s)).
Proof. exact chmod_atomic. Qed.
Print Assumptions C05_chmod_atomic.

(* non-vacuity of the crash specification: truncate-and-write in place,
   remove-then-rename and copy-back each have a crash point at which the
   original file is neither old nor new (even when the temporary name is free) *)
Theorem C05_variants_refuted :
  ~ crash_atomic_for inplace_ops /\ ~ crash_atomic_for remove_rename_ops /\ ~ crash_atomic_for copyback_ops.
Proof. exact variants_refuted. Qed.
Print Assumptions C05_variants_refuted.

(* ... and the protocol before the repair (temporary file opened with O_TRUNC) violates
   the unguarded statement: tree {a, a.pkglint.tmp}, save a, crash after the open *)
Theorem C05_trunc_tmp_refuted : ~ trunc_tmp_crash_atomic.
Proof. exact trunc_tmp_refuted. Qed.
Print Assumptions C05_trunc_tmp_refuted.

(* the boolean checker that the harness applies to snapshots of real, killed runs
   (first_bad / atomic_okb, extracted) implies the specification *)
Theorem C05_atomic_okb_sound : forall init prog cur,
  atomic_okb init prog cur = true -> atomic_at init prog cur.
Proof. exact atomic_okb_sound. Qed.
Print Assumptions C05_atomic_okb_sound.

(* Entries that do not belong to the run.
   The initial tree is ANY finite map path -> (kind, bytes, mode): regular files (empty
   or not), directories, symbolic links, at any names -- also at F.pkglint.tmp for any
   of the saved files F.  [foreign prog p]: the run neither saves p nor fixes its mode. *)

(* crash: at EVERY crash point (any prefix of the system calls, the next write partially
   done) every foreign path has exactly the entry it had (kind, bytes, mode; or is absent
   as before), except a temporary name that was free when the run started.  In
   particular a pre-existing F.pkglint.tmp of any kind is there, unmodified. *)
Theorem C05_foreign_entries_untouched_crash : forall (s : state) (prog : list action) (t : list op),
  crash_of (prog_ops s prog) t ->
  foreign_untouched_crash prog (st_fs s) (st_fs (exec t s)).
Proof. exact (fun s prog => crash_foreign prog false s). Qed.
Print Assumptions C05_foreign_entries_untouched_crash.

(* complete runs, with no fault or with ANY single failing system call (any k, any errno,
   any short-write length): every foreign path has exactly the entry it had -- no
   exception: no temporary file created by the run is left *)
Theorem C05_foreign_entries_untouched : forall (s : state) (prog : list action) (plan : option (nat * fault)),
  foreign_untouched prog (st_fs s) (st_fs (w_st (run prog (init_world s plan)))).
Proof.
  exact (fun s prog plan p H => run_frame prog (init_world s plan) p (proj1 H) (or_introl (proj2 H))).
Qed.
Print Assumptions C05_foreign_entries_untouched.

(* "no temporary file that this run created is left", for whole runs under any fault
   plan: a temporary name that was free before the run (and is not itself a file the
   run saves) is free after it.  (C05_no_leftover_tmp is the same for one save.) *)
Theorem C05_no_created_tmp_left : forall (s : state) (prog : list action) (plan : option (nat * fault)) (f : path),
  ~ In (tmp_name f) (saved_paths prog) ->
  lookup (tmp_name f) (st_fs s) = None ->
  lookup (tmp_name f) (st_fs (w_st (run prog (init_world s plan)))) = None.
Proof. exact no_created_tmp_left. Qed.
Print Assumptions C05_no_created_tmp_left.

(* an entry of ANY kind at F.pkglint.tmp: the save of F is refused -- the whole file
   system is as before (F old, the entry untouched), stderr gets the ERROR line
   "Cannot write" naming F.pkglint.tmp, SaveAutofixChanges reports false -- whatever
   the fault plan *)
Theorem C05_taken_tmp_refused : forall (f : path) (new : str) (w : world) (e : file),
  lookup (tmp_name f) (st_fs (w_st w)) = Some e ->
  let w' := save_one f new w in
  w_st w' = w_st w /\ w_stderr w' = w_stderr w ++ [(CannotWrite, tmp_name f)] /\ w_saved w' = false.
Proof. exact taken_tmp_refused. Qed.
Print Assumptions C05_taken_tmp_refused.

(* the boolean checker the harness applies to snapshots of real runs (complete runs,
   killed runs, runs with an injected errno) implies the two statements above *)
Theorem C05_foreign_bad_sound : forall complete init prog cur,
  foreign_bad complete init prog cur = None ->
  forall p, foreign prog p ->
    (complete = true \/ lookup p init <> None \/ ~ In p (run_tmps prog)) ->
    lookup p cur = lookup p init.
Proof. exact foreign_bad_sound. Qed.
Print Assumptions C05_foreign_bad_sound.

Definition ex_mk : path := [77; 107].          (* "Mk" *)
Definition ex_pl : path := [80; 76].           (* "PL" *)
Definition ex_tree : state :=
  mkstate [(ex_mk, mkfile KReg [111; 108; 100] 493); (ex_pl, mkfile KReg [98; 10; 97; 10] 384)] [] 18.
Definition ex_prog : list action :=
  [AChmod ex_mk 493; ASave ex_mk [110; 101; 119]; ASave ex_pl [97; 10; 98; 10];
   AIfSaved false ex_pl [98; 10; 97; 10]; ASave ex_mk [110; 101; 119; 50]].

(* nothing fails: 1 + 3*5 system calls, both files new, modes kept (0644 after the
   mode fix, 0600), no temporary file *)
Example C05_run_example :
  let w := run ex_prog (init_world ex_tree None) in
  length (prog_ops ex_tree ex_prog) = 16%nat /\
  lookup ex_mk (st_fs (w_st w)) = Some (mkfile KReg [110; 101; 119; 50] 420) /\
  lookup ex_pl (st_fs (w_st w)) = Some (mkfile KReg [97; 10; 98; 10] 384) /\
  lookup (tmp_name ex_pl) (st_fs (w_st w)) = None /\ w_stderr w = [].
Proof. vm_compute. repeat split; reflexivity. Qed.

(* the write of PL's save (system call 7) accepts 2 bytes and then fails with ENOSPC:
   close, ERROR line, unlink; the fallback save (AIfSaved false) runs, Mk is still
   saved afterwards *)
Example C05_fault_example :
  let w := run ex_prog (init_world ex_tree (Some (7%nat, mkfault 2 ENOSPC))) in
  w_stderr w = [(CannotWrite, tmp_name ex_pl)] /\
  content (st_fs (w_st w)) ex_pl = Some [98; 10; 97; 10] /\
  content (st_fs (w_st w)) ex_mk = Some [110; 101; 119; 50] /\
  lookup (tmp_name ex_pl) (st_fs (w_st w)) = None.
Proof. vm_compute. repeat split; reflexivity. Qed.

(* a tree that contains PL.pkglint.tmp: the save of PL is refused with an ERROR line,
   both files keep their content *)
Definition ex_tree2 : state :=
  mkstate [(ex_pl, mkfile KReg [98; 10; 97; 10] 420); (tmp_name ex_pl, mkfile KReg [120] 420)] [] 18.
Example C05_taken_example :
  let w := run [ASave ex_pl [97; 10; 98; 10]] (init_world ex_tree2 None) in
  w_st w = ex_tree2 /\ w_stderr w = [(CannotWrite, tmp_name ex_pl)] /\ w_saved w = false.
Proof. vm_compute. repeat split; reflexivity. Qed.

(* every kind of entry at the temporary names: an empty regular file at Mk.pkglint.tmp,
   a directory at PL.pkglint.tmp; a symbolic link elsewhere.  Both saves are refused, the
   mode fix is done, every entry but Mk's mode is as before *)
Definition ex_lnk : path := [76].
Definition ex_tree3 : state :=
  mkstate [(ex_mk, mkfile KReg [111; 108; 100] 493); (ex_pl, mkfile KReg [98; 10; 97; 10] 384);
           (tmp_name ex_mk, mkfile KReg [] 420); (tmp_name ex_pl, mkfile KDir [] 493);
           (ex_lnk, mkfile KSymlink [47; 120] 511)] [] 18.
Example C05_kinds_example :
  let w := run ex_prog (init_world ex_tree3 None) in
  is_foreignb ex_prog (tmp_name ex_mk) = true /\ is_foreignb ex_prog (tmp_name ex_pl) = true /\
  lookup (tmp_name ex_mk) (st_fs (w_st w)) = Some (mkfile KReg [] 420) /\
  lookup (tmp_name ex_pl) (st_fs (w_st w)) = Some (mkfile KDir [] 493) /\
  lookup ex_lnk (st_fs (w_st w)) = Some (mkfile KSymlink [47; 120] 511) /\
  lookup ex_mk (st_fs (w_st w)) = Some (mkfile KReg [111; 108; 100] 420) /\
  List.length (w_stderr w) = 4%nat /\
  foreign_bad true (st_fs ex_tree3) ex_prog (st_fs (w_st w)) = None.
Proof.
  vm_compute. repeat split; reflexivity.
Qed.

(* the checker is not vacuous: the tree after C02-r3m1's behaviour (the refused save also
   removes the entry at PL.pkglint.tmp) is rejected, and so is a leftover temporary file *)
Example C05_foreign_bad_rejects :
  foreign_bad true (st_fs ex_tree2) [ASave ex_pl [97; 10; 98; 10]] [(ex_pl, mkfile KReg [98; 10; 97; 10] 420)]
    = Some (tmp_name ex_pl) /\
  foreign_bad true (st_fs ex_tree) [ASave ex_pl [97]] ((tmp_name ex_pl, mkfile KReg [97] 420) :: st_fs ex_tree)
    = Some (tmp_name ex_pl) /\
  foreign_bad false (st_fs ex_tree) [ASave ex_pl [97]] ((tmp_name ex_pl, mkfile KReg [97] 420) :: st_fs ex_tree)
    = None.
Proof. vm_compute. repeat split; reflexivity. Qed.

(* Symbolic links (Model/FsLinks.v).

   The saved file F itself, or a file given on the command line, may be a symbolic link.
   Entry names are directory entries in the lstat view; for an entry of kind KSymlink f_data
   is the entry name the link refers to.  lstep: Chmod and Open(O_TRUNC) follow a final link
   (resolve, at most 40 links), OpenExcl/Rename/Unlink act on the link itself, Write/Close on
   the inode of the descriptor.  save_one_l = loop body of SaveAutofixChanges (filename.Stat()
   follows), check_exec_l = Pkglint.Check + checkExecutable for an argument (Lstat).
   Plans: PNone; PFail k fl (system call k fails with its partial effect); PKill k n (the
   process is killed at call k; a write at k has transferred its first n bytes): the final
   state under PKill is the disk at that crash point.
   l_named prog q: q is a saved file, the temporary name of one, or a checked argument. *)

(* an entry the run does not name -- in particular the target of any link, however the link
   is used -- is never changed: all initial trees, programs, faults and crash points *)
Theorem C05_links_unnamed_untouched : forall (s : state) (prog : list laction) (plan : lplan) (q : path),
  ~ l_named prog q ->
  lookup q (st_fs (lw_st (lrun prog (init_lworld s plan)))) = lookup q (st_fs s).
Proof. exact (fun s prog plan => lrun_frame prog (init_lworld s plan)). Qed.
Print Assumptions C05_links_unnamed_untouched.

(* the target of a link (content, mode, kind) is never modified, truncated or chmod-ed, also
   when the link itself is saved or given on the command line *)
Theorem C05_symlink_target_untouched : forall (s : state) (prog : list laction) (plan : lplan) (F : path) (l : file),
  lookup F (st_fs s) = Some l -> f_kind l = KSymlink -> ~ l_named prog (f_data l) ->
  lookup (f_data l) (st_fs (lw_st (lrun prog (init_lworld s plan)))) = lookup (f_data l) (st_fs s).
Proof. exact (fun s prog plan F l _ _ => lrun_frame prog (init_lworld s plan) (f_data l)). Qed.
Print Assumptions C05_symlink_target_untouched.

(* the same for every entry name on the chain of links that starts at F (chain n F fs = F, what
   F refers to, ... , at most n links; resolve n F fs ends at a member of it: resolve_in_chain) *)
Theorem C05_symlink_chain_untouched : forall (s : state) (prog : list laction) (plan : lplan) (F : path) (n : nat) (q : path),
  In q (chain n F (st_fs s)) -> ~ l_named prog q ->
  lookup q (st_fs (lw_st (lrun prog (init_lworld s plan)))) = lookup q (st_fs s).
Proof. exact (fun s prog plan F n q _ => lrun_frame prog (init_lworld s plan) q). Qed.
Print Assumptions C05_symlink_chain_untouched.

Theorem C05_resolve_in_chain : forall (n : nat) (p : path) (m : fsmap),
  match resolve n p m with
  | RFound q _ => In q (chain n p m) | RDangling q => In q (chain n p m) | RLoop => True
  end.
Proof. exact resolve_in_chain. Qed.
Print Assumptions C05_resolve_in_chain.

(* one save, from a world in any condition (any plan, any number of earlier calls) *)
Theorem C05_save_one_l_frame : forall (w : lworld) (f : path) (new : str) (q : path),
  q <> f -> q <> tmp_name f ->
  lookup q (st_fs (lw_st (save_one_l f new w))) = lookup q (st_fs (lw_st w)).
Proof. exact save_one_l_frame. Qed.
Print Assumptions C05_save_one_l_frame.

(* the judge for snapshots of real runs (complete, killed, faulty) is sound *)
Theorem C05_l_unnamed_changed_sound : forall (init : fsmap) (prog : list laction) (cur : fsmap),
  l_unnamed_changed init prog cur = None ->
  forall q, ~ l_named prog q -> lookup q cur = lookup q init.
Proof. exact l_unnamed_changed_sound. Qed.
Print Assumptions C05_l_unnamed_changed_sound.

(* NOT the code: a link as save target written in place through the link -- the frame
   statement is false (killed after the open, the target is an empty file) *)
Theorem C05_write_through_link_refuted :
  ~ (forall (s : state) (f : path) (new : str) (plan : lplan) (q : path), q <> f -> q <> tmp_name f ->
       lookup q (st_fs (lw_st (save_through_link f new (init_lworld s plan)))) = lookup q (st_fs s)).
Proof. exact write_through_link_refuted. Qed.
Print Assumptions C05_write_through_link_refuted.

(* what the code does to a link that is saved, no fault: the link is replaced by a regular
   file that carries the mode of the link's target; the target is untouched *)
Theorem C05_save_replaces_link : forall (s : state) (F T : path) (l t : file) (new : str),
  lookup F (st_fs s) = Some l -> f_kind l = KSymlink -> f_data l = T ->
  lookup T (st_fs s) = Some t -> f_kind t = KReg ->
  lookup (tmp_name F) (st_fs s) = None -> F <> T -> tmp_name F <> T ->
  let w := save_one_l F new (init_lworld s PNone) in
  lookup F (st_fs (lw_st w)) = Some (mkfile KReg new (f_mode t)) /\
  lookup T (st_fs (lw_st w)) = Some t /\
  lookup (tmp_name F) (st_fs (lw_st w)) = None /\
  lw_stderr w = [] /\ lw_saved w = true.
Proof. exact save_replaces_link. Qed.
Print Assumptions C05_save_replaces_link.

(* examples: the hypotheses are satisfiable, the model does what is claimed *)
Definition lk_L : path := [76].                     (* "L" *)
Definition lk_T : path := [84].                     (* "T" *)
Definition lk_X : path := [88].                     (* "X" *)
Definition lk_tree : state :=
  mkstate [(lk_L, mkfile KSymlink lk_T 511);        (* L -> T *)
           (lk_T, mkfile KReg [111; 108; 100] 384); (* T: "old", 0600 *)
           (lk_X, mkfile KReg [120] 493)]           (* X: 0755 *)
          [] 18.
Definition lk_prog : list laction := [LSave lk_L [110; 101; 119]; LCheckExec lk_X].
Definition lk_after : lworld := lrun lk_prog (init_lworld lk_tree PNone).

Example C05_link_save_example :
  lookup lk_L (st_fs (lw_st lk_after)) = Some (mkfile KReg [110; 101; 119] 384) /\
  lookup lk_T (st_fs (lw_st lk_after)) = Some (mkfile KReg [111; 108; 100] 384) /\
  lookup lk_X (st_fs (lw_st lk_after)) = Some (mkfile KReg [120] 420) /\
  lookup (tmp_name lk_L) (st_fs (lw_st lk_after)) = None /\
  lw_stderr lk_after = [] /\ lw_saved lk_after = true /\
  List.length (lw_trace lk_after) = 6%nat /\
  l_unnamed_changed (st_fs lk_tree) lk_prog (st_fs (lw_st lk_after)) = None.
Proof. vm_compute. repeat split; reflexivity. Qed.

(* a link L to an executable T given on the command line: Lstat sees a link, no system call
   is issued at all *)
Definition lk_tree_x : state :=
  mkstate [(lk_L, mkfile KSymlink lk_T 511); (lk_T, mkfile KReg [111; 108; 100] 493)] [] 18.

Example C05_link_argument_example :
  lw_trace (lrun [LCheckExec lk_L] (init_lworld lk_tree_x PNone)) = [] /\
  st_fs (lw_st (lrun [LCheckExec lk_L] (init_lworld lk_tree_x PNone))) = st_fs lk_tree_x.
Proof. vm_compute. split; reflexivity. Qed.

(* the judge is not vacuous: it rejects the tree the through-the-link variant leaves at the
   crash point after the open *)
Example C05_l_unnamed_changed_rejects :
  l_unnamed_changed (st_fs lk_tree) [LSave lk_L [110; 101; 119]]
    (st_fs (lw_st (save_through_link lk_L [110; 101; 119] (init_lworld lk_tree (PKill 1 0))))) = Some lk_T.
Proof. vm_compute. reflexivity. Qed.

(* the frame from a world in any condition (any earlier calls, any plan, any open descriptors) *)
Theorem C05_lrun_frame : forall (prog : list laction) (w : lworld) (q : path),
  ~ l_named prog q ->
  lookup q (st_fs (lw_st (lrun prog w))) = lookup q (st_fs (lw_st w)).
Proof. exact lrun_frame. Qed.
Print Assumptions C05_lrun_frame.

(* the boolean used by the judge decides l_named *)
Theorem C05_l_namedb_spec : forall (prog : list laction) (q : path),
  l_namedb prog q = true <-> l_named prog q.
Proof. exact l_namedb_spec. Qed.
Print Assumptions C05_l_namedb_spec.

(* "... is reported on stderr": the rendering of the failures into the Logger.

   Model/SaveLog.v   report_one / report_all: every entry (kind, path) of w_stderr is one call
                     Logger.TechErrorf(path, "<Cannot write|Cannot overwrite with autofixed
                     content|Cannot clear executable bits>: %s", err) (Model/Logger.v tech_error);
                     stderr_bytes / stdout_bytes = every byte the SeparatorWriter of that stream
                     accepted (passed on, or still in its line buffer); tech_line / error_line =
                     escapePrintable("ERROR: " + path + ": " + msg + "\n"); sep_pending = the
                     blank line a SeparatorWriter in state "separator wanted" puts in front
                     (never the case for stderr in pkglint; kept so that the statements hold for
                     ALL logger states); at_line_start = no partial line buffered, no separator
                     pending (true of the initial writer, and again after every TechErrorf). *)
From PV Require Import Model.Escape Model.Logger Model.SaveLog Proofs.SaveLog.

(* TechErrorf, for ALL logger states (any suppressDiag/suppressExpl, counters, writer
   states), any location and message.  tech_error has no `opts` argument at all -- no
   option (--only, -q, -g, --source, --explain, --autofix, --show-autofix) can be read;
   `o` and `werror` (-Werror) are quantified only to say so.  Everything but the stderr
   writer is untouched (so is the exit status); the stderr writer accepts exactly the ERROR
   line, drops nothing, and has flushed everything to the underlying stream afterwards. *)
Theorem C05_tech_error_stream : forall (o : opts) (werror : bool) (l : logger) (loc msg : str),
  let l' := Model.Logger.tech_error l loc msg in
  l' = set_err l (l_err l') /\
  l_out l' = l_out l /\ stdout_bytes l' = stdout_bytes l /\
  l_errors l' = l_errors l /\ l_warnings l' = l_warnings l /\ l_notes l' = l_notes l /\
  l_suppress_diag l' = l_suppress_diag l /\ l_suppress_expl l' = l_suppress_expl l /\
  exit_status werror l' = exit_status werror l /\
  stderr_bytes l' = stderr_bytes l ++ sep_pending (l_err l) ++ tech_line loc msg /\
  (exists rest, tech_line loc msg = [69; 82; 82; 79; 82; 58; 32] ++ rest) /\
  at_line_start (l_err l') /\ sw_state (l_err l') <> 1 /\
  sw_out (l_err l') = stderr_bytes l ++ sep_pending (l_err l) ++ tech_line loc msg /\
  (at_line_start (l_err l) -> sw_out (l_err l') = sw_out (l_err l) ++ tech_line loc msg).
Proof. exact tech_error_stream. Qed.
Print Assumptions C05_tech_error_stream.

Theorem C05_at_line_start_initial : at_line_start new_sw /\ at_line_start (l_err new_logger).
Proof. exact (conj at_line_start_new_sw at_line_start_new_sw). Qed.
Print Assumptions C05_at_line_start_initial.

(* location and message printable ASCII (tab, newline allowed): the line is the plain text *)
Theorem C05_tech_line_printable : forall (loc msg : str),
  Forall (fun b => xprint b = true) loc -> Forall (fun b => xprint b = true) msg ->
  tech_line loc msg =
  [69; 82; 82; 79; 82; 58; 32] ++ (loc ++ (if nonempty_list loc then [58; 32] else [])) ++ msg ++ [10].
Proof. exact tech_line_printable. Qed.
Print Assumptions C05_tech_line_printable.

(* the fault theorem joined with the Logger: for every program, tree, fault plan, every
   logger state l0, every error text: if the failing call was reached, stderr has grown;
   stdout, the counters, the exit status and the suppress flags are as before; the bytes
   added to stderr are exactly the ERROR lines of the entries of w_stderr, in order (after
   the pending separator, if any); each entry's line occurs in them; and when l0's stderr
   writer is at a line start, all of it has reached the underlying stream. *)
Theorem C05_save_failure_reported_on_stderr : forall (s : state) (prog : list action) (k : nat) (fl : fault)
    (o : opts) (werror : bool) (l0 : logger) (detail : errkind * path -> str),
  let w := run prog (init_world s (Some (k, fl))) in
  let l := report_all l0 (w_stderr w) detail in
  ((k < w_count w)%nat -> stderr_bytes l <> stderr_bytes l0) /\
  stdout_bytes l = stdout_bytes l0 /\ l_out l = l_out l0 /\
  l_errors l = l_errors l0 /\ l_warnings l = l_warnings l0 /\ l_notes l = l_notes l0 /\
  exit_status werror l = exit_status werror l0 /\
  l_suppress_diag l = l_suppress_diag l0 /\ l_suppress_expl l = l_suppress_expl l0 /\
  stderr_bytes l = stderr_bytes l0 ++ (match w_stderr w with [] => [] | _ :: _ => sep_pending (l_err l0) end)
                                   ++ report_lines (w_stderr w) detail /\
  (forall e, In e (w_stderr w) ->
     exists a b, stderr_bytes l = stderr_bytes l0 ++ a ++ error_line e (detail e) ++ b) /\
  ((k < w_count w)%nat -> at_line_start (l_err l)) /\
  (at_line_start (l_err l0) ->
     at_line_start (l_err l) /\ sw_out (l_err l) = sw_out (l_err l0) ++ report_lines (w_stderr w) detail).
Proof.
  exact (fun s prog k fl o werror l0 detail =>
           report_all_when _ o werror l0 _ detail (proj2 (fault_atomic s prog k fl))).
Qed.
Print Assumptions C05_save_failure_reported_on_stderr.

(* the same for any list of failures *)
Theorem C05_report_all_on_stderr : forall (o : opts) (werror : bool) (l0 : logger)
    (es : list (errkind * path)) (detail : errkind * path -> str),
  let l := report_all l0 es detail in
  (es <> [] -> stderr_bytes l <> stderr_bytes l0) /\
  stdout_bytes l = stdout_bytes l0 /\ l_out l = l_out l0 /\
  l_errors l = l_errors l0 /\ l_warnings l = l_warnings l0 /\ l_notes l = l_notes l0 /\
  exit_status werror l = exit_status werror l0 /\
  l_suppress_diag l = l_suppress_diag l0 /\ l_suppress_expl l = l_suppress_expl l0 /\
  stderr_bytes l = stderr_bytes l0 ++ (match es with [] => [] | _ :: _ => sep_pending (l_err l0) end)
                                   ++ report_lines es detail /\
  (forall e, In e es ->
     exists a b, stderr_bytes l = stderr_bytes l0 ++ a ++ error_line e (detail e) ++ b) /\
  (es <> [] -> at_line_start (l_err l)) /\
  (at_line_start (l_err l0) ->
     at_line_start (l_err l) /\ sw_out (l_err l) = sw_out (l_err l0) ++ report_lines es detail).
Proof. exact (fun o werror l0 es detail => report_all_when _ o werror l0 es detail (fun H => H)). Qed.
Print Assumptions C05_report_all_on_stderr.

(* reporting through Logf(Error, tmpName, "", ...) instead is NOT such a report: with
   suppressDiag set (left set by Logger.Relevant after an Autofix.Apply whose diagnostic is
   not selected by --only: reached by `log_run`) nothing is written anywhere; otherwise the
   line goes to stdout and is counted as an error (exit status 1). *)
Theorem C05_logf_report_refuted :
  (* suppressDiag set: the failure is reported nowhere *)
  (forall (o : opts) (l : logger) (e : errkind * path) (detail : str),
     l_suppress_diag l = true ->
     stderr_bytes (report_one_logf o l e detail) = stderr_bytes l /\
     stdout_bytes (report_one_logf o l e detail) = stdout_bytes l) /\
  (* such a state is reached: --autofix --only foo, after one Autofix.Apply of a diagnostic "bar" *)
  (exists (o : opts) (l : logger) (e : errkind * path) (detail : str),
     l = log_run o [ex_fix_event] /\ l_suppress_diag l = true /\
     stderr_bytes (report_one_logf o l e detail) = stderr_bytes l /\
     stdout_bytes (report_one_logf o l e detail) = stdout_bytes l /\
     stderr_bytes (report_one l e detail) = stderr_bytes l ++ error_line e detail /\
     error_line e detail = ex_error_text) /\
  (* suppressDiag clear: the line goes to stdout and counts as an error *)
  (forall (o : opts) (l : logger) (e : errkind * path) (detail : str),
     l_suppress_diag l = false ->
     stderr_bytes (report_one_logf o l e detail) = stderr_bytes l /\
     stdout_bytes (report_one_logf o l e detail) <> stdout_bytes l /\
     l_errors (report_one_logf o l e detail) = l_errors l + 1) /\
  (exists (o : opts) (l : logger) (e : errkind * path) (detail : str),
     l_suppress_diag l = false /\
     stderr_bytes (report_one_logf o l e detail) = stderr_bytes l /\
     stdout_bytes (report_one_logf o l e detail) = stdout_bytes l ++ ex_error_text /\
     l_errors (report_one_logf o l e detail) = l_errors l + 1 /\
     exit_status false l = 0 /\ exit_status false (report_one_logf o l e detail) = 1).
Proof.
  exact (conj logf_suppressed (conj logf_suppressed_reached (conj logf_unsuppressed logf_unsuppressed_example))).
Qed.
Print Assumptions C05_logf_report_refuted.

Example C05_tech_error_example :
  let l := Model.Logger.tech_error new_logger ex_tmp ([67; 97; 110; 110; 111; 116; 32; 119; 114; 105; 116; 101; 58; 32] ++ ex_detail) in
  stderr_bytes l = ex_error_text /\ sw_out (l_err l) = ex_error_text /\ stdout_bytes l = [] /\
  l_errors l = 0 /\ exit_status true l = 0.
Proof. vm_compute. repeat split; reflexivity. Qed.
Print Assumptions C05_tech_error_example.

Example C05_report_one_example :
  report_one new_logger ex_entry ex_detail =
  Model.Logger.tech_error new_logger ex_tmp ([67; 97; 110; 110; 111; 116; 32; 119; 114; 105; 116; 101; 58; 32] ++ ex_detail) /\
  error_line ex_entry ex_detail = ex_error_text /\
  stderr_bytes (report_one ex_suppressed ex_entry ex_detail) = ex_error_text /\
  stdout_bytes (report_one ex_suppressed ex_entry ex_detail) = [].
Proof. vm_compute. repeat split; reflexivity. Qed.
Print Assumptions C05_report_one_example.
