(* C03 -- the AUTOFIX log exactly accounts for what --autofix did to each file.
   Only statements and examples; the proof of every theorem is `exact <lemma>`.

   Model   : Model/Autofix.v   (v23/autofix.go, line.go, plist.go sorter, checkExecutable)
   Spec    : Spec/ApplyLog.v   (apply the printed log to the old bytes)
   A history is any list of events: fix transactions (line.Autofix(); diag; any
   operations; Apply) on any lines in any order, SaveAutofixChanges, the
   executable-bit check; [wf_groups] says that the logical lines are a partition
   of the physical lines of the file (any grouping into continuation lines). *)
From PV Require Import Lib.Bytes Spec.ApplyLog Model.Autofix Proofs.Autofix Proofs.AutofixViews Proofs.AutofixSort Proofs.AutofixSorted Gen.ReplaceArgs.
From Coq Require Import Permutation.
Open Scope Z_scope.

(* what SaveAutofixChanges writes for the file is consistent with the AUTOFIX lines
   printed for it: for ALL files, groupings, option sets with --autofix, histories *)
Theorem C03_save_consistent_with_log :
  forall o keys file content groups evs st,
    o_autofix o = true -> wf_groups content groups -> Forall no_sort_event evs ->
    run o keys evs (init_state file groups) = Ok st ->
    consistent content (entries_of file (s_log st)) (file_content file (s_store st)) = true.
Proof. exact save_consistent_with_log. Qed.
Print Assumptions C03_save_consistent_with_log.

(* ... and so are the bytes on disk (tmp file + rename, or nothing written at all)
   after any history that ends with a save *)
Theorem C03_disk_consistent_with_log :
  forall o keys file content groups evs st,
    o_autofix o = true -> wf_groups content groups -> Forall no_sort_event evs ->
    run o keys (evs ++ [ESave]) (init_state file groups) = Ok st ->
    consistent content (entries_of file (s_log st)) (disk_after file content None (s_ops st)) = true.
Proof. exact disk_consistent_with_log. Qed.
Print Assumptions C03_disk_consistent_with_log.

(* a raw line whose bytes changed has a logged action with its line number; lines are
   inserted above / below only with a logged action at the first / last raw line *)
Theorem C03_nothing_unlogged :
  forall o keys file content groups evs st,
    o_autofix o = true -> wf_groups content groups -> Forall no_sort_event evs ->
    run o keys evs (init_state file groups) = Ok st ->
    forall l, In l (s_store st) ->
      (forall j, nth_error (cur_texts l) j <> nth_error (l_raw l) j ->
         exists g, In g (s_log st) /\ g_file g = file /\ g_lineno g = l_lineno l + Z.of_nat j) /\
      (cur_above l <> [] -> exists g, In g (s_log st) /\ g_file g = file /\ g_lineno g = l_lineno l) /\
      (cur_below l <> [] -> exists g, In g (s_log st) /\ g_file g = file /\
                                       g_lineno g = l_lineno l + Z.of_nat (length (l_raw l)) - 1).
Proof. exact nothing_unlogged. Qed.
Print Assumptions C03_nothing_unlogged.

(* a logical line none of whose physical line numbers occurs in the log is written
   back byte for byte (terminators and a missing final newline included) *)
Theorem C03_untouched_preserved :
  forall o keys file content groups evs st,
    o_autofix o = true -> wf_groups content groups -> Forall no_sort_event evs ->
    run o keys evs (init_state file groups) = Ok st ->
    forall l, In l (s_store st) ->
      (forall g, In g (s_log st) -> g_file g = file ->
         ~ (l_lineno l <= g_lineno g < l_lineno l + Z.of_nat (length (l_raw l)))) ->
      line_bytes l = l_raw l.
Proof. exact untouched_preserved. Qed.
Print Assumptions C03_untouched_preserved.

(* the PLIST sorter: either nothing happens, or exactly one line gets a fix object
   with the single action "Sorting the whole file." and what is saved is a
   permutation of the file's lines, each line as a whole (with everything earlier
   fixes put into it) *)
Theorem C03_sort_permutes_whole_lines :
  forall o keys store store' printed ops af,
    length keys = length store -> Forall idle store ->
    plist_sort o keys store = Ok (store', printed, ops, af) ->
    (store' = store /\ printed = [] /\ ops = [] /\ af = false) \/
    (exists view i l, Permutation view store' /\ (ops, af) = save o view /\
       nth_error store' i = Some l /\ (forall k, k <> i -> nth_error store' k = nth_error store k) /\
       (printed = [] \/ printed = [Log (l_file l) DSort (l_lineno l)])).
Proof. exact sort_permutes_whole_lines. Qed.
Print Assumptions C03_sort_permutes_whole_lines.

(* histories that END WITH THE SORTER (as PlistChecker.Check runs it: once, after all
   other checks): the bytes on disk are consistent with the log, which then contains
   "Sorting the whole file." -- under the guard [no_newline_args], a boolean predicate
   on the history: no argument of Replace / ReplaceAfter / ReplaceAt contains a
   newline, and the text ReplaceAfter looks for (prefix ++ from) is not empty *)
Theorem C03_save_consistent_with_log_sorted_partial :
  forall o keys file content groups evs st,
    o_autofix o = true -> wf_groups content groups -> length keys = length groups ->
    Forall no_sort_event evs -> no_newline_args evs = true ->
    run o keys (evs ++ [ESort]) (init_state file groups) = Ok st ->
    consistent content (entries_of file (s_log st)) (disk_after file content None (s_ops st)) = true.
Proof. exact save_consistent_with_log_sorted_partial. Qed.
Print Assumptions C03_save_consistent_with_log_sorted_partial.

(* without the guard the statement is FALSE of the model: PLIST "b\na\n", a fix replaces
   the terminator of line 2 by nothing, the sorter puts the unterminated "a" in front
   of "b\n", the file is "ab\n" (witness by vm_compute) *)
Theorem C03_save_consistent_with_log_sorted_refuted : ~ save_consistent_with_log_sorted_full.
Proof. exact save_consistent_with_log_sorted_refuted. Qed.
Print Assumptions C03_save_consistent_with_log_sorted_refuted.

(* any number of serial views: view k+1 is loaded from what view k saved; the final
   bytes are consistent with the concatenated log with n save-and-load-again points *)
Theorem C03_multi_view_serial_n :
  forall o file content log final n,
    o_autofix o = true -> serial o file content log final n ->
    consistent_hist n content log final = true.
Proof. exact multi_view_serial_n. Qed.
Print Assumptions C03_multi_view_serial_n.

(* several views of one file, serially: the second view is loaded from what the first
   one saved (its line numbers are those of the intermediate file); the final bytes
   are consistent with the concatenated log, with one save-and-load-again point *)
Theorem C03_multi_view_serial :
  forall o file content groupsA evsA stA groupsB evsB stB,
    o_autofix o = true ->
    wf_groups content groupsA -> Forall no_sort_event evsA ->
    view_run o file content groupsA evsA = Ok stA ->
    let mid := view_disk file content stA in
    wf_groups mid groupsB -> Forall no_sort_event evsB ->
    view_run o file mid groupsB evsB = Ok stB ->
    entries_of file (s_log stA) <> [] -> entries_of file (s_log stB) <> [] ->
    consistent_hist 1 content (entries_of file (s_log stA) ++ entries_of file (s_log stB))
                    (view_disk file mid stB) = true.
Proof. exact multi_view_serial. Qed.
Print Assumptions C03_multi_view_serial.

(* interleaved views (both loaded from the same bytes, saved one after the other):
   the full statement is FALSE of the model -- the first view's update is lost.
   Whether pkglint ever interleaves views is checked on real runs (docs/C03.md). *)
Theorem C03_multi_view_interleaved_refuted : ~ multi_view_interleaved_full.
Proof. exact multi_view_interleaved_refuted. Qed.
Print Assumptions C03_multi_view_interleaved_refuted.

(* non-vacuity: a file with a continuation line, two transactions (several operations
   on one line, a deletion), a save; the hypotheses hold, the run succeeds, three
   actions are logged and the file is rewritten *)
Definition ex_file : str := [47;102]%N.                                           (* "/f" *)
Definition ex_content : str := [65;61;32;98;32;92;10; 9;99;10; 88;61;49;10]%N.    (* "A= b \\\n\tc\nX=1\n" *)
Definition ex_groups : list (list str * str) :=
  [ ([[65;61;32;98;32;92;10]%N; [9;99;10]%N], [65;61;32;98;32;99]%N);            (* lines 1--2, Text "A= b c" *)
    ([[88;61;49;10]%N], [88;61;49]%N) ].                                          (* line 3 *)
Definition ex_events : list event :=
  [ ETxn (Txn 0 [68;105;97;103;46]%N [OReplaceAfter [] [98]%N [66]%N; OInsertBelow [110;101;119]%N]);
    ETxn (Txn 1 [68;105;97;103;46]%N [ODelete]);
    ESave ].
Example C03_witness :
  wf_groups ex_content ex_groups /\
  exists st, run (Opts true false []) [] ex_events (init_state ex_file ex_groups) = Ok st /\
    map (fun g => (g_lineno g, g_descr g)) (s_log st) =
      [(1, DRepl [98]%N [66]%N); (2, DBelow [110;101;119]%N); (3, DDelete)] /\
    disk_after ex_file ex_content None (s_ops st) =
      [65;61;32;66;32;92;10; 9;99;10; 110;101;119;10]%N.                          (* "A= B \\\n\tc\nnew\n" *)
Proof.
  split.
  - split; [vm_compute; reflexivity|]. repeat constructor; discriminate.
  - eexists. split; [vm_compute; reflexivity|]. split; vm_compute; reflexivity.
Qed.

(* Autofix.Custom and --only.
   Custom as coded: `if fix.skip() { return }; fixer(Opts.ShowAutofix, Opts.Autofix)`.
   The fixer has an effect outside the line's texts (checkExecutable: chmod when autofix). *)

(* the fixer runs iff the diagnostic of the fix is selected by --only; if it does not
   run, the line (texts, actions) is untouched *)
Theorem C03_custom_runs_iff_selected :
  forall o ri d l l' ran f,
    l_fix l = Some f -> custom o ri d l = Ok (l', ran) ->
    ran = shall_be_logged o (f_diag f) /\ (ran = false -> l' = l).
Proof. exact custom_runs_iff_selected. Qed.
Print Assumptions C03_custom_runs_iff_selected.

(* a Custom fixer had its effect (the executable bits were cleared) ==> --autofix was
   given, "Should not be executable." is selected by --only, and exactly the AUTOFIX line
   "Clearing executable bits" was printed for that file: for ALL option records *)
Theorem C03_custom_effect_implies_logged :
  forall o file x c printed ops,
    check_executable o file x c = Ok (printed, ops) -> ops <> [] ->
    ops = [OpChmod file] /\ printed = [(DChmod, 0)] /\ o_autofix o = true /\
    shall_be_logged o not_executable_format = true.
Proof. exact custom_effect_implies_logged. Qed.
Print Assumptions C03_custom_effect_implies_logged.

(* deselected by --only: neither a chmod nor a line, whatever the other options *)
Theorem C03_custom_skipped_no_effect :
  forall o file x c,
    shall_be_logged o not_executable_format = false ->
    check_executable o file x c = Ok ([], []).
Proof. exact custom_skipped_no_effect. Qed.
Print Assumptions C03_custom_skipped_no_effect.

(* non-vacuity: --autofix --only "Trail" on an executable, uncommitted
   file does nothing; without --only the mode is fixed and logged *)
Example C03_custom_witness :
  check_executable (Opts true false [[84;114;97;105;108]%N]) ex_file true false = Ok ([], []) /\
  check_executable (Opts true false []) ex_file true false = Ok ([(DChmod, 0)], [OpChmod ex_file]) /\
  check_executable (Opts false true []) ex_file true false = Ok ([(DChmod, 0)], []).
Proof. vm_compute. repeat split; reflexivity. Qed.

(* the static side of the guard (gen/c03.go, regenerated on every run): the only string
   literals with a newline that are passed to Replace / ReplaceAfter / ReplaceAt are
   those of the CR fix for patch hunk headers ("\r\n" -> "\n", keeps the terminator,
   PatchChecker: never followed by the PLIST sorter); the non-literal arguments are
   listed in Gen/ReplaceArgs.v as the residual assumption *)
From Coq Require Import String.
Theorem C03_replace_newline_literals :
  replace_newline_literal_sites =
  ["patches.go PatchChecker.checktextUniHunkCr Replace(""\n"")"%string;
   "patches.go PatchChecker.checktextUniHunkCr Replace(""\r\n"")"%string]%list.
Proof. exact (eq_refl _). Qed.
Print Assumptions C03_replace_newline_literals.
