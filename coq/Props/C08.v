(* C08 -- Presentation options and option spelling never change what is found.
   Only statements: every theorem is proved by `exact` of a result of Proofs/; two examples
   (C08_witness_quiet, C08_only_subset_needs_equal_levels) are proved here.

   First the spelling laws of the option parser, Model/Getopt.v,
   over ANY well-formed option table, from ANY parser state (settings so far,
   arguments collected so far) and with ANY following arguments.  Byte values:
   45 = '-', 61 = '=', 44 = ','.  Then the Logger machine, Model/Logger.v. *)
From PV Require Import Lib.Bytes Model.Getopt Gen.Options Spec.OptionsDoc Proofs.Getopt Model.Logger Proofs.Logger Proofs.LoggerOut.
Open Scope N_scope.

(* the option table regenerated from ParseCommandLine presents exactly the documented
   interface: the same entries (short name, long name, kind, default, flags), in any order *)
Theorem C08_table_is_documented :
  length option_table = length documented_options /\
  forall d, In d (map doc_view option_table) <-> In d documented_options.
Proof. exact table_is_documented. Qed.
Print Assumptions C08_table_is_documented.

(* ... and is well-formed: short names ASCII and not '-', long names non-empty without '=',
   no short or long name twice *)
Theorem C08_option_table_wf : wf_table option_table.
Proof. exact option_table_wf. Qed.
Print Assumptions C08_option_table_wf.

(* Parse is total on a well-formed table: no panic site reached, fuel suffices *)
Theorem C08_parse_total : forall t, wf_table t -> forall args,
  match parse t args with ROk _ _ | RErr _ _ _ => True | RPanic | ROutOfFuel => False end.
Proof. exact parse_total. Qed.
Print Assumptions C08_parse_total.

(* -c is --long *)
Theorem C08_long_eq_short : forall t, wf_table t -> forall i o, nth_error t i = Some o ->
  forall st rem post,
    parse_args t st rem ([45; o_short o] :: post) =
    parse_args t st rem ((45 :: 45 :: o_long o) :: post).
Proof. exact long_eq_short. Qed.
Print Assumptions C08_long_eq_short.

(* --p and --p=value are --long and --long=value when p is a prefix of exactly one long name *)
Theorem C08_unique_prefix_eq_long : forall t, wf_table t -> forall i o p sfx,
  (nth_error t i = Some o /\ has_prefix p (o_long o) = true /\
   forall j o', nth_error t j = Some o' -> j <> i -> has_prefix p (o_long o') = false) ->
  p <> [] -> (sfx = [] \/ exists v, sfx = 61 :: v) ->
  forall st rem post,
    parse_args t st rem ((45 :: 45 :: p ++ sfx) :: post) =
    parse_args t st rem ((45 :: 45 :: o_long o ++ sfx) :: post).
Proof. exact unique_prefix_eq_long. Qed.
Print Assumptions C08_unique_prefix_eq_long.

(* an abbreviation that fits two long names (and is none) is rejected as ambiguous *)
Theorem C08_ambiguous_prefix_is_error : forall t p sfx m1 m2 o1 o2,
  m1 <> m2 -> nth_error t m1 = Some o1 -> nth_error t m2 = Some o2 ->
  has_prefix p (o_long o1) = true -> has_prefix p (o_long o2) = true ->
  (forall m o, nth_error t m = Some o -> o_long o <> p) ->
  p <> [] -> no_eq p = true -> (sfx = [] \/ exists v, sfx = 61 :: v) ->
  forall st rem post, exists a b,
    parse_args t st rem ((45 :: 45 :: p ++ sfx) :: post) = RErr st rem (EAmbiguous a b).
Proof. exact ambiguous_prefix_is_error. Qed.
Print Assumptions C08_ambiguous_prefix_is_error.

(* -abcTAIL is -a -b -c -TAIL for flags a b c; TAIL is empty or anything not starting with '-'
   (e.g. an option letter with its attached argument) *)
Theorem C08_cluster_eq_separate : forall t, wf_table t -> forall cs tail,
  Forall (fun c => exists i o, nth_error t i = Some o /\ o_kind o = KBool /\ o_short o = c) cs ->
  cs <> [] -> match tail with [] => True | x :: _ => x <> 45 end ->
  forall st rem post,
    parse_args t st rem ((45 :: cs ++ tail) :: post) =
    parse_args t st rem (map (fun c => [45; c]) cs ++
                         match tail with [] => [] | _ => [45 :: tail] end ++ post).
Proof. exact cluster_eq_separate. Qed.
Print Assumptions C08_cluster_eq_separate.

(* --p=value is --p value for an option that takes an argument (p a unique prefix or the name itself) *)
Theorem C08_eq_arg_eq_next_arg : forall t, wf_table t -> forall i o p v,
  (nth_error t i = Some o /\ has_prefix p (o_long o) = true /\
   forall j o', nth_error t j = Some o' -> j <> i -> has_prefix p (o_long o') = false) ->
  p <> [] -> o_kind o <> KBool ->
  forall st rem post,
    parse_args t st rem ((45 :: 45 :: p ++ 61 :: v) :: post) =
    parse_args t st rem ((45 :: 45 :: p) :: v :: post).
Proof. exact eq_arg_eq_next_arg. Qed.
Print Assumptions C08_eq_arg_eq_next_arg.

Theorem C08_eq_arg_eq_next_arg_long : forall t, wf_table t -> forall i o v,
  nth_error t i = Some o -> o_kind o <> KBool ->
  forall st rem post,
    parse_args t st rem ((45 :: 45 :: o_long o ++ 61 :: v) :: post) =
    parse_args t st rem ((45 :: 45 :: o_long o) :: v :: post).
Proof. exact eq_arg_eq_next_arg_long. Qed.
Print Assumptions C08_eq_arg_eq_next_arg_long.

(* -ovalue is -o value *)
Theorem C08_short_attached_eq_next_arg : forall t, wf_table t -> forall i o v,
  nth_error t i = Some o -> o_kind o <> KBool -> v <> [] ->
  forall st rem post,
    parse_args t st rem ((45 :: o_short o :: v) :: post) =
    parse_args t st rem ([45; o_short o] :: v :: post).
Proof. exact short_attached_eq_next_arg. Qed.
Print Assumptions C08_short_attached_eq_next_arg.

(* -Wa,b is -Wa -Wb (a, b arbitrary non-empty comma lists, known flags or not) *)
Theorem C08_group_comma_eq_repeat : forall t, wf_table t -> forall i o a b,
  nth_error t i = Some o -> o_kind o = KGroup -> a <> [] -> b <> [] ->
  forall st rem post,
    parse_args t st rem ((45 :: o_short o :: a ++ 44 :: b) :: post) =
    parse_args t st rem ((45 :: o_short o :: a) :: (45 :: o_short o :: b) :: post).
Proof. exact group_comma_eq_repeat_short. Qed.
Print Assumptions C08_group_comma_eq_repeat.

(* --warning=a,b is --warning=a --warning=b *)
Theorem C08_group_comma_eq_repeat_long : forall t, wf_table t -> forall i o a b,
  nth_error t i = Some o -> o_kind o = KGroup ->
  forall st rem post,
    parse_args t st rem ((45 :: 45 :: o_long o ++ 61 :: a ++ 44 :: b) :: post) =
    parse_args t st rem ((45 :: 45 :: o_long o ++ 61 :: a) :: (45 :: 45 :: o_long o ++ 61 :: b) :: post).
Proof. exact group_comma_eq_repeat_long. Qed.
Print Assumptions C08_group_comma_eq_repeat_long.

(* a flag registered with AddFlagVarNoAll (pkglint: -Werror) is left alone by "all" and "none" ... *)
Theorem C08_exempt_flag_unaffected : forall fl bs v j f,
  nth_error fl j = Some f -> gf_all f = false -> nth_error (set_all fl bs v) j = nth_error bs j.
Proof. exact set_all_exempt. Qed.
Print Assumptions C08_exempt_flag_unaffected.

(* ... in any position: -Wx -Wall is -Wall -Wx (and likewise with none) for a known flag
   word x ("error" or "no-error") that addresses only exempt flags; with
   C08_group_comma_eq_repeat the same holds for -Wx,all / -Wall,x.
   [97;108;108] = "all", [110;111;110;101] = "none", [110;111;45] = "no-" *)
Theorem C08_exempt_flag_order : forall t, wf_table t -> forall i o x a,
  nth_error t i = Some o -> o_kind o = KGroup ->
  (a = [97; 108; 108] \/ a = [110; 111; 110; 101]) ->
  str_eqb x [110; 111; 110; 101] || str_eqb x [97; 108; 108] = false -> x <> [] ->
  existsb (N.eqb 44) x = false ->
  (forall f, In f (o_flags o) -> (x = gf_name f \/ x = [110; 111; 45] ++ gf_name f) -> gf_all f = false) ->
  forall st rem post bs bs1, nth_error st i = Some (VGroup bs) -> find_flag (o_flags o) bs x = Some bs1 ->
    parse_args t st rem ((45 :: o_short o :: x) :: (45 :: o_short o :: a) :: post) =
    parse_args t st rem ((45 :: o_short o :: a) :: (45 :: o_short o :: x) :: post).
Proof. exact exempt_flag_order. Qed.
Print Assumptions C08_exempt_flag_order.

(* on pkglint's own table: `-Werror -Wall` = `-Wall -Werror`, and error stays on *)
Example C08_werror_wall_order :
  parse option_table [[112]; [45; 87; 101; 114; 114; 111; 114]; [45; 87; 97; 108; 108]] =
  parse option_table [[112]; [45; 87; 97; 108; 108]; [45; 87; 101; 114; 114; 111; 114]] /\
  (exists st rem, parse option_table [[112]; [45; 87; 101; 114; 114; 111; 114]; [45; 87; 97; 108; 108]] = ROk st rem /\
     last st (VBool false) = VGroup [true; true; true; true]).
Proof. exact werror_wall_order. Qed.

(* everything after "--" is an argument, the settings are left alone *)
Theorem C08_after_dashdash_are_args : forall t st rem post,
  parse_args t st rem ([45; 45] :: post) = ROk st (rem ++ post).
Proof. exact after_dashdash_are_args. Qed.
Print Assumptions C08_after_dashdash_are_args.

(* "for arbitrary surrounding argv": each law above has the form
   forall st rem post, parse_args t st rem (x ++ post) = parse_args t st rem (y ++ post);
   such x and y can be exchanged inside any complete command line, provided the words
   before them leave the parser looking for an option (they do not end in an option
   still waiting for its argument, contain no "--" and no error) *)
Theorem C08_equivalent_in_context : forall t x y,
  (forall st rem post, parse_args t st rem (x ++ post) = parse_args t st rem (y ++ post)) ->
  forall prog pre post st rem,
    (forall post', parse_args t (init t) [] (pre ++ post') = parse_args t st rem post') ->
    parse t (prog :: pre ++ x ++ post) = parse t (prog :: pre ++ y ++ post).
Proof. exact equivalent_in_context. Qed.
Print Assumptions C08_equivalent_in_context.

(* the side condition cannot be dropped: `p -o -q` and `p -o --quiet` differ (the word after -o is its argument) *)
Example C08_position_matters :
  parse option_table [[112]; [45; 111]; [45; 113]] <>
  parse option_table [[112]; [45; 111]; [45; 45; 113; 117; 105; 101; 116]].
Proof. exact position_matters. Qed.

(* non-vacuity on pkglint's own table: "quiet" is an entry, "q" abbreviates it and no other
   long name; -q, --q and --quiet parse alike and do change the settings *)
Example C08_witness_quiet :
  (exists i o, find_long option_table 0 [113; 117; 105; 101; 116] = Some (i, o) /\
     has_prefix [113] (o_long o) = true /\
     forall j o', nth_error option_table j = Some o' -> j <> i -> has_prefix [113] (o_long o') = false) /\
  parse option_table [[112]; [45; 113]] = parse option_table [[112]; [45; 45; 113]] /\
  parse option_table [[112]; [45; 113]] = parse option_table [[112]; [45; 45; 113; 117; 105; 101; 116]] /\
  parse option_table [[112]; [45; 113]] <> parse option_table [[112]].
Proof.
  split; [|split; [vm_compute; reflexivity|split; [vm_compute; reflexivity|vm_compute; discriminate]]].
  destruct (find_long option_table 0 [113; 117; 105; 101; 116]) as [[i o]|] eqn:E; [|vm_compute in E; discriminate].
  exists i, o. split; [reflexivity|]. vm_compute in E. inversion E; subst. split; [reflexivity|].
  intros j o' Hj Hne. do 17 (destruct j as [|j]; [try congruence; inversion Hj; subst; reflexivity|]).
  destruct j; discriminate.
Qed.

(* The Logger machine, Model/Logger.v.  Events are what checks do to the
   Logger (Diag, Explain, Autofix.Apply, SaveAutofixChanges, TechErrorf,
   ShowSummary); l_emitted is the list of (level, file, linenos, message) tuples,
   one per diagnostic line that Logf wrote. *)

(* for ALL event lists and all option records that agree on ShowAutofix, Autofix and
   Only -- whatever -e -s -g -q are -- the emitted diagnostic tuples, the counters,
   explanationsAvailable / autofixAvailable and the exit status (with and without
   -Werror) are equal *)
Theorem C08_presentation_irrelevant : forall o1 o2 evs,
  lo_show_autofix o1 = lo_show_autofix o2 /\ lo_autofix o1 = lo_autofix o2 /\ lo_only o1 = lo_only o2 ->
  let a := log_run o1 evs in let b := log_run o2 evs in
  l_emitted a = l_emitted b /\
  l_errors a = l_errors b /\ l_warnings a = l_warnings b /\ l_notes a = l_notes b /\
  l_expl_avail a = l_expl_avail b /\ l_fix_avail a = l_fix_avail b /\
  forall werror, exit_status werror a = exit_status werror b.
Proof. exact presentation_irrelevant. Qed.
Print Assumptions C08_presentation_irrelevant.

(* the machine marks a Go panic site with the ghost flag l_panicked and goes on; the flag
   stays false for well-formed events, so the statement above is not about garbage *)
Theorem C08_logger_never_panics : forall o evs,
  Forall (fun ev => match ev with
                    | EvFix ln fv _ _ _ _ _ => (length (ln_raws ln) <= length (fv_texts fv))%nat
                    | EvSummary args => args <> []
                    | _ => True
                    end) evs ->
  l_panicked (log_run o evs) = false.
Proof. exact logger_never_panics. Qed.
Print Assumptions C08_logger_never_panics.

(* every tuple printed with --only S is printed by the unrestricted run.  With -f / -F
   unconditionally; in the default mode under the audited assumption that two events
   with the same duplicate-suppression key (file, linenos, message) carry the same
   level ("equal message => equal level") *)
Theorem C08_only_is_subset : forall o S evs,
  (is_autofix o = true \/
   forall e1 e2 d1 d2, In e1 evs -> In e2 evs -> ev_diag e1 = Some d1 -> ev_diag e2 = Some d2 ->
     d_key d1 = d_key d2 -> d_tuple d1 = d_tuple d2) ->
  incl (l_emitted (log_run (with_only o S) evs)) (l_emitted (log_run (with_only o []) evs)).
Proof. exact only_is_subset. Qed.
Print Assumptions C08_only_is_subset.

(* the assumption is needed: the same message once as a warning (format not matching S)
   and once as an error (format matching S) -- the unrestricted run prints only the warning *)
Definition ex_line : line := mk_line 1 [102] 3 [[65; 10]].
Definition ex_evs : list event :=
  [ EvDiag ex_line LWarn [120] [109]; EvDiag ex_line LError [98; 97; 114] [109] ].
Definition ex_opts : opts := mk_opts false false false false false false [].
Example C08_only_subset_needs_equal_levels :
  l_emitted (log_run (with_only ex_opts [[98; 97; 114]]) ex_evs) = [(LError, [102], [51], [109])] /\
  l_emitted (log_run (with_only ex_opts []) ex_evs) = [(LWarn, [102], [51], [109])].
Proof. split; vm_compute; reflexivity. Qed.
