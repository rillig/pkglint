(* C16 -- repeated --autofix converges to a fixed point where nothing more is
   offered.  Only statements and examples; the proof of every theorem is
   `exact <lemma>`.
   What is proved: a generic composition theorem for fixers, its instances for
   small executable models of five fixers (Model/Settle.v), settling of
   CheckCvsID, the PLIST pass and CheckUsedBy as coded (also over the file as it
   is saved and loaded again), and -- on the Logger/Autofix machine of C04 --
   that a fixed point of --autofix is quiet.
   Convergence of ALL 70+ fix sites together is explored by the whole-run part
   of the check, not proved. *)
From PV Require Import Lib.Bytes Model.Settle Proofs.Settle Proofs.Settle2 Model.Modes Proofs.Modes.
Open Scope N_scope.

(* if each fixer establishes a post-condition under which it is the identity,
   and the fixers preserve each other's post-conditions, then one pass of all
   of them reaches a common fixed point *)
Theorem C16_settling_composition : forall (T : Type) (fs : list (fixer T)),
  Forall sound fs -> (forall f g, In f fs -> In g fs -> preserves g f) ->
  forall x, (forall f, In f fs -> fx_run f (pass fs x) = pass fs x)
            /\ pass fs (pass fs x) = pass fs x.
Proof. exact settling_composition. Qed.
Print Assumptions C16_settling_composition.

(* the order-aware form: it suffices that every fixer preserves the
   post-conditions of the fixers that ran BEFORE it in the pass (inserting the
   CVS id may break "empty line below the id", so that one has to run later) *)
Theorem C16_settling_composition_ordered : forall (T : Type) (fs : list (fixer T)),
  Forall sound fs -> triangular T [] fs ->
  forall x, Forall (fun f => fx_post f (pass fs x)) fs
            /\ (forall f, In f fs -> fx_run f (pass fs x) = pass fs x)
            /\ pass fs (pass fs x) = pass fs x.
Proof. exact settling_composition_ordered. Qed.
Print Assumptions C16_settling_composition_ordered.

(* trailing whitespace (linechecker.go CheckTrailingWhitespace): one application settles *)
Theorem C16_trim_settles : forall ls : list str, trim_file (trim_file ls) = trim_file ls.
Proof. exact trim_settles. Qed.
Print Assumptions C16_trim_settles.

(* CVS id + empty line below it (lines.go CheckCvsID, lineslexer.go SkipEmptyOrNote) *)
Theorem C16_cvsid_settles : forall (prefix : str) (ls : list str),
  fix_header prefix (fix_header prefix ls) = fix_header prefix ls.
Proof. exact cvsid_settles. Qed.
Print Assumptions C16_cvsid_settles.

(* PLIST sort *)
Theorem C16_sort_idempotent : forall l : list str, isort (isort l) = isort l.
Proof. exact sort_idempotent. Qed.
Print Assumptions C16_sort_idempotent.

(* distinfo hashes, for any hash function *)
Theorem C16_hash_settles : forall (computed : str -> str) (es : list distinfo_entry),
  fix_hashes computed (fix_hashes computed es) = fix_hashes computed es.
Proof. exact hash_settles. Qed.
Print Assumptions C16_hash_settles.

(* instance of the composition theorem: header fixer and trimmer on one file *)
Theorem C16_text_file_settles : forall (prefix : str) (ls : list str),
  text_pass prefix (text_pass prefix ls) = text_pass prefix ls
  /\ fix_header prefix (text_pass prefix ls) = text_pass prefix ls
  /\ trim_file (text_pass prefix ls) = text_pass prefix ls.
Proof. exact text_file_settles. Qed.
Print Assumptions C16_text_file_settles.

(* on the mode machine of C04, for ALL lists of checks: if --autofix marks no
   line as modified (nothing is written: a fixed point), then --show-autofix
   logs no action and the default run does not advertise automatic fixing *)
Theorem C16_fixed_point_quiet : forall only ls (cs : list check),
  Forall fresh ls ->
  existsb l_modified (s_lines (run Autofix only ls cs)) = false ->
  actions (run ShowAutofix only ls cs) = []
  /\ (s_panic (run ShowAutofix only ls cs) = false -> autofix_available (run Default only ls cs) = false).
Proof. exact fixed_point_quiet. Qed.
Print Assumptions C16_fixed_point_quiet.

(* Lines.CheckCvsID with the arguments of each kind of call site (distinfo/patch: no
   prefix; makefiles: #[\t ]+ / "# "; PLIST: "@comment "): never panics on a file with
   a line, and what it produces it leaves alone *)
Theorem C16_cvsid_kinds_total : forall (k : idkind) (ls : list str), ls <> [] -> check_cvsid k ls <> None.
Proof. exact check_cvsid_total. Qed.
Print Assumptions C16_cvsid_kinds_total.
Theorem C16_cvsid_kinds_settle : forall (k : idkind) (ls ls' : list str),
  check_cvsid k ls = Some ls' -> check_cvsid k ls' = Some ls'.
Proof. exact check_cvsid_settles. Qed.
Print Assumptions C16_cvsid_kinds_settle.

(* CheckLinesPlist (CVS id, empty-line deletion, ${PKGMANDIR}, manual-page .gz, @unexec rmdir): for
   every PLIST with at least one line the pass neither panics nor runs out of fuel *)
Theorem C16_plist_pass_total : forall ls : list str, ls <> [] -> exists o, plist_pass ls = POk o.
Proof. exact plist_pass_total. Qed.
Print Assumptions C16_plist_pass_total.

(* for ALL PLISTs: every line for which the ".gz extension is unnecessary" fix is offered
   is fixed by the one pass, wherever it stands and whatever else the file contains
   (no per-file state: the pass distributes over ++) *)
Theorem C16_gz_all_fixed_in_one_pass : forall (a : list str) (l : str) (b : list str),
  gz_offered l = true ->
  exists a' b', plist_lines_fix a = Some a' /\ plist_lines_fix b = Some b' /\
                plist_lines_fix (a ++ l :: b) = Some (a' ++ drop_last3 l :: b').
Proof. exact gz_all_fixed_in_one_pass. Qed.
Print Assumptions C16_gz_all_fixed_in_one_pass.

(* "one pass of the PLIST fixers reaches the fixed point" is FALSE of the faithful model:
   man/man1/a.1.gz.gz loses one .gz per pass, and ${PKGMANDIR}/man1/a.1.gz becomes
   man/man1/a.1.gz in the first pass (checkPath goes on with the old path) and
   man/man1/a.1 in the second *)
Theorem C16_plist_one_pass_refuted : ~ plist_one_pass_full.
Proof. exact plist_one_pass_refuted. Qed.
Print Assumptions C16_plist_one_pass_refuted.
(* it holds for every PLIST in which each line, once fixed, is left alone (a decidable
   condition on single lines; the two witnesses above violate exactly it) *)
Theorem C16_plist_settles_partial : forall ls o : list str,
  forallb line_settles ls = true -> plist_pass ls = POk o -> plist_pass o = POk o.
Proof. exact plist_settles_partial. Qed.
Print Assumptions C16_plist_settles_partial.
Theorem C16_plist_guard_needed :
  forallb line_settles plist_stacked_gz = false /\ forallb line_settles plist_pkgmandir_gz = false.
Proof. exact plist_guard_needed. Qed.
Print Assumptions C16_plist_guard_needed.

(* for ALL PLISTs: the first pass establishes the CVS id, and from then on every pass either
   leaves the file alone or makes it strictly smaller (bytes + lines): repeated passes reach
   the fixed point, after at most plist_measure passes *)
Theorem C16_plist_pass_header : forall ls o : list str, plist_pass ls = POk o ->
  exists l0 r, o = l0 :: r /\ is_cvsid_k IdPlist l0 = true.
Proof. exact plist_pass_header. Qed.
Print Assumptions C16_plist_pass_header.
Theorem C16_plist_pass_shrinks : forall (l0 : str) (r o : list str),
  is_cvsid_k IdPlist l0 = true -> plist_pass (l0 :: r) = POk o ->
  o = l0 :: r \/ (plist_measure o < plist_measure (l0 :: r))%nat.
Proof. exact plist_pass_shrinks. Qed.
Print Assumptions C16_plist_pass_shrinks.

(* MkLines.CheckUsedBy with SplitToParagraphs, for ALL files (first paragraphs with code,
   "#" separators, several used-by paragraphs, conflicts ...) and all names without
   white-space: what the fix produces is left alone by the check *)
Theorem C16_used_by_settles : forall (name : str) (ls ls' : list str), name_ok name ->
  used_by name ls = Some ls' -> used_by name ls' = Some ls'.
Proof. exact used_by_settles. Qed.
Print Assumptions C16_used_by_settles.
Theorem C16_used_by_inserts : forall (name : str) (ls ls' : list str),
  used_by name ls = Some ls' -> ls' = ls \/ In (used_by_prefix ++ name) ls'.
Proof. exact used_by_inserts. Qed.
Print Assumptions C16_used_by_inserts.

(* Settling over the RE-LOADED file.
   load_file splits the bytes at "\n" (a "\r" stays in Line.Text), save_file writes the lines
   back, every inserted line with "\n" as autofix.go does.  For ALL byte strings on disk -- LF,
   CR LF, mixed, unterminated last line --: fix, save, load again: the check leaves the file alone *)
Theorem C16_load_save : forall (ls : list str) (t : bool), forallb nl_free ls = true -> saveable ls t ->
  load_file (save_file ls t) = (ls, match ls with [] => true | _ => t end).
Proof. exact load_save. Qed.
Print Assumptions C16_load_save.
Theorem C16_load_saveable : forall (bs : str) (ls : list str) (t : bool), load_file bs = (ls, t) ->
  forallb nl_free ls = true /\ saveable ls t.
Proof. exact load_nl_free. Qed.
Print Assumptions C16_load_saveable.
Theorem C16_cvsid_settles_after_reload : forall (k : idkind) (bs : str) (ls : list str) (t : bool) (ls' : list str) (t' : bool),
  load_file bs = (ls, t) -> check_cvsid k ls = Some ls' -> saveable ls' t' ->
  check_cvsid k (fst (load_file (save_file ls' t'))) = Some (fst (load_file (save_file ls' t'))).
Proof. exact cvsid_settles_after_reload. Qed.
Print Assumptions C16_cvsid_settles_after_reload.
Theorem C16_used_by_settles_after_reload : forall (name bs : str) (ls : list str) (t : bool) (ls' : list str) (t' : bool),
  name_ok name -> nl_free name = true ->
  load_file bs = (ls, t) -> used_by name ls = Some ls' -> saveable ls' t' ->
  used_by name (fst (load_file (save_file ls' t'))) = Some (fst (load_file (save_file ls' t'))).
Proof. exact used_by_settles_after_reload. Qed.
Print Assumptions C16_used_by_settles_after_reload.
(* a CR LF file: the texts end in "\r"; the inserted id does not, and is recognised again *)
Example C16_crlf_example :
  load_file [36;78;101;116;66;83;68;36;13;10;120;13;10] = ([[36;78;101;116;66;83;68;36;13]; [120;13]], true)
  /\ check_cvsid IdPlain [[36;78;101;116;66;83;68;36;13]; [120;13]]
     = Some [[36;78;101;116;66;83;68;36]; [36;78;101;116;66;83;68;36;13]; [120;13]].
Proof. split; vm_compute; reflexivity. Qed.

(* non-vacuity *)
Example C16_line_settles_examples :
  line_settles [109;97;110;47;109;97;110;49;47;97;46;49;46;103;122] = true                       (* man/man1/a.1.gz *)
  /\ line_settles [36;123;80;76;73;83;84;46;120;125;109;97;110;47;99;97;116;49;47;97;46;48;46;103;122] = true   (* ${PLIST.x}man/cat1/a.0.gz *)
  /\ gz_offered [109;97;110;47;109;97;110;49;47;97;46;49;46;103;122] = true.
Proof. repeat split; vm_compute; reflexivity. Qed.
Example C16_unexec_rmdir_example :
  plist_line_fix [64;117;110;101;120;101;99;32;114;109;100;105;114;32;37;68;47;115;104;97;114;101;47;120] = LDelete                 (* @unexec rmdir %D/share/x *)
  /\ plist_line_fix [64;117;110;101;120;101;99;32;36;123;82;77;68;73;82;125;32;37;68;47;121;32;124;124;32;36;123;84;82;85;69;125] = LKeep [64;117;110;101;120;101;99;32;36;123;82;77;68;73;82;125;32;37;68;47;121;32;124;124;32;36;123;84;82;85;69;125].
Proof. split; vm_compute; reflexivity. Qed.
Example C16_name_ok_example : name_ok [99;97;116;47;112;47;77;97;107;101;102;105;108;101].      (* cat/p/Makefile *)
Proof. split; [discriminate|vm_compute; reflexivity]. Qed.
(* a Makefile.common of three empty lines has no paragraph: left alone *)
Example C16_used_by_no_paragraph_example : used_by [120] only_separators = Some only_separators.
Proof. exact used_by_no_paragraph_example. Qed.
(* a name with a blank is never recognised again: name_ok is needed *)
Example C16_used_by_name_guard_needed :
  exists ls', used_by [97;32;98] [[35;32;120];[];[120;61;121]] = Some ls' /\ used_by [97;32;98] ls' <> Some ls'.
Proof. exact used_by_name_guard_needed. Qed.

Example C16_header_example :
  fix_header [] [[120]] = [cvsid_line []; []; [120]] /\ header_ok [] (fix_header [] [[120]]) = true.
Proof. split; vm_compute; reflexivity. Qed.
Example C16_trim_example : trim_file [[97;32;9]; [32]; []] = [[97]; []; []].
Proof. vm_compute. reflexivity. Qed.
