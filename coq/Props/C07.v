(* C07 -- the result is a function of tree and arguments.
   A Go map iteration is modelled as an ARBITRARY permutation of the map's
   entries (Model/MapIter.v).  Only statements; every proof is `exact <lemma>`. *)
From Coq Require Import Permutation Sorted.
From PV Require Import Lib.Bytes Model.MapIter Gen.MapRangeAudit Proofs.MapIter Proofs.MapIterAudit.
From PV Require Import Model.CvsEntries Proofs.CvsEntries Proofs.EnvReadAudit Proofs.GlobalsAudit.
Import ListNotations.
Open Scope N_scope.

(* sort.Strings: the result depends on the multiset of keys only *)
Theorem C07_sort_perm : forall l l' : list str, Permutation l l' -> sort_strings l = sort_strings l'.
Proof. exact sort_perm. Qed.
Print Assumptions C07_sort_perm.

(* ... and the model of sort.Strings does sort (bytewise order, same elements) *)
Theorem C07_sort_strings_spec : forall l : list str,
  StronglySorted (fun a b => str_leb a b = true) (sort_strings l) /\ Permutation (sort_strings l) l.
Proof. exact sort_strings_spec. Qed.
Print Assumptions C07_sort_strings_spec.

(* util.go keysSorted / keysJoined *)
Theorem C07_keys_sorted_perm : forall V (m m' : gomap V), Permutation m m' -> keys_sorted m = keys_sorted m'.
Proof. exact @keys_sorted_perm. Qed.
Print Assumptions C07_keys_sorted_perm.

Theorem C07_keys_joined_perm : forall V (m m' : gomap V), Permutation m m' -> keys_joined m = keys_joined m'.
Proof. exact @keys_joined_perm. Qed.
Print Assumptions C07_keys_joined_perm.

(* forEachStringMkLine, Scope.forEach, Scope.varnames, Tools.Trace: the sequence
   of callbacks is the same for every iteration order *)
Theorem C07_for_each_sorted_perm : forall V (m order order' : gomap V),
  Permutation order order' -> for_each_sorted m order = for_each_sorted m order'.
Proof. exact @for_each_sorted_perm. Qed.
Print Assumptions C07_for_each_sorted_perm.

(* collect, then sort.Slice by a key that is injective on the entries (Histogram.PrintStats) *)
Theorem C07_sort_by_perm : forall A K (key : A -> K) (kleb : K -> K -> bool) (l l' : list A),
  (forall x y, kleb x y = true \/ kleb y x = true) ->
  (forall x y z, kleb x y = true -> kleb y z = true -> kleb x z = true) ->
  (forall x y, kleb x y = true -> kleb y x = true -> x = y) ->
  NoDup (map key l) ->
  Permutation l l' -> sort_by key kleb l = sort_by key kleb l'.
Proof. exact @sort_by_perm. Qed.
Print Assumptions C07_sort_by_perm.

(* commutative accumulation *)
Theorem C07_fold_commutative_perm : forall A B (step : B -> A -> B) (l l' : list A),
  (forall b x y, step (step b x) y = step (step b y) x) ->
  Permutation l l' -> forall init, range_fold step init l = range_fold step init l'.
Proof. exact @fold_commutative_perm. Qed.
Print Assumptions C07_fold_commutative_perm.

(* ... where the steps only have to commute for DISTINCT entries of this map
   (writes to distinct keys / distinct objects) *)
Theorem C07_fold_commutative_perm_on : forall A B (step : B -> A -> B) (l l' : list A),
  NoDup l ->
  (forall x y, In x l -> In y l -> x <> y -> forall b, step (step b x) y = step (step b y) x) ->
  Permutation l l' -> forall init, range_fold step init l = range_fold step init l'.
Proof. exact @fold_commutative_perm_on. Qed.
Print Assumptions C07_fold_commutative_perm_on.

(* arg-max accumulation (urlchecker.go CheckFetchURL after its repair): the entry with the
   largest measure among the matching ones, when the measure is injective on them
   (prefixes of one string have pairwise different lengths) *)
Theorem C07_argmax_perm : forall A (p : A -> bool) (m : A -> N) (l l' : list A),
  NoDup l ->
  (forall x y, In x l -> In y l -> p x = true -> p y = true -> m x = m y -> x = y) ->
  Permutation l l' -> range_argmax p m l = range_argmax p m l'.
Proof. exact @argmax_perm. Qed.
Print Assumptions C07_argmax_perm.

(* existence tests, universal tests, lookups, set insertion, map copy *)
Theorem C07_exists_perm : forall A (p : A -> bool) (l l' : list A),
  Permutation l l' -> range_exists p l = range_exists p l'.
Proof. exact @exists_perm. Qed.
Print Assumptions C07_exists_perm.

Theorem C07_forall_perm : forall A (p : A -> bool) (l l' : list A),
  Permutation l l' -> range_forall p l = range_forall p l'.
Proof. exact @forall_perm. Qed.
Print Assumptions C07_forall_perm.

Theorem C07_lookup_perm : forall V (k : str) (m m' : gomap V),
  NoDup (keys m) -> Permutation m m' -> lookup k m = lookup k m'.
Proof. exact @lookup_perm. Qed.
Print Assumptions C07_lookup_perm.

Theorem C07_set_insert_perm : forall A (f : A -> str) (s0 : str -> bool) (l l' : list A),
  Permutation l l' -> forall x, range_set_insert f s0 l x = range_set_insert f s0 l' x.
Proof. exact @set_insert_perm. Qed.
Print Assumptions C07_set_insert_perm.

Theorem C07_range_copy_perm : forall V (c0 : str -> option V) (m m' : gomap V),
  NoDup (keys m) -> Permutation m m' -> forall x, range_copy c0 m x = range_copy c0 m' x.
Proof. exact @range_copy_perm. Qed.
Print Assumptions C07_range_copy_perm.

(* non-vacuity: printing inside an unsorted range IS order dependent *)
Theorem C07_output_order_dependent_refuted :
  ~ (forall (line : str -> str) (l l' : list str), NoDup l -> Permutation l l' -> range_print line l = range_print line l').
Proof. exact output_order_dependent_refuted. Qed.
Print Assumptions C07_output_order_dependent_refuted.

(* the three defects repaired in /repo (37e2b2f, 37d1fd9, 7d8fe86) had the following shapes; the
   statements stay as non-vacuity results: these shapes ARE order dependent.
   urlchecker.go before the repair: "the first matching entry wins" is order dependent ... *)
Theorem C07_first_match_refuted : ~ first_match_full.
Proof. exact first_match_refuted. Qed.
Print Assumptions C07_first_match_refuted.

(* ... and independent exactly under the guard "at most one entry matches" *)
Theorem C07_first_match_partial : forall A (p : A -> bool) (l l' : list A),
  (forall x y, In x l -> In y l -> p x = true -> p y = true -> x = y) ->
  Permutation l l' -> range_first p l = range_first p l'.
Proof. exact @first_match_partial. Qed.
Print Assumptions C07_first_match_partial.

(* changes.go before the repair: sorting by a key with ties keeps the collection order
   (now the key (date, line, file) is injective: C07_sort_by_perm applies) *)
Theorem C07_sort_ties_refuted : ~ sort_ties_full.
Proof. exact sort_ties_refuted. Qed.
Print Assumptions C07_sort_ties_refuted.

(* the static tie: every `range` over a map that gen/c07.go found in /repo is
   covered by the hand-classified audit (class 1..5, none unresolved), and
   none is of class 5 (order dependent and reaching the output) *)
Theorem C07_audit_classified :
  forallb class_known maprange_classes = true
  /\ N.of_nat (length maprange_classes) = maprange_count
  /\ maprange_unresolved = 0
  /\ count_class 5 maprange_classes = 0.
Proof. exact audit_classified. Qed.
Print Assumptions C07_audit_classified.

(* The environment is not an input. *)

(* the regenerated list of environment reads (Gen/EnvReadAudit.v: os.Getenv, time.Now, os.Getwd, os/user,
   math/rand, ... in non-test code, found on every run) is fully classified against the hand-classified
   audit/envreads.json: every class known (none new / changed / unjustified), the announced length,
   the scanner visited the source files, and NO use is a finding (class 6: reaches the output and is
   neither tree nor arguments).  (There was one: os.Getwd returned $PWD; repaired by /repo 873c354.) *)
Theorem C07_env_audit_classified : env_audit_full.
Proof. exact env_audit_classified. Qed.
Print Assumptions C07_env_audit_classified.

(* util.go isLocallyModified, with the process environment (time zone, user, home, locale, cwd spelling,
   umask) as an explicit argument: the decision is the same in every environment *)
Theorem C07_locally_modified_env_independent : forall (e1 e2 : env) (es : entries) (name : str) (st : option Z),
  is_locally_modified e1 es name st = is_locally_modified e2 es name st.
Proof. exact locally_modified_env_independent. Qed.
Print Assumptions C07_locally_modified_env_independent.

(* what it decides: listed in CVS/Entries, and Stat failed or the timestamp differs from the mtime formatted in UTC *)
Theorem C07_locally_modified_spec : forall (e : env) (es : entries) (name : str) (st : option Z),
  is_locally_modified e es name st = true <->
  exists ent, entries_lookup es name = Some ent /\
    (st = None \/ exists s, st = Some s /\ ce_timestamp ent <> ansic_utc s).
Proof. exact locally_modified_spec. Qed.
Print Assumptions C07_locally_modified_spec.

(* non-vacuity: the variant that formats the file time in the process's local time zone (seeded change
   C07-r3m1) is NOT independent of the environment *)
Theorem C07_locally_modified_local_refuted :
  ~ (forall (e1 e2 : env) es name st, is_locally_modified_local e1 es name st = is_locally_modified_local e2 es name st).
Proof. exact locally_modified_local_refuted. Qed.
Print Assumptions C07_locally_modified_local_refuted.

(* the UTC timestamp string determines the second, wherever the year has four digits (0000..9999): comparing
   the strings (as the code does) is comparing the instants, so "unmodified" means "same mtime second" *)
Theorem C07_ansic_utc_injective : forall s1 s2 : Z,
  (ansic_lo <= s1 < ansic_hi)%Z -> (ansic_lo <= s2 < ansic_hi)%Z -> ansic_utc s1 = ansic_utc s2 -> s1 = s2.
Proof. exact ansic_utc_injective. Qed.
Print Assumptions C07_ansic_utc_injective.

(* ... via an independent fixed-column parser (Proofs/CvsEntries.v) that inverts the formatter *)
Theorem C07_ansic_parse_format : forall s : Z, (ansic_lo <= s < ansic_hi)%Z -> ansic_parse (ansic_utc s) = Some s.
Proof. exact ansic_parse_format. Qed.
Print Assumptions C07_ansic_parse_format.

Theorem C07_ansic_utc_length : forall s : Z, (ansic_lo <= s < ansic_hi)%Z -> length (ansic_utc s) = 24%nat.
Proof. exact ansic_utc_length. Qed.
Print Assumptions C07_ansic_utc_length.

(* the proleptic Gregorian calendar of the model: civil_from_days is inverted by days_from_civil, for every day *)
Theorem C07_days_from_civil_from_days : forall d : Z, days_from_civil (civil_from_days d) = d.
Proof. exact days_from_civil_from_days. Qed.
Print Assumptions C07_days_from_civil_from_days.

(* one CVS/Entries line: an entry iff it is "/" + five "/"-free fields separated by "/" *)
Theorem C07_parse_entry_line_spec : forall (t : str) (e : cvs_entry),
  parse_entry_line t = PrEntry e <->
  exists f1 f2 f3 f4 f5, t = [47] ++ f1 ++ [47] ++ f2 ++ [47] ++ f3 ++ [47] ++ f4 ++ [47] ++ f5
    /\ (~ In 47 f1 /\ ~ In 47 f2 /\ ~ In 47 f3 /\ ~ In 47 f4 /\ ~ In 47 f5)
    /\ e = mk_cvs_entry f1 f2 f3 f4 f5.
Proof. exact parse_entry_line_spec. Qed.
Print Assumptions C07_parse_entry_line_spec.

(* the map built from CVS/Entries + CVS/Entries.Log has duplicate-free keys and every key is its entry's name *)
Theorem C07_load_entries_wf : forall el ll : list str, entries_wf (fst (load_entries el ll)).
Proof. exact load_entries_wf. Qed.
Print Assumptions C07_load_entries_wf.

(* the hypotheses are satisfiable and the conclusions non-trivial *)
Definition ex_map : gomap N := [([98], 2); ([97; 98], 1); ([97], 0); ([255], 3)].
Definition ex_map' : gomap N := [([255], 3); ([97], 0); ([98], 2); ([97; 98], 1)].
Example C07_witness :
  keys_sorted ex_map = [[97]; [97; 98]; [98]; [255]] /\ keys_sorted ex_map' = keys_sorted ex_map
  /\ keys ex_map <> keys ex_map'
  /\ for_each_sorted ex_map ex_map' = [([97], Some 0); ([97; 98], Some 1); ([98], Some 2); ([255], Some 3)]
  /\ range_first (fun _ => true) ex_map <> range_first (fun _ => true) ex_map'
  /\ range_argmax (fun kv => negb (snd kv =? 3)) snd ex_map = Some ([98], 2)
  /\ range_argmax (fun kv => negb (snd kv =? 3)) snd ex_map' = Some ([98], 2).
Proof. repeat split; try (vm_compute; reflexivity); vm_compute; discriminate. Qed.

(* Package-level state: the regenerated list of package-level variables (Gen/GlobalsAudit.v: every `var` of the non-test
   code with the functions that write it, compared by gen/c07globals.go with audit/globals.json) is fully
   classified, has the announced length, contains no finding (a variable that survives a run and reaches
   the output of a later one), and the scanner saw >= 100 variables in >= 60 files *)
Theorem C07_globals_audit_classified : glob_audit_full.
Proof. exact glob_audit_classified. Qed.
Print Assumptions C07_globals_audit_classified.
