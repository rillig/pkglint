(* C14 -- Condition rewrites offered as simplifications preserve the condition's value.
   Only statements; every proof is `exact <lemma>`.

   Vocabulary (Spec/BmakeCond.v): [eval e c] is the value of the condition tree c
   when the variables have the values e (e v = None: undefined): Some TTrue, Some
   TFalse, Some TMalformed (bmake stops with "Malformed conditional"), or None
   when c uses a modifier outside the fragment :M :N :tl :U.
   The pattern of :M / :N is the text as written: literal bytes and nested
   references ${NAME}; bmake expands it in the environment e before matching
   ([expand_pat e pat]; an undefined nested variable contributes nothing, glob
   bytes in a nested value act as glob bytes; any other use of '$' = outside).
   So every theorem below also quantifies over the values of all variables that
   patterns refer to.  [no_dollar pat]: the pattern has no '$' byte.
   Model/CondSimp.v: simplify_word / simplify_yesno / simplify_match / check_and
   return the rewrites pkglint offers; rw_from_c / rw_to_c say what the from/to
   texts mean as trees (proved for the three simplifiers at the end of this file, and checked
   against the spec's reader on every generated case).

   [preserves e f t]: if the original f is inside the fragment so is t, and if f is
   valid (not malformed) then t has the same value -- hence is valid too.
   [equivalent e f t]: eval e f = eval e t (also the same malformedness).
   Every theorem holds for ALL values of ALL variables, under the stated
   hypotheses on the value of the rewritten variable:
     "admitted by a non-list type" = what reaches the last modifier is at most one
     word (wordlike: no white space), e.g. any single word or the empty string
     under prefix modifiers :tl :U :M :N;
     "isDefined is right" = where pkglint's isDefined says the variable is
     defined, it is (e v <> None). *)
From PV Require Import Lib.Bytes Gen.CondSimpSets Spec.BmakeCond Model.CondSimp
  Proofs.CondSimpA Proofs.CondSimpB Proofs.CondSimpC Proofs.CondSimpWords Proofs.CondSimpD
  Proofs.CondSimpE Proofs.CondSimpF Spec.PrefsFile Model.CondFile Proofs.CondFileA Proofs.CondFileB Proofs.CondSimpG.
Open Scope N_scope.

(* The regenerated literals are the ones the model was written against. *)
Theorem C14_needs_quotes_regex_unchanged :
  needs_quotes_regex = [94; 91; 92; 100; 43; 92; 45; 46; 93].   (* ^[\d+\-.] *)
Proof. reflexivity. Qed.
Print Assumptions C14_needs_quotes_regex_unchanged.

(* MatchMatch's "exact" excludes every byte that bmake's Str_Match treats specially *)
Theorem C14_exact_is_literal : forall p,
  existsb (in_set match_special_set) p = false -> forall w, str_match w p = str_eqb w p.
Proof. exact (fun p H w => str_match_literal p w (exact_plain p H)). Qed.
Print Assumptions C14_exact_is_literal.

(* toLower accepts exactly the patterns [xX][yY]..., and those match a word iff
   its lower-case form is the word toLower returns *)
Theorem C14_yesno_pattern_is_tl : forall p w,
  to_lower_pat p <> [] -> str_match w p = str_eqb (lower w) (to_lower_pat p).
Proof. exact (fun p w H => str_match_yn p (to_lower_pat p) w (to_lower_pat_yn p H)). Qed.
Print Assumptions C14_yesno_pattern_is_tl.

(* defined(V) && !empty(V...)  ->  !empty(V...)
   Full statement, whatever the modifiers: checkAnd leaves conditions with a :U... alone. *)
Theorem C14_and_equivalent : forall cs rw e,
  In rw (check_and cs) ->
  exists v ms, cs = [MDefined v; MNot (MEmpty v ms)] /\
    rw_from rw = s_defined_lp ++ v ++ s_rp_and /\ rw_to rw = [] /\
    equivalent e (CAnd (CDefined v) (CNot (CEmpty v (map classify_mod ms))))
                 (CNot (CEmpty v (map classify_mod ms))).
Proof. exact and_rewrite_equivalent. Qed.
Print Assumptions C14_and_equivalent.

(* [!]empty(V:Mword) / [!]${V:Mword} / :N  ->  ${V[:U]} ==|!= word
   The :M form: full statement, for every admitted value, no guard. *)
Theorem C14_word_M_preserves : forall cx v mods fe neg rw e,
  In rw (simplify_word cx v mods fe neg) ->
  (exists pat, last mods [] = 77 :: pat) ->
  exists f t, rw_from_c rw = Some f /\ rw_to_c rw = Some t /\
    ((is_defined (cx_seen_prefs cx) (cx_var cx v) = true -> e v <> None) ->
     (forall d s, eval_expr e v (map classify_mod (removelast mods)) = Some (d, s) -> wordlike s) ->
     preserves e f t).
Proof. exact word_rewrite_M_preserves. Qed.
Print Assumptions C14_word_M_preserves.

(* a pattern that simplifyWord leaves unquoted is not a number *)
Theorem C14_unquoted_literal_not_number : forall pat,
  numeric_head pat = false -> forallb (in_set lit_pattern_set) pat = true -> pat <> [] ->
  try_parse_number pat = None.
Proof. exact numeric_head_false_not_number. Qed.
Print Assumptions C14_unquoted_literal_not_number.

(* the :N form: the full statement is false (${V:Nfoo}, V = "") ... *)
Theorem C14_word_refuted_N_empty_value : ~ word_full.
Proof. exact word_full_refuted. Qed.
Print Assumptions C14_word_refuted_N_empty_value.

(* ... and holds with the guard: with :N the value is neither empty nor, in the
   bare form, a number zero *)
Theorem C14_word_partial : forall cx v mods fe neg rw e,
  In rw (simplify_word cx v mods fe neg) ->
  exists f t pat (positive : bool),
    rw_from_c rw = Some f /\ rw_to_c rw = Some t /\
    last mods [] = (if positive then 77 else 78) :: pat /\
    ((is_defined (cx_seen_prefs cx) (cx_var cx v) = true -> e v <> None) ->
     (forall d s, eval_expr e v (map classify_mod (removelast mods)) = Some (d, s) -> wordlike s) ->
     word_N_guard e v fe positive ->
     preserves e f t).
Proof. exact word_rewrite_partial. Qed.
Print Assumptions C14_word_partial.

(* :M[yY][eE][sS] / :N[yY][eE][sS] -> :tl} == yes / != yes
   Full statement; "NonemptyIfDefined is right" joins "isDefined is right". *)
Theorem C14_yesno_preserves : forall cx v mods fe neg rw e,
  In rw (fst (simplify_yesno cx v mods fe neg)) ->
  exists f t,
    rw_from_c rw = Some f /\ rw_to_c rw = Some t /\
    ((is_defined (cx_seen_prefs cx) (cx_var cx v) = true -> e v <> None) ->
     (vi_nonempty_if_defined (cx_var cx v) = true -> e v <> Some []) ->
     (forall d s, eval_expr e v (map classify_mod (removelast mods)) = Some (d, s) -> wordlike s) ->
     preserves e f t).
Proof. exact yesno_rewrite_preserves. Qed.
Print Assumptions C14_yesno_preserves.

(* [!]empty(V:Mpat) -> [!]${V:Mpat} [!= ""]  (any type, also lists)
   The model takes mayMatchNumber(pat) from the real code.  Its "no" is used as
   the promise that a non-empty result of :Mpat is never a number zero; the
   harness tests that promise against the spec on all short numeric words. *)
Theorem C14_match_equivalent : forall cx v mods fe neg rw e,
  In rw (simplify_match cx v mods fe neg) ->
  exists f t pat,
    rw_from_c rw = Some f /\ rw_to_c rw = Some t /\ last mods [] = 77 :: pat /\
    (e v <> None ->
     forall d r, eval_expr e v (map classify_mod (removelast mods) ++ [ModM pat]) = Some (d, r) ->
       nonempty (skip_cspace r) = nonempty r ->
       (cx_mmn cx pat <> MmnYes -> r <> [] -> truthy r false = true) ->
       equivalent e f t).
Proof. exact match_rewrite_equivalent. Qed.
Print Assumptions C14_match_equivalent.

(* the same with the promise stated the way mayMatchNumber means it -- "no word
   that matches the pattern is a number" -- for every value whose only white
   space is blank, tab, newline: one matching word is then not a number, and
   several words contain a blank, at which strtoul and strtod stop *)
Theorem C14_match_equivalent_words : forall cx v mods fe neg rw e,
  In rw (simplify_match cx v mods fe neg) ->
  exists f t pat,
    rw_from_c rw = Some f /\ rw_to_c rw = Some t /\ last mods [] = 77 :: pat /\
    (e v <> None ->
     forall d s, eval_expr e v (map classify_mod (removelast mods)) = Some (d, s) ->
       clean s ->
       (cx_mmn cx pat <> MmnYes ->
        forall w, w <> [] -> wordlike w -> str_match w pat = true -> try_parse_number w = None) ->
       equivalent e f t).
Proof. exact match_rewrite_equivalent_words. Qed.
Print Assumptions C14_match_equivalent_words.

(* a value with a blank after its first word is never a number *)
Theorem C14_blank_not_number : forall s, skip_cspace s = s -> In 32 s -> try_parse_number s = None.
Proof. exact blank_not_number. Qed.
Print Assumptions C14_blank_not_number.

(* rewriting an operand keeps the value of the surrounding condition *)
Theorem C14_context_not : forall e f t, preserves e f t -> preserves e (CNot f) (CNot t).
Proof. exact preserves_not. Qed.
Print Assumptions C14_context_not.

Theorem C14_context_and : forall e a f t, preserves e f t -> preserves e (CAnd a f) (CAnd a t).
Proof. exact preserves_and_r. Qed.
Print Assumptions C14_context_and.

Theorem C14_context_or : forall e a f t, preserves e f t -> preserves e (COr a f) (COr a t).
Proof. exact preserves_or_r. Qed.
Print Assumptions C14_context_or.

(* a string of letters (the literal yes / no) is never compared numerically *)
Theorem C14_letters_not_number : forall s, s <> [] -> forallb is_alpha s = true -> try_parse_number s = None.
Proof. exact alpha_not_number. Qed.
Print Assumptions C14_letters_not_number.

(* The hypotheses are satisfiable; the promise about mayMatchNumber is needed.
   !empty(V:Malpha) -> ${V} == alpha: true/true for V = alpha, false/false for V = b *)
Example C14_word_example :
  (exists rw f t, simplify_word ex_cx ex_var ex_Malpha_mods true true = [rw] /\
    rw_from_c rw = Some f /\ rw_to_c rw = Some t /\
    eval (env1 ex_var (Some ex_alpha)) f = Some TTrue /\ eval (env1 ex_var (Some ex_alpha)) t = Some TTrue) /\
  (exists rw f t, simplify_word ex_cx ex_var ex_Malpha_mods true true = [rw] /\
    rw_from_c rw = Some f /\ rw_to_c rw = Some t /\
    eval (env1 ex_var (Some [98])) f = Some TFalse /\ eval (env1 ex_var (Some [98])) t = Some TFalse).
Proof. exact word_rewrite_example. Qed.

(* ${V:Malpha} with V possibly undefined: malformed before, false after adding :U *)
Example C14_word_undefined_example :
  exists rw f t, simplify_word ex_cx_undef ex_var ex_Malpha_mods false true = [rw] /\
    rw_from_c rw = Some f /\ rw_to_c rw = Some t /\
    eval (env1 ex_var None) f = Some TMalformed /\ eval (env1 ex_var None) t = Some TFalse.
Proof. exact word_rewrite_undefined_example. Qed.

(* !empty(V:M0x[0-9].) with mayMatchNumber = no and V = 0x0. : true becomes false *)
Example C14_match_needs_the_promise :
  exists rw f t, simplify_match ex_cx ex_var ex_hex_mods true true = [rw] /\
    rw_from_c rw = Some f /\ rw_to_c rw = Some t /\
    eval (env1 ex_var (Some [48; 120; 48; 46])) f = Some TTrue /\
    eval (env1 ex_var (Some [48; 120; 48; 46])) t = Some TFalse.
Proof. exact match_needs_mmn_promise. Qed.

(* the cases repaired in /repo (docs/C14.md): no rewrite is offered, or the literal is quoted *)
Example C14_repaired_no_rewrite :
  simplify_word ex_cx ex_var [[77; 48]] false true = []
  /\ simplify_word ex_cx ex_var [[77; 49; 101; 49]] false true = []
  /\ fst (simplify_yesno ex_cx ex_var [[78; 91; 121; 89; 93]] false true) = []
  /\ check_and [MDefined ex_var; MNot (MEmpty ex_var [[85; 120]])] = [].
Proof. exact repaired_no_rewrite. Qed.

Example C14_repaired_quotes :
  exists rw, simplify_word ex_cx ex_var [[77; 49; 101; 49]] true true = [rw] /\
             rw_to rw = [36; 123; 86; 125; 32; 61; 61; 32; 34; 49; 101; 49; 34].
Proof. exact repaired_quotes. Qed.

(* Patterns with nested references ${NAME}.
   A pattern without '$' is matched as written, whatever the variables are *)
Theorem C14_literal_pattern_env_independent : forall p,
  no_dollar p = true -> forall e, expand_pat e p = Some p.
Proof. exact literal_pattern_env_independent. Qed.
Print Assumptions C14_literal_pattern_env_independent.

(* what a pattern expands to depends only on the variables it mentions *)
Theorem C14_expand_pat_ext : forall e1 e2 p ps,
  parse_pat (S (length p)) p = Some ps ->
  (forall v, In (PPRef v) ps -> e1 v = e2 v) -> expand_pat e1 p = expand_pat e2 p.
Proof. exact expand_pat_ext. Qed.
Print Assumptions C14_expand_pat_ext.

(* the guards as coded (the regenerated byte sets of simplifyWord and simplifyMatch,
   toLower's shape): whatever SimplifyExpr offers, the pattern of the last modifier
   has no nested reference ... *)
Theorem C14_rewritten_pattern_has_no_nested_reference : forall cx line v mods fe neg rw,
  In rw (simplify_expr cx line v mods fe neg) ->
  exists c pat, last mods [] = c :: pat /\ no_dollar pat = true.
Proof. exact simplify_expr_no_nested. Qed.
Print Assumptions C14_rewritten_pattern_has_no_nested_reference.

(* ... i.e. a condition on a pattern with a '$' is left alone by all three simplifiers *)
Theorem C14_nested_pattern_not_rewritten : forall cx line v mods fe neg c pat,
  last mods [] = c :: pat -> no_dollar pat = false ->
  simplify_expr cx line v mods fe neg = [].
Proof. exact nested_pattern_not_rewritten. Qed.
Print Assumptions C14_nested_pattern_not_rewritten.

(* what [!]empty(V:Mpat) -> [!]${V:Mpat} needs when pat has nested references: for
   ALL environments e (values of V and of every nested variable), if in e no
   non-empty word that matches the pattern AS EXPANDED IN e is a number, the two
   conditions have the same value.  (mayMatchNumber looks at the unexpanded text.) *)
Theorem C14_nested_match_equivalent : forall e v pms pat q (neg : bool) d s,
  eval_expr e v pms = Some (d, s) -> e v <> None -> clean s ->
  expand_pat e pat = Some q ->
  (forall w, w <> [] -> wordlike w -> str_match w q = true -> try_parse_number w = None) ->
  equivalent e
    (if neg then CNot (CEmpty v (pms ++ [ModM pat])) else CEmpty v (pms ++ [ModM pat]))
    (if neg then CLeaf (LExpr v (pms ++ [ModM pat])) else CNot (CLeaf (LExpr v (pms ++ [ModM pat])))).
Proof. exact nested_match_equivalent. Qed.
Print Assumptions C14_nested_match_equivalent.

(* with  != ""  appended nothing about numbers is needed, for any pattern inside the fragment *)
Theorem C14_nested_match_equivalent_cmp : forall e v pms pat q (neg : bool) d s,
  eval_expr e v pms = Some (d, s) -> e v <> None -> clean s ->
  expand_pat e pat = Some q ->
  equivalent e
    (if neg then CNot (CEmpty v (pms ++ [ModM pat])) else CEmpty v (pms ++ [ModM pat]))
    (let inner := CCmp (LExpr v (pms ++ [ModM pat])) false (LQuoted []) in
     if neg then inner else CNot inner).
Proof. exact nested_match_equivalent_cmp. Qed.
Print Assumptions C14_nested_match_equivalent_cmp.

(* the promise about the unexpanded text is not enough: !empty(V:M${L}* ) is true and
   ${V:M${L}*} is false for L = 0, V = 0, although the text ${L}* matches no number *)
Example C14_nested_needs_expanded_promise :
  parse_cond ex_from_text = Some (CNot (CEmpty ex_V [ModM ex_nested_pat])) /\
  parse_cond ex_to_text = Some (CLeaf (LExpr ex_V [ModM ex_nested_pat])) /\
  eval ex_env (CNot (CEmpty ex_V [ModM ex_nested_pat])) = Some TTrue /\
  eval ex_env (CLeaf (LExpr ex_V [ModM ex_nested_pat])) = Some TFalse /\
  (forall w, str_match w ex_nested_pat = true -> exists r, w = 36 :: r).
Proof. exact nested_needs_expanded_promise. Qed.

(* Autofix.Replace: from "the rewrite (from, to) keeps the value" to "the line pkglint writes".
   A fix is carried out only as: one occurrence of the from-text, the first one, replaced by the to-text *)
Theorem C14_autofix_replace_spec : forall line from to line',
  autofix_replace line from to = Some line' ->
  exists a b, line = a ++ from ++ b /\ line' = a ++ to ++ b /\ no_start_in from a (from ++ b).
Proof. exact autofix_replace_spec. Qed.
Print Assumptions C14_autofix_replace_spec.

(* the final line is reached from the original by carrying out exactly the logged fixes, in
   order, each on the line its predecessors left; every logged fix is one that was offered *)
Theorem C14_apply_rewrites_spec : forall rws line line' done,
  apply_rewrites line rws = (line', done) ->
  rewritten line done line' /\ (forall rw, In rw done -> In rw rws).
Proof. exact apply_rewrites_spec. Qed.
Print Assumptions C14_apply_rewrites_spec.

(* Obligations on the regenerated byte sets: a wrong table breaks one of these. *)
Theorem C14_tables_fit_the_reader :
  forallb word_char lit_unquoted_set = true /\
  forallb (fun c => plain_mod_char 125 c && plain_mod_char 41 c) lit_pattern_set = true /\
  forallb (fun c => (c =? 58) || (plain_mod_char 125 c && plain_mod_char 41 c)) simple_mod_set = true /\
  forallb (in_set match_special_set) [42; 63; 91; 92] = true /\
  forallb (in_set numeric_head_set) [43; 45; 46; 48; 49; 50; 51; 52; 53; 54; 55; 56; 57] = true /\
  in_set lit_pattern_set 36 = false /\ in_set simple_mod_set 36 = false.
Proof. exact tables_fit_the_reader. Qed.
Print Assumptions C14_tables_fit_the_reader.

(* The ':U' decision inside the model: what feeds isDefined while the file is read.
   Model/CondFile.v: loads_prefs (util.go LoadsPrefs with the REGENERATED name table), scan
   (Tools.ParseToolLine: SeenPrefs; checkLine: vars.Define outside conditional blocks;
   Indentation), file_ctx (the context MkCondChecker sees after the lines read so far).
   Spec/PrefsFile.v: prefs_reference (the files that load the user preferences, a committed
   list) + "below a directory mk"; sure_after (what bmake guarantees after some lines: an
   include or assignment counts only outside of conditional blocks); possible_env (the
   environments that can occur at that point: always-defined variables, variables assigned for
   sure, and -- only if a prefs file has been included for sure -- the variables bsd.prefs.mk
   defines; none of this for a variable that an .undef has touched since; everything else may be
   undefined). *)

(* every basename in LoadsPrefs' table (regenerated from util.go) is a reference file, and the
   directory it trusts is the reference directory: a widened table breaks this *)
Theorem C14_loads_prefs_table_within_reference :
  forallb (fun n => in_strs n prefs_reference) loads_prefs_names = true /\ loads_prefs_dir = infrastructure_dir.
Proof. exact loads_prefs_table_sound. Qed.
Print Assumptions C14_loads_prefs_table_within_reference.

(* for ALL paths: LoadsPrefs (path.Base + the table, Path.ContainsPath "mk") says "loads the
   preferences" only for files that do, by the spec's own reading of the path *)
Theorem C14_loads_prefs_within_reference : forall p,
  loads_prefs p = true -> really_loads_prefs p = true.
Proof. exact loads_prefs_sound. Qed.
Print Assumptions C14_loads_prefs_within_reference.

(* isDefined is right in the file: for ALL fragments other than hacks.mk (any lines before the condition) without
   a prefs include inside a conditional block and without an .undef of the variable, ALL declarations that are right about bmake,
   and ALL environments possible after those lines *)
Theorem C14_is_defined_sound_in_file : forall decl mmn always by_prefs pre e v,
  decl_right decl always by_prefs ->
  conditional_prefs_include sure0 pre = false ->
  possible_env always by_prefs pre e ->
  in_strs v (su_undef (sure_after pre)) = false ->
  let cx := file_ctx decl mmn (scan (init_state false) pre) in
  is_defined (cx_seen_prefs cx) (cx_var cx v) = true -> e v <> None.
Proof. exact is_defined_sound_in_file. Qed.
Print Assumptions C14_is_defined_sound_in_file.

(* hence: a rewrite offered at the line after [pre] keeps the value (and does not become
   malformed) under every environment possible there -- "isDefined is right" is proved, not
   assumed.  simplifyWord (:M form), simplifyYesNo, simplifyMatch: *)
Theorem C14_rewrite_sound_in_file : forall decl mmn always by_prefs pre,
  decl_right decl always by_prefs ->
  conditional_prefs_include sure0 pre = false ->
  let cx := file_ctx decl mmn (scan (init_state false) pre) in
  (forall v mods fe neg rw e,
    In rw (simplify_word cx v mods fe neg) ->
    (exists pat, last mods [] = 77 :: pat) ->
    possible_env always by_prefs pre e ->
    in_strs v (su_undef (sure_after pre)) = false ->
    exists f t, rw_from_c rw = Some f /\ rw_to_c rw = Some t /\
      ((forall d s, eval_expr e v (map classify_mod (removelast mods)) = Some (d, s) -> wordlike s) ->
       preserves e f t)) /\
  (forall v mods fe neg rw e,
    In rw (fst (simplify_yesno cx v mods fe neg)) ->
    possible_env always by_prefs pre e ->
    in_strs v (su_undef (sure_after pre)) = false ->
    exists f t, rw_from_c rw = Some f /\ rw_to_c rw = Some t /\
      ((vi_nonempty_if_defined (decl v) = true -> e v <> Some []) ->
       (forall d s, eval_expr e v (map classify_mod (removelast mods)) = Some (d, s) -> wordlike s) ->
       preserves e f t)) /\
  (forall v mods fe neg rw e,
    In rw (simplify_match cx v mods fe neg) ->
    possible_env always by_prefs pre e ->
    in_strs v (su_undef (sure_after pre)) = false ->
    exists f t pat, rw_from_c rw = Some f /\ rw_to_c rw = Some t /\ last mods [] = 77 :: pat /\
      (forall d s, eval_expr e v (map classify_mod (removelast mods)) = Some (d, s) ->
         clean s ->
         (mmn pat <> MmnYes ->
          forall w, w <> [] -> wordlike w -> str_match w pat = true -> try_parse_number w = None) ->
         equivalent e f t)).
Proof.
  exact (fun decl mmn always by_prefs pre Hd Hc =>
    conj (word_M_sound_in_file decl mmn always by_prefs pre Hd Hc)
      (conj (yesno_sound_in_file decl mmn always by_prefs pre Hd Hc)
            (match_sound_in_file decl mmn always by_prefs pre Hd Hc))).
Qed.
Print Assumptions C14_rewrite_sound_in_file.

(* without the guard "no prefs include inside a conditional block" the statement is false of
   the faithful model (a genuine defect, known finding C14/*/undefined/conditional-include):
   .if defined(OTHER) / .include "bsd.prefs.mk" / .endif / .if !empty(V:Malpha)  ->  ${V} == alpha,
   V undefined: false -> malformed *)
Theorem C14_rewrite_sound_in_file_refuted : ~ word_in_file_full.
Proof. exact word_in_file_full_refuted. Qed.
Print Assumptions C14_rewrite_sound_in_file_refuted.

(* ... and without the guard "no .undef of the variable since" (a second genuine defect, known
   finding C14/*/undefined/undef-after-assignment): V= x / .undef V / .if !empty(V:Malpha) ->
   ${V} == alpha, V undefined: false -> malformed *)
Theorem C14_rewrite_sound_in_file_refuted_undef : ~ word_in_file_undef_full.
Proof. exact word_in_file_undef_full_refuted. Qed.
Print Assumptions C14_rewrite_sound_in_file_refuted_undef.

(* all hypotheses of the file-level theorems hold together, with isDefined = true *)
Example C14_in_file_hypotheses_satisfiable :
  decl_right ex_decl_one (fun _ => false) (fun n => str_eqb n ex_var) /\
  conditional_prefs_include sure0 ex_sure_pre = false /\
  possible_env (fun _ => false) (fun n => str_eqb n ex_var) ex_sure_pre (env1 ex_var (Some ex_alpha)) /\
  in_strs ex_var (su_undef (sure_after ex_sure_pre)) = false /\
  is_defined (cx_seen_prefs (file_ctx ex_decl_one ex_mmn (scan (init_state false) ex_sure_pre)))
             (cx_var (file_ctx ex_decl_one ex_mmn (scan (init_state false) ex_sure_pre)) ex_var) = true.
Proof. exact in_file_hypotheses_satisfiable. Qed.

(* the hypotheses are satisfiable, the theorem is not vacuous: after an unconditional include of
   bsd.prefs.mk SeenPrefs is set, the spec agrees, ':U' is dropped and the value is kept *)
Example C14_in_file_example :
  conditional_prefs_include sure0 ex_sure_pre = false /\
  su_prefs (sure_after ex_sure_pre) = true /\
  fs_seen_prefs (scan (init_state false) ex_sure_pre) = true /\
  (exists rw f t,
    simplify_word (file_ctx ex_decl_P ex_mmn (scan (init_state false) ex_sure_pre)) ex_var ex_Malpha_mods true true = [rw] /\
    rw_from_c rw = Some f /\ rw_to_c rw = Some t /\
    eval (env1 ex_var (Some ex_alpha)) f = Some TTrue /\ eval (env1 ex_var (Some ex_alpha)) t = Some TTrue).
Proof. exact in_file_example. Qed.

Example C14_near_misses_do_not_load :
  forallb (fun p => negb (loads_prefs p))
    [[46; 46; 47; 46; 46; 47; 100; 47; 108; 47; 98; 117; 105; 108; 100; 108; 105; 110; 107; 51; 46; 109; 107];
     [46; 46; 47; 46; 46; 47; 100; 47; 108; 47; 98; 117; 105; 108; 116; 105; 110; 46; 109; 107];
     [77; 97; 107; 101; 102; 105; 108; 101; 46; 99; 111; 109; 109; 111; 110]] = true.
Proof. exact near_misses_do_not_load. Qed.

(* Text <-> tree: the spec's own reader maps the texts pkglint writes to the trees the
   theorems above are about.
   name_ok v: v is non-empty and consists of the reader's name bytes (letters, digits, _ .);
   mods_ok ms: every prefix modifier is read by the reader as ONE modifier (scan_seg consumes it
   to its end and seg_ok holds: plain bytes -- none of : $ \ ( ) { } and the double quote -- and nested ${NAME} only
   after M or N); sufficient: only plain bytes (C14_plain_modifier_readable).
   No hypothesis on the pattern: simplifyWord's and simplifyYesNo's own gates (the regenerated
   byte sets, toLower's shape) already confine it. *)
Theorem C14_word_text_is_tree : forall cx v mods fe neg rw,
  In rw (simplify_word cx v mods fe neg) ->
  name_ok v = true -> mods_ok (removelast mods) = true ->
  parse_cond (rw_from rw) = rw_from_c rw /\ parse_cond (rw_to rw) = rw_to_c rw.
Proof. exact word_text_is_tree. Qed.
Print Assumptions C14_word_text_is_tree.

Theorem C14_yesno_text_is_tree : forall cx v mods fe neg rw,
  In rw (fst (simplify_yesno cx v mods fe neg)) ->
  name_ok v = true -> mods_ok (removelast mods) = true ->
  parse_cond (rw_from rw) = rw_from_c rw /\ parse_cond (rw_to rw) = rw_to_c rw.
Proof. exact yesno_text_is_tree. Qed.
Print Assumptions C14_yesno_text_is_tree.

(* simplifyMatch: its regex gate confines every byte of the modifiers; what is needed (and
   necessary: ':Ma:b' is read back as two modifiers) is that no modifier contains a ':' *)
Theorem C14_match_text_is_tree : forall cx v mods fe neg rw,
  In rw (simplify_match cx v mods fe neg) ->
  name_ok v = true -> forallb no_colon mods = true ->
  parse_cond (rw_from rw) = rw_from_c rw /\ parse_cond (rw_to rw) = rw_to_c rw.
Proof. exact match_text_is_tree. Qed.
Print Assumptions C14_match_text_is_tree.

Theorem C14_plain_modifier_readable : forall m, mod_ok m = true -> mod_readable m = true.
Proof. exact mod_ok_readable. Qed.
Print Assumptions C14_plain_modifier_readable.

(* the hypotheses hold for the names and prefix modifiers the harness generates *)
Example C14_text_tree_hypotheses_satisfiable :
  name_ok [67; 49; 52; 69; 65; 95; 85; 46; 102; 111; 111] = true /\        (* C14EA_U.foo *)
  mods_ok [[116; 108]; [85]; [85; 97; 108; 112; 104; 97]] = true /\         (* tl, U, Ualpha *)
  forallb no_colon [[116; 108]; [77; 97; 108; 42]] = true.                   (* tl, Mal*  *)
Proof. vm_compute. repeat split; reflexivity. Qed.
