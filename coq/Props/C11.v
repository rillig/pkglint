(* C11 -- Valid POSIX shell command lines are never reported as unparseable.
   Only statements; every proof is `exact <lemma>`.

   Reading guide.  A program is a tree of Spec/PosixSh.v; [tokens p] is its text
   (token by token), [terms p] the terminal string of shell.y it is meant to be.
   [shell_lex] is the model of ShellLexer.Lex, [derives] the grammar of shell.y
   (one constructor per production, regenerated from /repo), [lr_accepts] the
   goyacc driver over the regenerated tables of shellyacc.go.
   The tables are tied to the grammar per program by bin/check (both directions
   are run), not by a theorem: see docs/C11.md. *)
From Coq Require Import ZArith List Bool.
From PV Require Import Lib.Bytes Gen.ShellGrammar Gen.ShellTables Model.ShellLex Model.ShellLR
  Spec.PosixSh Spec.Derivation Proofs.ShellGrammar Proofs.ShellLR Proofs.ShellLexTotal
  Proofs.PosixAccepted Proofs.PosixWitness.
Import ListNotations.

(* For every tree that is the POSIX reading of its own text (faithful: a list
   before a closing reserved word ends in a separator or in a compound command
   without redirections -- a property of the specification, not of pkglint) and
   whose words are classified by POSIX's rule (wf_words_posix: a reserved word
   is special only as the first word of a command; any word but esac is a case
   pattern): the lexer turns the printed program into exactly the intended
   terminals, and these are a sentence of shell.y.  No size bound, no guard. *)
Definition C11_full : Prop := forall p : program,
  wf_words_posix p = true -> faithful p = true ->
  shell_lex (tokens p) = Lexed (terms p) /\ derives start_symbol (terms p).

Theorem C11_posix_accepted : C11_full.
Proof. exact posix_accepted. Qed.
Print Assumptions C11_posix_accepted.

(* Its two halves. *)
Theorem C11_lexer_recovers_terms : forall p : program,
  wf_words_posix p = true -> faithful p = true -> shell_lex (tokens p) = Lexed (terms p).
Proof. exact lexer_recovers_terms. Qed.
Print Assumptions C11_lexer_recovers_terms.

Theorem C11_fragment_in_grammar : forall p : program,
  wf_words_posix p = true -> derives start_symbol (terms p).
Proof. exact terms_derivable. Qed.
Print Assumptions C11_fragment_in_grammar.

(* The lexer model never runs out of fuel, on any token list. *)
Theorem C11_lexer_total : forall ts : list tok, shell_lex ts <> LexedOutOfFuel.
Proof. exact shell_lex_total. Qed.
Print Assumptions C11_lexer_total.

(* On tokens the real tokenizer can re-tokenize (no WkNil) it does not panic either:
   ShellLexer.Lex always hands a terminal string to the parser. *)
Theorem C11_lexer_defined : forall ts : list tok,
  (forall t, In t ts -> t_kind t <> WkNil) -> exists out, shell_lex ts = Lexed out.
Proof. exact shell_lex_defined. Qed.
Print Assumptions C11_lexer_defined.

(* The seven counterexamples this check found in pkglint (for i ; do ... ; V=$$x fi ;
   a reserved word or an assignment-shaped word as a later case pattern ; { case x in esac } ;
   case x in esac | { echo ; } ; case ... ;; esac ; ( { echo ; } ) ; > out echo esac) are repaired
   in /repo: each satisfies the hypotheses and is accepted by lexer model + regenerated
   tables, with a checked derivation. *)
Theorem C11_former_witnesses_accepted :
  forallb (fun p => wf_words_posix p && faithful p && model_accepts p && lr_accepts_certified (terms p))
          former_witnesses = true.
Proof. exact repaired_accepted. Qed.
Print Assumptions C11_former_witnesses_accepted.

(* The generated relation `derives` is derivability over the generated production list. *)
Theorem C11_derives_is_grammar : forall n w, derives n w <-> gderives (NT n) w.
Proof. exact derives_iff_gderives. Qed.
Print Assumptions C11_derives_is_grammar.

(* The regenerated tables belong to the regenerated grammar: for every production,
   shyyR1 holds its left-hand side and shyyR2 the length of its right-hand side. *)
Theorem C11_tables_shape :
  shyyR1 = 0%Z :: map (fun p => nt_number (fst p)) productions /\
  shyyR2 = 0%Z :: map (fun p => Z.of_nat (length (snd p))) productions.
Proof. exact tables_shape. Qed.
Print Assumptions C11_tables_shape.

(* No state shifts `error`: a syntax error makes shyyParse return 1 (no recovery). *)
Theorem C11_no_error_recovery : existsb (Z.eqb shyyErrCode) shyyChk = false.
Proof. exact no_error_shift. Qed.
Print Assumptions C11_no_error_recovery.

(* Whenever the table-driven parser accepts and its shift/reduce trace passes the
   (table-independent) check, the terminal string is derivable in shell.y.
   bin/check runs the check on every program it generates. *)
Theorem C11_certified_accept_is_derivation : forall ts,
  lr_accepts_certified ts = true -> derives start_symbol ts.
Proof. exact lr_accepts_certified_sound. Qed.
Print Assumptions C11_certified_accept_is_derivation.

(* The hypotheses are satisfiable: a 58-token program with if, for-in, case with
   and without `(`, with and without `;;`, function definition, subshell, `!`, `&`,
   pipeline, &&, redirections with io-number, while; `esac` and `in` as arguments. *)
Example C11_witness_in_fragment :
  wf_words ex_program = true /\ supported ex_program = true /\ faithful ex_program = true /\
  length (tokens ex_program) = 58%nat /\ model_accepts ex_program = true /\
  lr_accepts_certified (terms ex_program) = true.
Proof. exact ex_program_ok. Qed.
