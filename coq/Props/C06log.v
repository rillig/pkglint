(* C06, Logger part ("C06log") -- terminal-safe output; counts, "Looks fine." and exit
   status add up.  Only statements: every theorem is proved by `exact` of a result of
   Proofs/; the examples are proved here.
   The whole-run part of C06 (output grammar on hostile trees) is a separate part. *)
From PV Require Import Lib.Bytes Model.Escape Model.Logger Proofs.Escape Proofs.LoggerOut.
From PV Require Model.Lines Spec.OutputGrammar Spec.LinesSpec.
From PV Require Import Proofs.LoggerLines Proofs.LoggerLinenos.
Open Scope N_scope.

(* textproc.XPrint = NewByteSet("\n\t -~"): newline (10), tab (9), 0x20..0x7E.
   NOTE: newline and tab pass through escapePrintable unchanged; CR, ESC, NUL, DEL and
   every byte >= 0x80 are replaced. *)
Example C06_xprint_is : forall b, xprint b = true <-> b = 10 \/ b = 9 \/ (32 <= b /\ b <= 126).
Proof. intro b. unfold xprint. lia. Qed.

(* for EVERY byte string, every byte of escapePrintable's result is in XPrint *)
Theorem C06_escape_printable_safe : forall s : str,
  Forall (fun b => xprint b = true) (escape_printable s).
Proof. exact escape_printable_safe. Qed.
Print Assumptions C06_escape_printable_safe.

(* for EVERY option record and EVERY list of events -- whatever bytes the messages,
   source lines, explanations, file names and the command line contain -- every byte
   that reaches stdout or stderr is in XPrint *)
Theorem C06_logger_output_safe : forall o evs,
  Forall (fun b => xprint b = true) (sw_out (l_out (log_run o evs))) /\
  Forall (fun b => xprint b = true) (sw_out (l_err (log_run o evs))).
Proof. exact logger_output_safe. Qed.
Print Assumptions C06_logger_output_safe.

(* the counters that ShowSummary prints and Main computes the exit status from are
   exactly the numbers of ERROR, WARN and NOTE lines that Logf wrote
   (l_emitted: one tuple per line written; cnt lv = number of tuples of level lv) *)
Theorem C06_counts_exact : forall o evs,
  let l := log_run o evs in
  l_errors l = cnt LError (l_emitted l) /\
  l_warnings l = cnt LWarn (l_emitted l) /\
  l_notes l = cnt LNote (l_emitted l).
Proof. exact counts_exact. Qed.
Print Assumptions C06_counts_exact.

(* the first line of the summary (summary_line, which is what ShowSummary writes) is
   "Looks fine.\n" exactly when no ERROR and no WARN line was written *)
Theorem C06_looks_fine_iff : forall o evs,
  let l := log_run o evs in
  summary_line (l_errors l) (l_warnings l) (l_notes l) = [76; 111; 111; 107; 115; 32; 102; 105; 110; 101; 46; 10] <->
  cnt LError (l_emitted l) = 0 /\ cnt LWarn (l_emitted l) = 0.
Proof. exact looks_fine_iff. Qed.
Print Assumptions C06_looks_fine_iff.

(* exit status 1 exactly when an ERROR line was written or, with -Werror, a WARN line *)
Theorem C06_exit_status_exact : forall o evs werror,
  let l := log_run o evs in
  exit_status werror l =
  if negb (cnt LError (l_emitted l) =? 0) || (werror && negb (cnt LWarn (l_emitted l) =? 0)) then 1 else 0.
Proof. exact exit_status_exact. Qed.
Print Assumptions C06_exit_status_exact.

(* no panic site of logging.go is reached (the assert in SeparatorWriter.Separate, the
   index expressions line.fix.texts[rawIndex] and args[0]) when every Apply event comes
   with a fix whose texts cover the raw lines (NewAutofix guarantees it) and ShowSummary
   gets a non-empty argv; the machine sets the ghost flag l_panicked at those sites *)
Theorem C06_logger_never_panics : forall o evs,
  Forall (fun ev => match ev with
                    | EvFix ln fv _ _ _ _ _ => (length (ln_raws ln) <= length (fv_texts fv))%nat
                    | EvSummary args => args <> []
                    | _ => True
                    end) evs ->
  l_panicked (log_run o evs) = false.
Proof. exact logger_never_panics. Qed.
Print Assumptions C06_logger_never_panics.

(* Line shape: the Logger speaks the grammar the whole-run part recognises.
   Spec/OutputGrammar.v `classify gcc line` is the executable recogniser that
   harness/c06run.go applies to every stdout line of the real binary.
   clean s        = s contains no newline;  unlines ls = concatenation of (x ++ "\n") for x in ls
   clean_event ev = the strings of the event carry no stray newline: messages, explanation
                    lines, action descriptions, argv; physical lines (raws, fix texts) have a
                    newline at most as their last byte (C09_raws_nonempty_nl); file names contain
                    neither newline nor ':' (the assumption of the whole-run part as well).
   For EVERY option record and EVERY list of such events, stdout is a sequence of complete
   lines and the recogniser knows every one of them. *)
Theorem C06_logger_lines_recognised : forall o evs,
  Forall clean_event evs ->
  exists ls, sw_out (l_out (log_run o evs)) = unlines ls /\
             Forall (fun x => clean x /\ OutputGrammar.classify (lo_gcc o) x <> OutputGrammar.KUnknown) ls.
Proof. exact logger_lines_recognised. Qed.
Print Assumptions C06_logger_lines_recognised.

(* the line Logf writes for (level, file, linenos, message):  "LEVEL: [file[:linenos]: ]message",
   with -g "[file[:linenos]: ]level: message", escaped; one line, and a diagnostic to the recogniser.
   lnos_ok n: the bytes of a Linenos text (digits, '-', "EOF"): printable, no ':' ' ' newline *)
Theorem C06_diag_line_shape : forall o lv f n m,
  clean f -> ~ In 58 f -> clean m -> lnos_ok n ->
  exists x, escape_printable (format_diag o lv f (if nonempty_list f then n else []) m) = x ++ [10] /\
            clean x /\ OutputGrammar.classify (lo_gcc o) x <> OutputGrammar.KUnknown.
Proof. exact diag_line_shape. Qed.
Print Assumptions C06_diag_line_shape.

(* the cleanliness hypothesis is needed: a message containing a newline continues on a
   second line, which is no line of the grammar *)
Definition ex_nl_evs : list event := [ EvDiag (mk_line 1 [102] 3 [[65; 10]]) LWarn [120] [97; 10; 98] ].
Example C06_newline_in_message_breaks_shape :
  sw_out (l_out (log_run (mk_opts false false false false false false []) ex_nl_evs)) =
    [87; 65; 82; 78; 58; 32; 102; 58; 51; 58; 32; 97; 10; 98; 10] (* WARN: f:3: a / b *) /\
  OutputGrammar.classify false [98] = OutputGrammar.KUnknown.
Proof. split; vm_compute; reflexivity. Qed.

(* For every file content s and both loaders (Model/Lines.v convert_to_logical_lines, C09), for
   every loaded line l: with n = the number of physical lines of the file (C09_raws_partition:
   they concatenate to s), first = Location.lineno and last = first + len(raw) - 1:
   1 <= first <= last <= n, and Line.Linenos prints "first" for a single physical line and
   "first--last" for a continuation line *)
Theorem C06_linenos_in_range : forall s mk ls e,
  Lines.convert_to_logical_lines s mk = Lines.Ok (ls, e) ->
  forall l, In l ls -> forall id file,
    let n := N.of_nat (length (flat_map Lines.raws ls)) in
    let first := Lines.lineno l in
    let last := first + N.of_nat (length (Lines.raws l)) - 1 in
    1 <= first /\ first <= last /\ last <= n /\
    linenos (of_loaded id file l) =
      if Nat.eqb (length (Lines.raws l)) 1 then dec_of_N first
      else dec_of_N first ++ [45; 45] ++ dec_of_N last.
Proof. exact linenos_in_range. Qed.
Print Assumptions C06_linenos_in_range.

(* the pseudo-lines: NewLineWhole (lineno 0) prints no number -- "LEVEL: path: message" --
   and NewLineEOF (lineno -1) prints "EOF"; neither is a number in 1..n, by design *)
Theorem C06_linenos_pseudo : forall id file,
  linenos (line_whole id file) = [] /\ linenos (line_eof id file) = [69; 79; 70].
Proof. exact linenos_pseudo. Qed.
Print Assumptions C06_linenos_pseudo.

(* Autofix.affectedLinenos: if every action carries line number 0 or one in [lo, hi]
   (Describef uses first + rawIndex), the diagnostic of the fix is printed with the line's own
   Linenos, with "a" or with "a--b", lo <= a < b <= hi *)
Theorem C06_affected_linenos_in_range : forall ln actions lo hi,
  (1 <= lo)%Z -> Forall (fun a : str * Z => snd a = 0%Z \/ (lo <= snd a <= hi)%Z) actions ->
  affected_linenos ln actions = linenos ln \/
  (exists a, (lo <= a <= hi)%Z /\ affected_linenos ln actions = dec_of_Z a) \/
  (exists a b, (lo <= a)%Z /\ (a < b)%Z /\ (b <= hi)%Z /\
               affected_linenos ln actions = dec_of_Z a ++ [45; 45] ++ dec_of_Z b).
Proof. exact affected_linenos_in_range. Qed.
Print Assumptions C06_affected_linenos_in_range.

(* the loader's physical lines meet the hypothesis of C06_logger_lines_recognised *)
Theorem C06_loaded_raws_are_clean : forall r, LinesSpec.raw_ok r = true -> raw_clean r.
Proof. exact raw_ok_raw_clean. Qed.
Print Assumptions C06_loaded_raws_are_clean.

(* non-vacuity: ESC, an invalid byte and a CR in a message; one warning; -Werror *)
Definition ex06_line : line := mk_line 1 [102; 46; 109; 107] 3 [[65; 27; 10]].
Definition ex06_evs : list event :=
  [ EvDiag ex06_line LWarn [66; 97; 100; 46] [66; 97; 100; 32; 27; 255; 13; 46]; EvSummary [[112]; [27]] ].
Definition ex06_opts : opts := mk_opts false false false true false false [].
Example C06_witness :
  sw_out (l_out (log_run ex06_opts ex06_evs)) =
    [62; 9; 65; 60; 85; 43; 48; 48; 49; 66; 62; 10] (* >\tA<U+001B>\n *) ++
    [87; 65; 82; 78; 58; 32; 102; 46; 109; 107; 58; 51; 58; 32; 66; 97; 100; 32] (* WARN: f.mk:3: Bad *) ++
    [60; 85; 43; 48; 48; 49; 66; 62; 60; 48; 120; 70; 70; 62; 60; 85; 43; 48; 48; 48; 68; 62; 46; 10] (* <U+001B><0xFF><U+000D>.\n *) ++
    [10; 49; 32; 119; 97; 114; 110; 105; 110; 103; 32; 102; 111; 117; 110; 100; 46; 10] (* \n1 warning found.\n *) /\
  exit_status true (log_run ex06_opts ex06_evs) = 1 /\ exit_status false (log_run ex06_opts ex06_evs) = 0.
Proof. repeat split; vm_compute; reflexivity. Qed.
