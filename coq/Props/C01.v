(* C01 -- pkglint never crashes or hangs: the two state machines named in the
   property (the stack of open directives, the separator writer).
   Only statements; every proof is `exact <lemma>`.  The lexers' totality is C10;
   panic-freedom of everything outside these machines is explored by the
   whole-run layer of the check, not proved. *)
From Coq Require Import List NArith ZArith Bool.
From PV Require Import Lib.Bytes Lib.PanicRes Model.Indent Model.SepWriter Spec.SepSpec
  Proofs.Indent Proofs.SepWriter.
Import ListNotations.

(* For every sequence of makefile lines -- balanced or not, stray .elif/.else/.endif/.endfor
   anywhere -- with or without a pkgsrc tree, the loop of MkLines.ForEachEnd with
   TrackBefore / checkDirective (checkDirectiveEnd, checkDirectiveFor, Depth) / TrackAfter and
   the final CheckFinish never evaluates top() or Pop() on an empty stack, never fails Push's
   assertion, never indexes levels out of range, and CheckFinish's loop ends. *)
Theorem C01_indent_stack_safe : forall (pkgsrc : bool) (ls : list dline),
  exists r, run pkgsrc ls = Ok r.
Proof. exact indent_stack_safe. Qed.
Print Assumptions C01_indent_stack_safe.

(* CheckFinish reports exactly the levels that are still open, innermost first *)
Theorem C01_check_finish_closes_all : forall st : state, check_finish st = Ok (map l_line st).
Proof. exact check_finish_spec. Qed.
Print Assumptions C01_check_finish_closes_all.

(* the theorem is not vacuous: the code before fix aedbed2 panics on a stray .elif *)
Example C01_unfixed_track_after_panics : track_after_unfixed true [] stray_elif = Panic 1%N.
Proof. exact unfixed_panics. Qed.

(* No sequence of Write/WriteLine/Separate/Flush in which every Separate() comes at the
   start of a line reaches the assertion of Separate() ... *)
Theorem C01_separator_writer_safe : forall evs : list sw_event,
  disciplined [] evs = true -> exists w, sw_run evs = Ok w.
Proof. exact separator_writer_safe. Qed.
Print Assumptions C01_separator_writer_safe.

(* ... and that discipline is exactly the condition *)
Theorem C01_separator_writer_panics_iff : forall evs : list sw_event,
  sw_run evs = Panic 5%N <-> disciplined [] evs = false.
Proof. exact separator_writer_panics_iff. Qed.
Print Assumptions C01_separator_writer_panics_iff.

(* the call shapes used by pkglint's Logger are disciplined, whatever the texts *)
Theorem C01_logger_calls_safe : forall cs : list log_call,
  forallb log_call_ok cs = true -> exists w, sw_run (flat_map log_events cs) = Ok w.
Proof. exact logger_calls_safe. Qed.
Print Assumptions C01_logger_calls_safe.

(* bytes: output + pending buffer = the written text with newlines inserted, at most one per
   Separate(); state in 0..3, =1 exactly in mid-line; pending buffer newline-free and empty
   at every line start *)
Theorem C01_separator_writer_bytes : forall evs w, sw_run evs = Ok w ->
  InsNL (written evs) (sw_out w ++ sw_line w) /\
  filter (fun b => negb (b =? 10)%N) (sw_out w ++ sw_line w)
    = filter (fun b => negb (b =? 10)%N) (written evs) /\
  (length (written evs) <= length (sw_out w ++ sw_line w) <= length (written evs) + count_sep evs)%nat /\
  (sw_state w = 0 \/ sw_state w = 1 \/ sw_state w = 2 \/ sw_state w = 3)%N /\
  (sw_state w = 1%N <-> in_line (written evs) = true) /\
  no_nl (sw_line w) /\
  (in_line (written evs) = false -> sw_line w = []).
Proof. exact separator_writer_bytes. Qed.
Print Assumptions C01_separator_writer_bytes.

(* the hypotheses are satisfiable / the guard matters *)
Example C01_disciplined_example :
  disciplined [] [EWriteLine [97%N]; ESeparate; EWrite [98%N; 10%N]; ESeparate; EFlush] = true.
Proof. reflexivity. Qed.
Example C01_undisciplined_example : sw_run [EWrite [97%N]; ESeparate] = Panic 5%N.
Proof. reflexivity. Qed.

(* resolveExprs (pkglint.go): the expansion loop with its `visited` set *)
From PV Require Import Model.Resolve Spec.ResolveSpec Proofs.Resolve Model.Scope Spec.ScopeSpec Proofs.Scope.

(* For ALL scopes (finite maps name -> value, any cycles, self references) and ALL texts, whatever
   containsExpr answered: the loop ends within |distinct variables of the scope| + 1 passes
   (resolve_exprs runs resolve_loop on exactly that fuel) -- never OutOfFuel, no panic site. *)
Theorem C01_resolve_terminates : forall (has_expr : bool) (sc : rscope) (text : str),
  exists r, resolve_exprs has_expr sc text = Ok r.
Proof. exact resolve_terminates. Qed.
Print Assumptions C01_resolve_terminates.

(* the fuel bound spelled out: any fuel above the number of distinct variables suffices *)
Theorem C01_resolve_fuel_sufficient : forall (sc : rscope) (text : str) (fuel : nat),
  (length (keys sc) < fuel)%nat -> exists r, resolve_loop fuel sc [] text = Ok r.
Proof. exact resolve_fuel_sufficient. Qed.
Print Assumptions C01_resolve_fuel_sufficient.

(* no unbounded growth: the result is at most the text plus the sum of the value lengths of the
   distinct variables (every variable is expanded at most once per call) *)
Theorem C01_resolve_output_bounded : forall (has_expr : bool) (sc : rscope) (text r : str),
  resolve_exprs has_expr sc text = Ok r -> (length r <= length text + value_budget sc)%nat.
Proof. exact resolve_output_bounded. Qed.
Print Assumptions C01_resolve_output_bounded.

(* the result is a fixed point of one more pass *)
Theorem C01_resolve_result_stable : forall (sc : rscope) (text r : str),
  resolve_exprs true sc text = Ok r -> exists vis, stable sc vis r.
Proof. exact resolve_result_stable. Qed.
Print Assumptions C01_resolve_result_stable.

(* not vacuous: the mutual reference A=${B}, B=${A} needs both passes and ends *)
Definition C01_cyclic_scope : rscope := [([65%N], [36;123;66;125]%N); ([66%N], [36;123;65;125]%N)].
Example C01_resolve_cycle_example :
  resolve_exprs true C01_cyclic_scope [36;123;65;125]%N = Ok [36;123;65;125]%N /\
  resolve_loop 2 C01_cyclic_scope [] [36;123;65;125]%N = OutOfFuel.
Proof. split; reflexivity. Qed.

(* Scope (scope.go) *)

(* IsDefined(v) <-> the FIRST Define that reached v (directly or as canonical name) carried a real
   variable assignment; for all histories of Define/Fallback/Use *)
Theorem C01_scope_isdefined_iff : forall (h : list sop) (v : str),
  is_defined (scope_run h) v = true <-> exists l rest, defs_of v h = l :: rest /\ is_varassign l = true.
Proof. exact scope_isdefined_iff. Qed.
Print Assumptions C01_scope_isdefined_iff.

(* LastDefinition(v) = l <-> the LAST Define that reached v carried l, a real assignment *)
Theorem C01_scope_lastdef_iff : forall (h : list sop) (v : str) (l : sline),
  last_definition (scope_run h) v = Some l <-> last_opt (defs_of v h) = Some l /\ is_varassign l = true.
Proof. exact scope_lastdef_iff. Qed.
Print Assumptions C01_scope_lastdef_iff.

(* FirstDefinition(v) != nil <-> IsDefined(v), in every state: of the eight combinations of
   (IsDefined, FirstDefinition != nil, LastDefinition != nil) exactly (F,F,F) (F,F,T) (T,T,F) (T,T,T) occur *)
Theorem C01_scope_firstdef_iff_isdefined : forall (st : sstate) (v : str),
  (exists l, first_definition st v = Some l) <-> is_defined st v = true.
Proof. exact scope_firstdef_iff_isdefined. Qed.
Print Assumptions C01_scope_firstdef_iff_isdefined.

Example C01_scope_combinations :
  (is_defined (scope_run []) name_A, first_definition (scope_run []) name_A, last_definition (scope_run []) name_A)
    = (false, None, None) /\
  (is_defined (scope_run hist_commented_then_real) name_A, first_definition (scope_run hist_commented_then_real) name_A,
   last_definition (scope_run hist_commented_then_real) name_A) = (false, None, Some (real_line 2)) /\
  (is_defined (scope_run hist_real_then_commented) name_A, first_definition (scope_run hist_real_then_commented) name_A,
   last_definition (scope_run hist_real_then_commented) name_A) = (true, Some (real_line 1), None) /\
  (is_defined (scope_run [ODefine name_A (real_line 1)]) name_A, first_definition (scope_run [ODefine name_A (real_line 1)]) name_A,
   last_definition (scope_run [ODefine name_A (real_line 1)]) name_A) = (true, Some (real_line 1), Some (real_line 1)).
Proof. repeat split; reflexivity. Qed.

(* the idiom `if vars.IsDefined(v) { vars.LastDefinition(v).Line }` (package.go needsPlist, ...):
   false for all histories -- a real assignment followed by a commented-out one ... *)
Definition C01_scope_isdefined_lastdef_full : Prop := isdefined_lastdef_full.
Theorem C01_scope_isdefined_lastdef_refuted : ~ C01_scope_isdefined_lastdef_full.
Proof. exact isdefined_lastdef_refuted. Qed.
Print Assumptions C01_scope_isdefined_lastdef_refuted.

(* ... true when every Define that reached v carried a real assignment (what Package.parseLine
   guarantees for pkg.vars before collectVariables runs) *)
Theorem C01_scope_isdefined_lastdef_partial : forall (h : list sop) (v : str),
  (forall l, In l (defs_of v h) -> is_varassign l = true) ->
  is_defined (scope_run h) v = true -> exists l, last_definition (scope_run h) v = Some l.
Proof. exact scope_isdefined_lastdef_partial. Qed.
Print Assumptions C01_scope_isdefined_lastdef_partial.

(* the exact condition for LastDefinition(v) != nil *)
Theorem C01_scope_lastdef_nonnil_iff : forall (h : list sop) (v : str),
  (exists l, last_definition (scope_run h) v = Some l) <->
  (exists l, last_opt (defs_of v h) = Some l /\ is_varassign l = true).
Proof. exact scope_lastdef_nonnil_iff. Qed.
Print Assumptions C01_scope_lastdef_nonnil_iff.

(* LastValueFound: indeterminate <-> some real `!=` assignment reached v, at any time;
   found <-> IsDefined or a non-empty fallback *)
Theorem C01_scope_indeterminate_iff : forall (h : list sop) (v : str),
  snd (last_value_found (scope_run h) v) = true <-> existsb is_shell_assign (defs_of v h) = true.
Proof. exact scope_indeterminate_iff. Qed.
Print Assumptions C01_scope_indeterminate_iff.

Theorem C01_scope_found_iff : forall (st : sstate) (v : str),
  snd (fst (last_value_found st v)) = true <->
  is_defined st v = true \/ (is_defined st v = false /\ fld v_fallback st v <> []).
Proof. exact scope_found_iff. Qed.
Print Assumptions C01_scope_found_iff.

(* Scope.DefineAll (what NewPackage does with the variables of mk/defaults/mk.conf) *)

(* DefineAll(other) never dereferences a nil entry or a nil lastDef when `other` was built by
   Define/Fallback/Use, and the target then is the scope of the longer history: its own operations
   followed, per name of `other` in sorted order, by Define(first line), Define(last line) -- so all
   history theorems above apply to it *)
Theorem C01_scope_define_all_run : forall (h h2 : list sop),
  exists st', sdefine_all (scope_run h) (scope_run h2) = Ok st' /\
              st' = scope_run (h ++ define_all_hist (scope_run h2)).
Proof. exact define_all_run. Qed.
Print Assumptions C01_scope_define_all_run.

(* for arbitrary states: whenever DefineAll does not panic it is that history *)
Theorem C01_scope_define_all_as_history : forall (st other st' : sstate),
  sdefine_all st other = Ok st' -> st' = fold_left sstep (define_all_hist other) st.
Proof. exact define_all_as_history. Qed.
Print Assumptions C01_scope_define_all_as_history.

(* defect 16 (repaired by ab06f65) in the model: the copy of `A= y` / `#A= y` is IsDefined with a nil LastDefinition *)
Example C01_scope_define_all_copies_commented :
  exists st', sdefine_all [] (scope_run hist_real_then_commented) = Ok st' /\
              is_defined st' name_A = true /\ last_definition st' name_A = None.
Proof. exact define_all_copies_commented. Qed.
