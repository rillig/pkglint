(* C15 -- Layout fixes change whitespace only and leave single-line paragraphs settled.
   Only statements: the theorems are proved by `exact <lemma>`, the examples by evaluation.

   Model/Tabs.v       util.go: tabWidthAppend, tabWidth, alignmentToWidths, alignWith, indent, alignmentAfter
   Model/Varalign.v   varalignblock.go: Process/Finish, optimalWidth, realign, alignValue*, alignContinuation
   Model/LayoutFix.v  CheckTrailingWhitespace, checkDirectiveIndentation, shell tabs, fixSpaceAfterVarname
   The six parts that VaralignSplitter.split returns for a raw line are the model's input;
   `wf` is the splitter's post-condition: the two space parts are blank, an empty value
   has no space after it. *)
From PV Require Import Lib.Bytes Model.Tabs Model.Varalign Model.LayoutFix
  Proofs.Tabs Proofs.VaralignBlanks Proofs.VaralignFile Proofs.VaralignSingle Proofs.LayoutFix Proofs.C15Final Proofs.C15Margin.
Open Scope Z_scope.

(* tabWidthAppend panics (assert r != '\n') exactly on strings containing a newline *)
Theorem C15_tabWidthAppend_total : forall w s,
  tabWidthAppend w s = if has_nl s then None else Some (twa0 w s).
Proof. exact tabWidthAppend_spec. Qed.
Print Assumptions C15_tabWidthAppend_total.

(* tabWidth (indent w) = w, for every width w >= 0 *)
Theorem C15_indent_width : forall w, 0 <= w ->
  exists s, indent w = Some s /\ tabWidth s = Some w /\ blankb s = true.
Proof. exact indent_width. Qed.
Print Assumptions C15_indent_width.

(* whatever indent returns, also for negative widths, consists of tabs and spaces *)
Theorem C15_indent_blank : forall w s, indent w = Some s -> blankb s = true.
Proof. exact indent_blank. Qed.
Print Assumptions C15_indent_blank.

(* the precondition 0 <= w is needed: indent(-1) is six spaces, indent(-8) panics *)
Example C15_indent_negative : indent (-1) = Some (spaces 6) /\ indent (-8) = None.
Proof. split; vm_compute; reflexivity. Qed.

(* tabWidth (s ++ alignmentToWidths |s| w) = w whenever |s| <= w (for |s| > w the result is "") *)
Theorem C15_alignment_reaches : forall s w, tab_width s <= w ->
  exists a, alignmentToWidths (tab_width s) w = Some a /\ tab_width (s ++ a) = w /\ blankb a = true.
Proof. exact alignment_reaches. Qed.
Print Assumptions C15_alignment_reaches.

Theorem C15_alignment_reaches_widths : forall sw w, 0 <= sw <= w ->
  exists a, alignmentToWidths sw w = Some a /\ twa0 sw a = w /\ blankb a = true.
Proof. exact alignment_reaches_w. Qed.
Print Assumptions C15_alignment_reaches_widths.

Example C15_alignment_needs_le : alignmentToWidths 10 5 = Some [] /\ twa0 10 [] <> 5.
Proof. split; vm_compute; [reflexivity|discriminate]. Qed.

Theorem C15_alignmentAfter_reaches : forall prefix w, has_nl prefix = false -> tab_width prefix <= w ->
  exists a, alignmentAfter prefix w = Some a /\ tab_width (prefix ++ a) = w /\ blankb a = true.
Proof. exact alignmentAfter_reaches. Qed.
Print Assumptions C15_alignmentAfter_reaches.

Theorem C15_alignWith_reaches : forall s other,
  has_nl s = false -> has_nl other = false -> tab_width s <= tab_width other ->
  exists a, alignWith s other = Some (s ++ a) /\ tab_width (s ++ a) = tab_width other /\ blankb a = true.
Proof. exact alignWith_reaches. Qed.
Print Assumptions C15_alignWith_reaches.

(* In every statement below, "blank" (blankb, strip_blanks, blanks_only, blank_eq, trimmed_of, wf)
   means the two bytes 32 (space) and 9 (tab) ONLY: not \f \v \r, not U+00A0 / U+0085 / U+2028 in
   any encoding, not a lone 0x85 / 0xA0 byte. *)
Theorem C15_blank_is_space_or_tab : forall s,
  blankb s = true <-> Forall (fun c => c = 32 \/ c = 9)%N s.
Proof. exact blankb_iff. Qed.
Print Assumptions C15_blank_is_space_or_tab.

Theorem C15_strip_blanks_is_space_and_tab : forall s,
  strip_blanks s = filter (fun c => negb ((c =? 32) || (c =? 9))%N) s.
Proof. exact strip_blanks_spec. Qed.
Print Assumptions C15_strip_blanks_is_space_and_tab.

(* a logical line whose last raw line ends in any byte other than space and tab is not touched by
   CheckTrailingWhitespace (in particular "...\r", "...\f", "...\xc2\xa0") *)
Theorem C15_trailing_nonblank_end_untouched : forall raws t c,
  last raws [] = t ++ [c] -> c <> 32%N -> c <> 9%N -> checkTrailingWhitespace raws = Ok raws.
Proof. exact trailing_nonblank_end_untouched. Qed.
Print Assumptions C15_trailing_nonblank_end_untouched.

Example C15_witness_crlf : checkTrailingWhitespace [[86; 61; 9; 118; 32; 13]%N] = Ok [[86; 61; 9; 118; 32; 13]%N]
  /\ checkTrailingWhitespace [[86; 61; 9; 118; 194; 160; 32; 9]%N] = Ok [[86; 61; 9; 118; 194; 160]%N].
Proof. split; vm_compute; reflexivity. Qed.

(* VaralignBlock: every fix, continuation lines included, for all inputs that satisfy wf *)

(* fix_changes_blanks_only: strip_blanks after = strip_blanks before, line by line *)
Theorem C15_fix_changes_blanks_only : forall ms skip ms', wf_block ms ->
  finish ms skip = Ok ms' -> Forall2 (Forall2 blanks_only) ms ms'.
Proof. exact finish_changes_blanks_only. Qed.
Print Assumptions C15_fix_changes_blanks_only.

(* parts_preserved: leading comment, name+operator, value (with comment) and continuation
   marker of every raw line are untouched, the raw text stays the concatenation of its parts *)
Theorem C15_parts_preserved : forall ms skip ms', wf_block ms ->
  finish ms skip = Ok ms' -> Forall2 (Forall2 parts_kept) ms ms'.
Proof. exact finish_parts_preserved. Qed.
Print Assumptions C15_parts_preserved.

(* ... and the number of raw lines of every assignment *)
Theorem C15_line_count : forall ms skip ms', wf_block ms ->
  finish ms skip = Ok ms' -> map (@length info) ms' = map (@length info) ms.
Proof. exact finish_line_count. Qed.
Print Assumptions C15_line_count.

(* the same over a whole file: Process for every line, Finish at empty lines and at the end *)
Theorem C15_file_blanks_only : forall ls pending_rev skip out,
  Forall wf_fline ls -> Forall wf_fline pending_rev ->
  process_file ls pending_rev skip = Ok out -> Forall2 fline_rel (rev pending_rev ++ ls) out.
Proof. exact process_file_blanks_only. Qed.
Print Assumptions C15_file_blanks_only.

Theorem C15_trailing_blanks_only : forall raws raws',
  checkTrailingWhitespace raws = Ok raws' -> Forall2 trimmed_of raws raws'.
Proof. exact trailing_blanks_only. Qed.
Print Assumptions C15_trailing_blanks_only.

Theorem C15_trailing_settles : forall raws raws',
  checkTrailingWhitespace raws = Ok raws' -> checkTrailingWhitespace raws' = Ok raws'.
Proof. exact trailing_settles. Qed.
Print Assumptions C15_trailing_settles.

Theorem C15_directive_blanks_only : forall sn raw0 ind d r, blankb ind = true ->
  checkDirectiveIndentation sn raw0 ind d = Ok r ->
  blank_eq raw0 r /\ (r = raw0 \/ exists rest, raw0 = DOT :: ind ++ rest /\ r = DOT :: spaces d ++ rest).
Proof. exact directive_blanks_only. Qed.
Print Assumptions C15_directive_blanks_only.

Theorem C15_shell_blanks_only : forall flag raws raws',
  shellTabs flag raws = Ok raws' -> Forall2 blank_eq raws raws'.
Proof. exact shell_blanks_only. Qed.
Print Assumptions C15_shell_blanks_only.

(* CheckTrailingWhitespace never panics on a logical line (>= 1 raw line) and removes exactly the
   maximal suffix of spaces and tabs of the last raw line -- unless what is left would end in a
   backslash (trim_result; /repo a0c5e27), then the line is left alone *)
Theorem C15_trailing_exact : forall raws, raws <> [] ->
  exists init last, raws = init ++ [last] /\
    checkTrailingWhitespace raws = Ok (init ++ [trim_result last]).
Proof. exact checkTrailingWhitespace_spec. Qed.
Print Assumptions C15_trailing_exact.

(* checkDirectiveIndentation never panics for a depth >= 0 (strings.Repeat, ReplaceAt's assertions) *)
Theorem C15_directive_total : forall sn raw0 ind d, 0 <= d ->
  exists r, checkDirectiveIndentation sn raw0 ind d = Ok r.
Proof. exact directive_total. Qed.
Print Assumptions C15_directive_total.

(* the tab normalisation of checkShellCommand never panics when the first raw line starts with two tabs;
   the guard is needed: with a single tab ReplaceAt's assert(from != to) fails *)
Theorem C15_shell_total : forall r0 rs, has_prefix [TAB; TAB] r0 = true ->
  exists raws', shellTabs true (r0 :: rs) = Ok raws'.
Proof. exact shell_total. Qed.
Print Assumptions C15_shell_total.

Example C15_shell_needs_two_tabs : shellTabs true [[9; 120]%N] = Panic.
Proof. vm_compute. reflexivity. Qed.

(* fixSpaceAfterVarname as coded (/repo 42e6bf1: the leading comment marker is kept; 84b7475: the
   name is taken from the raw varnameOp -- operator cut off, right-trimmed, operator re-appended):
   blanks only, whatever the splitter's varnameOp looks like (no hypothesis on it) *)
Theorem C15_spaceAfterVarname_blanks_only : forall raws vn sp op p0 raws',
  blankb (sbv p0) = true ->
  fixSpaceAfterVarname raws vn sp op p0 = Ok raws' -> Forall2 blank_eq raws raws'.
Proof. exact spaceAfterVarname_blanks_only. Qed.
Print Assumptions C15_spaceAfterVarname_blanks_only.

(* ... and exactly which blanks: varnameOp = name ++ b ++ op with b blank and name not ending in a
   blank; the text leadingComment ++ name ++ b ++ op ++ spaceBeforeValue is replaced (where it occurs
   exactly once) by leadingComment ++ name ++ op ++ a, a blank.  So every byte of the variable name
   as written -- blanks inside ${...:S, ,_,g}, an escaped '#' -- is kept: the name the parser reads
   from the fixed line is the name it read before. *)
Theorem C15_spaceAfterVarname_name_untouched : forall raws vn sp op p0 raws',
  fixSpaceAfterVarname raws vn sp op p0 = Ok raws' ->
  raws' = raws \/
  exists name b a, vo p0 = name ++ b ++ op /\ rtrimHspace name = name /\ blankb b = true /\ blankb a = true /\
    raws' = replaceAfter raws [] (lc p0 ++ (name ++ b ++ op) ++ sbv p0) (lc p0 ++ (name ++ op) ++ a).
Proof. exact spaceAfterVarname_exact. Qed.
Print Assumptions C15_spaceAfterVarname_name_untouched.

(* one pass never panics and is given by `aligned (optimalWidth para)` *)
Theorem C15_one_pass : forall para, Forall single_ok para -> para <> [] ->
  realign_lines para = Ok (map (aligned (optimalWidth para)) para).
Proof. exact realign_lines_spec. Qed.
Print Assumptions C15_one_pass.

(* aligned_canonical: after one pass every value is separated from its operator
   by tabs only or by exactly one space *)
Theorem C15_aligned_canonical : forall para para',
  Forall single_ok para -> Forall (fun p => vo p <> []) para -> para <> [] ->
  realign_lines para = Ok para' -> Forall (fun p' => canonical_sep (sbv p')) para'.
Proof. exact aligned_canonical. Qed.
Print Assumptions C15_aligned_canonical.

(* second_pass_noop: the second pass returns the lines unchanged and logs nothing *)
Theorem C15_second_pass_noop : forall para para',
  Forall single_ok para -> Forall small para ->
  realign_lines para = Ok para' -> realign_para para' = Ok (map single para').
Proof. exact second_pass_noop. Qed.
Print Assumptions C15_second_pass_noop.

Theorem C15_second_pass_lines : forall para para',
  Forall single_ok para -> Forall small para ->
  realign_lines para = Ok para' -> realign_lines para' = Ok para'.
Proof. exact second_pass_lines. Qed.
Print Assumptions C15_second_pass_lines.

(* no_widen_72: FALSE of the faithful model for a value that follows its operator
   without any blank in a line of exactly 72 columns (no separator fits) *)
Definition C15_no_widen_72_full : Prop := no_widen_72_full.
Theorem C15_no_widen_72_refuted : ~ C15_no_widen_72_full.
Proof. exact no_widen_72_refuted. Qed.
Print Assumptions C15_no_widen_72_refuted.

(* it holds for every line whose value is separated from the operator by at least one blank *)
Theorem C15_no_widen_72_partial : forall para para',
  Forall single_ok para -> para <> [] -> realign_lines para = Ok para' ->
  Forall2 (fun p p' => sbv p <> [] -> sav p = [] -> line_width p <= 72 -> line_width p' <= 72) para para'.
Proof. exact no_widen_72_partial. Qed.
Print Assumptions C15_no_widen_72_partial.

(* the same under the guard the code itself evaluates -- the line fits into 72 columns with
   its present separator, or with a single space if the value is attached to the operator
   (width_with_room p = tabWidthSlice(leadingComment, varnameOp, oldSpace == "" ? " " : oldSpace, value)).
   This covers attached values too; what remains outside is exactly the refuting class
   (attached value and not even one space fits). *)
Theorem C15_no_widen_72_room : forall para para',
  Forall single_ok para -> para <> [] -> realign_lines para = Ok para' ->
  Forall2 (fun p p' => sav p = [] -> width_with_room p <= 72 -> line_width p' <= 72) para para'.
Proof. exact no_widen_72_room. Qed.
Print Assumptions C15_no_widen_72_room.

(* it subsumes C15_no_widen_72_partial: a separated line that fits has room *)
Theorem C15_room_of_separated : forall p, sbv p <> [] -> sav p = [] -> cont p = [] ->
  line_width p <= 72 -> width_with_room p <= 72.
Proof. exact room_of_separated. Qed.
Print Assumptions C15_room_of_separated.

(* and no line gets wider at all if the common column is not to the right of its value column *)
Theorem C15_no_widen_not_shifted : forall para para',
  Forall single_ok para -> para <> [] -> realign_lines para = Ok para' ->
  Forall2 (fun p p' => not_shifted (optimalWidth para) p -> line_width p' <= line_width p) para para'.
Proof. exact no_widen_not_shifted. Qed.
Print Assumptions C15_no_widen_not_shifted.

(* the hypotheses are satisfiable, the guards are not vacuous *)

Example C15_witness_paragraph :
  Forall single_ok w72_para /\ Forall small w72_para /\ Forall (fun p => vo p <> []) w72_para /\
  realign_lines w72_para = Ok w72_after /\
  line_width w72_e = 72 /\ line_width (set_sbv w72_e [9; 9]%N) = 86 /\
  sbv w72_long <> [] /\ sbv w72_e = [].
Proof.
  split; [exact w72_ok|]. split; [repeat constructor|].
  split; [repeat constructor; discriminate|]. split; [exact w72_run|].
  split; [apply w72_widths|]. split; [apply w72_widths|]. split; [discriminate|reflexivity].
Qed.

(* the paragraph of DESIGN.md section 8 item 8 is left alone (the guard `blocked` of alignValueSingle) *)
Example C15_witness_repaired : realign_lines [w72_long; w72_a] = Ok [w72_long; w72_a].
Proof. exact w72_repaired. Qed.

Example C15_witness_commented :
  fixSpaceAfterVarname sav_raws [86]%N [32]%N [61]%N sav_parts = Ok [[35; 86; 61; 9; 118]%N].
Proof. exact spaceAfterVarname_keeps_comment. Qed.

(* The line structure survives the fix (C15 tied to the loader model of C09).

   Lines.convert_to_logical_lines s true is convertToLogicalLines in makefile mode (Model/Lines.v,
   property C09): the physical lines of the text s grouped into logical lines; a physical line
   whose content ends in an odd number of backslashes is continued by the next one.
   [C15Reload.trailing_fix rs] = CheckTrailingWhitespace (Model/LayoutFix.v) on the contents of the
   physical lines rs of one logical line, every line feed staying where it was;
   [trailing_fix_file ls] = the text that is written back.  For ALL file texts s: the text written
   back, loaded again, has the same number of logical lines, each with the same number of physical
   lines, namely the fixed ones.  The only side condition: no logical line ends in a physical line
   that has no line feed and consists of blanks only (the unterminated last line of a file; that
   line vanishes -- see C15_trailing_blank_last_line_vanishes). *)
From PV Require Model.Lines Spec.LinesSpec Proofs.C15Reload.

Theorem C15_trailing_keeps_line_structure : forall (s : str) (ls : list Lines.line) (e : bool),
  Lines.convert_to_logical_lines s true = Lines.Ok (ls, e) ->
  (forall l, In l ls -> C15Reload.no_vanishing_line (Lines.raws l)) ->
  exists ls' e',
    Lines.convert_to_logical_lines (C15Reload.trailing_fix_file ls) true = Lines.Ok (ls', e')
    /\ length ls' = length ls
    /\ map (fun l => length (Lines.raws l)) ls' = map (fun l => length (Lines.raws l)) ls
    /\ map Lines.raws ls' = map (fun l => C15Reload.trailing_fix (Lines.raws l)) ls.
Proof. exact C15Reload.trailing_keeps_line_structure. Qed.
Print Assumptions C15_trailing_keeps_line_structure.

(* the side condition holds for every logical line whose last physical line ends in a line feed *)
Theorem C15_no_vanishing_of_newline : forall rs,
  LinesSpec.ends_nl (last rs []) = true -> C15Reload.no_vanishing_line rs.
Proof. exact C15Reload.no_vanishing_of_nl. Qed.
Print Assumptions C15_no_vanishing_of_newline.

Example C15_trailing_blank_last_line_vanishes :
  C15Reload.line_structure C15Reload.vanishing_text = Some [1; 1]%nat /\
  C15Reload.fix_text C15Reload.trailing_fix_file C15Reload.vanishing_text = Some [65; 61; 49; 10]%N /\
  C15Reload.line_structure [65; 61; 49; 10]%N = Some [1]%nat.
Proof. exact C15Reload.trailing_blank_last_line_vanishes. Qed.

(* the behaviour before /repo a0c5e27 (trim regardless of a backslash; it stands in Proofs/C15Reload.v
   only as the counterexample) breaks it: "VAR=\tvalue \\ \nOTHER=\tx\n" has the line structure
   [1; 1], after the old fix [2]; the repaired fix leaves the text alone *)
Example C15_old_trailing_fix_joins_lines :
  C15Reload.line_structure C15Reload.witness_text = Some [1; 1]%nat /\
  (exists s', C15Reload.fix_text C15Reload.trailing_fix_file_old C15Reload.witness_text = Some s'
              /\ C15Reload.line_structure s' = Some [2]%nat) /\
  C15Reload.fix_text C15Reload.trailing_fix_file C15Reload.witness_text = Some C15Reload.witness_text.
Proof. exact C15Reload.old_trailing_fix_joins_lines. Qed.

Theorem C15_old_trailing_keeps_line_structure_refuted : ~ C15Reload.old_keeps_line_structure.
Proof. exact C15Reload.old_keeps_line_structure_refuted. Qed.
Print Assumptions C15_old_trailing_keeps_line_structure_refuted.

(* the same question for the other compact fixers, for ALL file texts and any choice of lines,
   depths and (blank) parsed indentations: directive re-indentation ... *)
Theorem C15_directive_keeps_line_structure :
  forall (s : str) (ls : list Lines.line) (e : bool) (choice : Lines.line -> bool * str * Z),
  Lines.convert_to_logical_lines s true = Lines.Ok (ls, e) ->
  (forall l, In l ls -> blankb (snd (fst (choice l))) = true) ->
  let F := fun l => C15Reload.directive_fix (fst (fst (choice l))) (snd (fst (choice l))) (snd (choice l)) (Lines.raws l) in
  exists ls' e',
    Lines.convert_to_logical_lines (concat (flat_map F ls)) true = Lines.Ok (ls', e')
    /\ map Lines.raws ls' = map F ls.
Proof. exact C15Reload.directive_keeps_line_structure. Qed.
Print Assumptions C15_directive_keeps_line_structure.

(* ... and the tab normalisation of shell lines *)
Theorem C15_shell_keeps_line_structure : forall (s : str) (ls : list Lines.line) (e flag : bool),
  Lines.convert_to_logical_lines s true = Lines.Ok (ls, e) ->
  exists ls' e',
    Lines.convert_to_logical_lines (concat (flat_map (fun l => C15Reload.shell_fix flag (Lines.raws l)) ls)) true
      = Lines.Ok (ls', e')
    /\ map Lines.raws ls' = map (fun l => C15Reload.shell_fix flag (Lines.raws l)) ls.
Proof. exact C15Reload.shell_keeps_line_structure. Qed.
Print Assumptions C15_shell_keeps_line_structure.
