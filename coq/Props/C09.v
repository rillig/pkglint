(* C09 -- Loading loses nothing: physical lines partition the file, numbering is exact.
   Only statements; every proof is `exact <lemma>`.
   Model: Model/Lines.v (files.go, line.go, autofix.go).  Spec: Spec/LinesSpec.v.
   `obs l` = (lineno l, text l, raws l), the view of a line the specification talks about. *)
From PV Require Import Lib.Bytes Model.Lines Spec.LinesSpec Proofs.Lines Proofs.LinesLoop Proofs.LinesComplete.
Open Scope N_scope.

(* convertToLogicalLines is defined on every byte string in both modes: no index
   panic (rawLines[index], loglines[len-1]), the loop's fuel never runs out; and
   "File must end with a newline." is logged iff the text is non-empty and does
   not end in a line feed *)
Theorem C09_convert_total : forall (s : str) (mk : bool),
  exists ls, convert_to_logical_lines s mk = Ok (ls, negb (is_empty s) && negb (has_suffix [nl] s)).
Proof. exact convert_total. Qed.
Print Assumptions C09_convert_total.

(* the physical lines of all logical lines, concatenated in order, are the input *)
Theorem C09_raws_partition : forall (s : str) (mk : bool) ls e,
  convert_to_logical_lines s mk = Ok (ls, e) -> concat (flat_map raws ls) = s.
Proof. exact raws_partition. Qed.
Print Assumptions C09_raws_partition.

(* no physical line is empty, a line feed occurs only as the last byte of one,
   and every physical line except the very last one ends in a line feed *)
Theorem C09_raws_nonempty_nl : forall (s : str) (mk : bool) ls e,
  convert_to_logical_lines s mk = Ok (ls, e) ->
  forallb raw_ok (all_raws (map obs ls)) && all_but_last ends_nl (all_raws (map obs ls)) = true.
Proof. exact raws_nonempty_nl. Qed.
Print Assumptions C09_raws_nonempty_nl.

(* logical line k reports 1 + the number of physical lines before it *)
Theorem C09_numbering_exact : forall (s : str) (mk : bool) ls e,
  convert_to_logical_lines s mk = Ok (ls, e) ->
  forall pre l post, ls = pre ++ l :: post ->
  lineno l = 1 + N.of_nat (length (flat_map raws pre)).
Proof. exact numbering_exact_prop. Qed.
Print Assumptions C09_numbering_exact.

(* makefile mode: within a logical line every physical line but the last ends
   (before its line feed) in an odd number of backslashes; the last one does
   not, unless it is the last physical line of the file.  Together with the
   partition: a physical line is followed by a continuation iff it `continues`
   and is not the last. *)
Theorem C09_grouping_exact_mk : forall (s : str) ls e,
  convert_to_logical_lines s true = Ok (ls, e) ->
  forall pre l post, ls = pre ++ l :: post ->
  exists init lst, raws l = init ++ [lst] /\ Forall (fun r => continues r = true) init
                   /\ (continues lst = false \/ post = []).
Proof. exact grouping_exact_mk. Qed.
Print Assumptions C09_grouping_exact_mk.

(* plain mode: one physical line per line, the text is that line without its line feed *)
Theorem C09_grouping_exact_plain : forall (s : str) ls e,
  convert_to_logical_lines s false = Ok (ls, e) ->
  Forall (fun l => exists r, raws l = [r] /\ text l = content r) ls.
Proof. exact grouping_exact_plain. Qed.
Print Assumptions C09_grouping_exact_plain.

(* the decomposition content = indent ++ body ++ outdent ++ cont that the text
   rule is stated with is unique, so text_rel determines the text *)
Theorem C09_decomp_unique : forall o p q, decomp_ok o p = true -> decomp_ok o q = true -> p = q.
Proof. exact decomp_ok_unique. Qed.
Print Assumptions C09_decomp_unique.

Theorem C09_text_rel_functional : forall rs t1 t2, text_rel rs t1 -> text_rel rs t2 -> t1 = t2.
Proof. exact text_rel_functional. Qed.
Print Assumptions C09_text_rel_functional.

(* makefile mode: the text is indent_0 body_0 " " body'_1 " " ... body'_n outdent_n cont_n:
   every junction (blanks, backslash, line feed, blanks, repeated comment marker) became one space *)
Theorem C09_text_exact : forall (s : str) ls e,
  convert_to_logical_lines s true = Ok (ls, e) ->
  Forall (fun l => text_rel (raws l) (text l)) ls.
Proof. exact text_exact_mk. Qed.
Print Assumptions C09_text_exact.

(* the executable specification that the harness runs on the real
   convertToLogicalLines accepts the model's output on every input *)
Theorem C09_model_meets_spec : forall (s : str) (mk : bool) ls e,
  convert_to_logical_lines s mk = Ok (ls, e) -> spec_holds mk s (map obs ls) = true.
Proof. exact model_meets_spec. Qed.
Print Assumptions C09_model_meets_spec.

(* and the specification is complete: whatever passes the five clauses for input s
   is the model's output -- the clauses pin the loader down, byte for byte *)
Theorem C09_spec_complete : forall (s : str) (mk : bool) ls e (O : list obs_line),
  convert_to_logical_lines s mk = Ok (ls, e) -> spec_holds mk s O = true -> O = map obs ls.
Proof. exact spec_complete. Qed.
Print Assumptions C09_spec_complete.

(* saving: when no line was modified (no fix, or a fix created by line.Autofix()
   and left alone) nothing is written, and the strings SaveAutofixChanges
   collects are the input byte for byte *)
Theorem C09_save_untouched : forall (s : str) (mk : bool) ls e fls,
  convert_to_logical_lines s mk = Ok (ls, e) -> map fst fls = ls -> Forall untouched fls ->
  save_autofix_changes fls = None /\ concat (flat_map chlines_of fls) = s.
Proof. exact save_untouched. Qed.
Print Assumptions C09_save_untouched.

(* partial save: an untouched line's physical lines are written verbatim, between
   what is written for the lines before and after it *)
Theorem C09_save_partial : forall pre fl post out,
  untouched fl -> save_autofix_changes (pre ++ fl :: post) = Some out ->
  out = concat (flat_map chlines_of pre) ++ concat (raws (fst fl)) ++ concat (flat_map chlines_of post).
Proof. exact save_partial. Qed.
Print Assumptions C09_save_partial.

(* what is written is the specification's spec_saved: modified lines replaced by
   above ++ texts ++ below, all others reproduced from their physical lines *)
Theorem C09_save_is_spec_saved : forall fls out,
  Forall fix_wf fls -> save_autofix_changes fls = Some out -> out = spec_saved (map save_view fls).
Proof. exact save_is_spec_saved. Qed.
Print Assumptions C09_save_is_spec_saved.

(* Non-vacuity: the model evaluated on concrete files. *)

(* "A=\t1 \\\n\t# c \\\n\t#d\nB\\\\\n\\" : a three-line continuation with a repeated
   comment marker, a line ending in two backslashes, a continuation at EOF *)
Definition ex_input : str :=
  [65;61;9;49;32;92;10; 9;35;32;99;32;92;10; 9;35;100;10; 66;92;92;10; 92]%N.
Definition ex_lines : list line :=
  [ mk_line 1 [65;61;9;49;32;35;32;99;32;100] [[65;61;9;49;32;92;10]; [9;35;32;99;32;92;10]; [9;35;100;10]];
    mk_line 4 [66;92;92] [[66;92;92;10]];
    mk_line 5 [92] [[92]] ].
Example C09_witness_mk : convert_to_logical_lines ex_input true = Ok (ex_lines, true).
Proof. vm_compute. reflexivity. Qed.

(* "#a \\\n #b" : the marker is dropped once *)
Example C09_witness_marker :
  convert_to_logical_lines [35;97;32;92;10;32;35;98] true
  = Ok ([mk_line 1 [35;97;32;98] [[35;97;32;92;10]; [32;35;98]]], true).
Proof. vm_compute. reflexivity. Qed.

Example C09_witness_plain :
  convert_to_logical_lines [97;92;10;13;10] false
  = Ok ([mk_line 1 [97;92] [[97;92;10]]; mk_line 2 [13] [[13;10]]], false).
Proof. vm_compute. reflexivity. Qed.

(* a partial save with a modified first line and an untouched second line *)
Example C09_witness_save :
  let l1 := mk_line 1 [97] [[97;10]] in
  let l2 := mk_line 2 [98] [[98]] in
  untouched (l2, None) /\ fix_wf (l1, Some (mk_autofix [] [[120;10]] [] true)) /\
  save_autofix_changes [(l1, Some (mk_autofix [] [[120;10]] [] true)); (l2, None)] = Some [120;10;98].
Proof. split; [left; reflexivity|]. split; [intros H; discriminate|reflexivity]. Qed.
