(* C17: conditional sections never produce a verdict. *)
From PV Require Import Lib.Bytes Model.Redundant Model.RedundantCond Spec.VerdictSound Proofs.Redundant.

Definition plain (p : program) : cprogram := map (pair false) p.

Lemma check_line_c_false s i l : check_line_c s i false l = check_line s i l.
Proof. reflexivity. Qed.

Lemma check_from_c_false p : forall s i,
  match check_from_c s i (plain p) with
  | Ok per => Ok (concat per) | Panic => Panic | OutOfFuel => OutOfFuel
  end = check_from s i p.
Proof.
  induction p as [|l p IH]; intros s i; simpl; [reflexivity|].
  rewrite check_line_c_false. destruct (check_line s i l) as [[s' vs]| |]; try reflexivity.
  specialize (IH s' (S i)). destruct (check_from_c s' (S i) (plain p)); simpl in *; rewrite <- IH; reflexivity.
Qed.

Theorem check_c_plain p : check_c (plain p) = check p.
Proof. unfold check_c, check_lines_c, check. apply check_from_c_false. Qed.

Definition is_cond (s : scope) (x : var) : bool := v_cond (vi_var (s_vars s x)).

Lemma handle_varassign_silent s i a c s' vs :
  is_cond s (a_var a) || c = true -> handle_varassign s i a c = Ok (s', vs) -> vs = [].
Proof.
  unfold is_cond, handle_varassign. intro Hc.
  destruct (rev (v_writes (vi_var (s_vars s (a_var a))))); [|rewrite Hc]; intro H; inversion H; reflexivity.
Qed.

Lemma check_line_c_silent s i c l s' vs :
  (forall a, l_body l = Some a -> is_cond s (a_var a) || c = true) ->
  check_line_c s i c l = Ok (s', vs) -> vs = [].
Proof.
  intros Ha H. apply check_line_c_inv in H as (s1 & E1 & H). apply update_include_path_inv in E1 as [p ->].
  destruct (l_body l) as [a|]; [|apply H]. destruct H as (s2 & E & _).
  apply handle_varassign_silent in E; [exact E|]. exact (Ha a eq_refl).
Qed.

(* a line inside a conditional section gets no verdict and causes none *)
Theorem conditional_line_silent : forall p s idx per i l,
  check_from_c s idx p = Ok per -> nth_error p i = Some (true, l) -> nth_error per i = Some [].
Proof.
  induction p as [|[c l0] p IH]; intros s idx per i l H Hn; [destruct i; discriminate|].
  simpl in H. destruct (check_line_c s idx c l0) as [[s' vs]| |] eqn:E; try discriminate.
  destruct (check_from_c s' (S idx) p) as [rest| |] eqn:E2; try discriminate.
  inversion H; subst per. destruct i as [|i]; simpl in *.
  - inversion Hn; subst. apply check_line_c_silent in E; [subst; reflexivity|]. intros. apply orb_true_r.
  - eapply IH; eassumption.
Qed.

Lemma upd_same {A} (m : var -> A) k x : upd m k x k = x.
Proof. unfold upd. rewrite str_eqb_refl. reflexivity. Qed.

Lemma handle_varassign_is_cond s i a c s' vs x :
  handle_varassign s i a c = Ok (s', vs) ->
  is_cond s' x = if str_eqb (a_var a) x then is_cond s x || c else is_cond s x.
Proof.
  intro H. apply handle_varassign_scope in H. subst s'. unfold is_cond; simpl. unfold upd.
  destruct (str_eqb (a_var a) x) eqn:Ex; [|reflexivity].
  apply str_eqb_spec in Ex. subst x. simpl. apply var_write_cond.
Qed.

Lemma fold_read_is_cond ws : forall s x, is_cond (fold_left read_one ws s) x = is_cond s x.
Proof.
  induction ws as [|w ws IH]; intros s x; simpl; [reflexivity|]. rewrite IH.
  apply (upd_keeps (fun i => v_cond (vi_var i))). reflexivity.
Qed.

Lemma handle_expr_is_cond s a s' x : handle_expr s a = Ok s' -> is_cond s' x = is_cond s x.
Proof. intro H. destruct (handle_expr_shape _ _ _ H) as [us ->]. apply fold_read_is_cond. Qed.

Lemma check_line_c_is_cond s i c l s' vs x :
  check_line_c s i c l = Ok (s', vs) -> is_cond s' x = is_cond s x || (c && assigns x l).
Proof.
  unfold assigns. intro H. apply check_line_c_inv in H as (s1 & E1 & H).
  apply update_include_path_inv in E1 as [p ->].
  destruct (l_body l) as [a|]; [|destruct H as [-> _]; rewrite andb_false_r, orb_false_r; reflexivity].
  destruct H as (s2 & E2 & E3).
  rewrite (handle_expr_is_cond _ _ _ x E3), (handle_varassign_is_cond _ _ _ _ _ _ x E2).
  destruct (str_eqb (a_var a) x); [rewrite andb_true_r|rewrite andb_false_r, orb_false_r]; reflexivity.
Qed.

Definition cond_written (x : var) (pre : cprogram) : bool :=
  existsb (fun cl => fst cl && assigns x (snd cl)) pre.

(* after a conditional assignment to x, no assignment to x gets or causes a verdict *)
Theorem conditional_is_sticky : forall pre s idx c l post per x,
  check_from_c s idx (pre ++ (c, l) :: post) = Ok per ->
  assigns x l = true -> is_cond s x || cond_written x pre = true ->
  nth_error per (length pre) = Some [].
Proof.
  induction pre as [|[c0 l0] pre IH]; intros s idx c l post per x H Ha Hc; simpl in H.
  - destruct (check_line_c s idx c l) as [[s' vs]| |] eqn:E; try discriminate.
    destruct (check_from_c s' (S idx) post); try discriminate.
    inversion H; subst per. simpl in *. rewrite Bool.orb_false_r in Hc.
    apply check_line_c_silent in E; [subst; reflexivity|]. intros a0 Eb. unfold assigns in Ha.
    rewrite Eb in Ha. apply str_eqb_spec in Ha. subst x. rewrite Hc. reflexivity.
  - destruct (check_line_c s idx c0 l0) as [[s' vs]| |] eqn:E; try discriminate.
    destruct (check_from_c s' (S idx) (pre ++ (c, l) :: post)) as [rest| |] eqn:E2; try discriminate.
    inversion H; subst per. simpl. eapply IH; [exact E2 | exact Ha |].
    rewrite (check_line_c_is_cond _ _ _ _ _ _ x E). simpl in Hc.
    destruct (is_cond s x), (c0 && assigns x l0), (cond_written x pre); simpl in *; try reflexivity; discriminate.
Qed.

Corollary conditional_is_sticky_program pre c l post per x :
  check_lines_c (pre ++ (c, l) :: post) = Ok per ->
  assigns x l = true -> cond_written x pre = true ->
  nth_error per (length pre) = Some [].
Proof.
  intros H Ha Hc. eapply conditional_is_sticky; [exact H | exact Ha |]. rewrite Hc. apply Bool.orb_true_r.
Qed.

Corollary conditional_line_silent_program p per i l :
  check_lines_c p = Ok per -> nth_error p i = Some (true, l) -> nth_error per i = Some [].
Proof. apply conditional_line_silent. Qed.
