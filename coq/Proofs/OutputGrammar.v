(* Facts about the output grammar specification itself (C06run). *)
From PV Require Import Lib.Bytes Spec.OutputGrammar.
From Coq Require Import DecimalN DecimalPos.
Import ListNotations.
Open Scope N_scope.

Lemma accounting_exit gcc nosummary werror lines exit :
  accounting gcc nosummary werror lines exit = 0 ->
  exit = expected_exit werror (tally gcc lines) /\ c_unknown (tally gcc lines) = 0.
Proof.
  unfold accounting. set (c := tally gcc lines).
  destruct (0 <? c_unknown c) eqn:U; [discriminate|].
  (* every way to 0 passes the test of the exit status *)
  destruct (exit =? expected_exit werror c) eqn:E; [intros _; lia|].
  destruct nosummary; [destruct (_ || _)|destruct (c_final c =? 1), (c_final_ok c), (c_after c)]; discriminate.
Qed.

Definition is_digit_b (c : N) : bool := (48 <=? c) && (c <=? 57).

Lemma bytes_uint_uint_bytes u : bytes_uint (uint_bytes u) = Some u.
Proof. induction u; simpl; try reflexivity; rewrite IHu; reflexivity. Qed.

Lemma print_dec_nonempty n : print_dec n <> [].
Proof.
  unfold print_dec. assert (N.to_uint n <> Decimal.Nil) as H
    by (destruct n; [discriminate|apply DecimalPos.Unsigned.to_uint_nonnil]).
  destruct (N.to_uint n); [contradiction|discriminate..].
Qed.

Lemma print_dec_digits n : forallb is_digit_b (print_dec n) = true.
Proof. unfold print_dec. induction (N.to_uint n); simpl; auto. Qed.

Theorem dec_roundtrip n : parse_dec (print_dec n) = Some n.
Proof.
  unfold parse_dec. pose proof (print_dec_nonempty n) as NE.
  destruct (print_dec n) as [|c s] eqn:E; [contradiction|].
  rewrite <- E. unfold print_dec. rewrite bytes_uint_uint_bytes.
  rewrite DecimalN.Unsigned.of_to. reflexivity.
Qed.

Definition not_byte (b : N) (s : str) : Prop := forallb (fun c => negb (c =? b)) s = true.

Lemma not_byte_app b s t : not_byte b s -> not_byte b t -> not_byte b (s ++ t).
Proof. unfold not_byte. intros. rewrite forallb_app. rewrite H, H0. reflexivity. Qed.

Lemma not_byte_cons b c s : c <> b -> not_byte b s -> not_byte b (c :: s).
Proof. unfold not_byte. cbn [forallb]. lia. Qed.

Lemma class_not_byte (f : N -> bool) b s : forallb f s = true -> f b = false -> not_byte b s.
Proof.
  unfold not_byte. rewrite !forallb_forall. intros H Hb c Hc.
  destruct (N.eqb_spec c b) as [->|]; [|reflexivity]. rewrite (H b Hc) in Hb. discriminate.
Qed.

Lemma print_dec_not_byte n b : b < 48 \/ 57 < b -> not_byte b (print_dec n).
Proof. intro Hb. apply (class_not_byte is_digit_b); [apply print_dec_digits|unfold is_digit_b; lia]. Qed.

Lemma lower_not_byte w b : forallb is_lower w = true -> b < 97 -> not_byte b w.
Proof. intros H Hb. apply (class_not_byte is_lower); [exact H|unfold is_lower; lia]. Qed.

Lemma split_at_unfold pat s :
  split_at pat s =
  match strip_prefix pat s with
  | Some r => Some ([], r)
  | None => match s with
            | [] => None
            | c :: s' => match split_at pat s' with Some (a, b) => Some (c :: a, b) | None => None end
            end
  end.
Proof. destruct s; reflexivity. Qed.

Lemma split_at_hit pat r : split_at pat (pat ++ r) = Some ([], r).
Proof.
  rewrite split_at_unfold.
  rewrite (proj2 (strip_prefix_some pat (pat ++ r) r) eq_refl). reflexivity.
Qed.

Lemma split_at_skip p0 pat a : forall s, not_byte p0 a ->
  split_at (p0 :: pat) (a ++ s) =
  match split_at (p0 :: pat) s with Some (x, y) => Some (a ++ x, y) | None => None end.
Proof.
  induction a as [|c a IH]; intros s H.
  - cbn [app]. destruct (split_at (p0 :: pat) s) as [[x y]|]; reflexivity.
  - unfold not_byte in H. cbn [forallb] in H. apply andb_true_iff in H as [Hc Ha].
    apply negb_true_iff in Hc. rewrite N.eqb_sym in Hc.
    cbn [app]. rewrite split_at_unfold. cbn [strip_prefix]. rewrite Hc.
    rewrite (IH s Ha). destruct (split_at (p0 :: pat) s) as [[x y]|]; reflexivity.
Qed.

Lemma split_at_none p0 pat a : not_byte p0 a -> split_at (p0 :: pat) a = None.
Proof.
  intros H. rewrite <- (app_nil_r a). rewrite (split_at_skip p0 pat a [] H). reflexivity.
Qed.

Lemma strip_suffix_app suf s : strip_suffix suf (s ++ suf) = Some s.
Proof.
  unfold strip_suffix. rewrite rev_app_distr.
  rewrite (proj2 (strip_prefix_some (rev suf) (rev suf ++ rev s) (rev s)) eq_refl).
  rewrite rev_involutive. reflexivity.
Qed.

Definition El (n : N) (W : str) : str := print_dec n ++ 32 :: W.
Definition okword (W : str) : Prop :=
  forallb is_lower W = true /\ exists c t, W = c :: t /\ c <> 97.

Lemma El_nonempty n W : str_eqb (El n W) [] = false.
Proof.
  unfold El. pose proof (print_dec_nonempty n). destruct (print_dec n); [contradiction|reflexivity].
Qed.

Lemma El_not_comma n W : okword W -> not_byte 44 (El n W).
Proof.
  intros [L _]. apply not_byte_app; [apply print_dec_not_byte; lia|].
  apply not_byte_cons; [lia|]. apply lower_not_byte; [exact L|lia].
Qed.

(* " and " does not begin inside an element: its blank is followed by a word that does not start with 'a' *)
Lemma split_and_El n W s : okword W ->
  split_at s_and (El n W ++ s) =
  match split_at s_and s with Some (x, y) => Some (El n W ++ x, y) | None => None end.
Proof.
  intros [L (c & t & -> & Hc)]. unfold El, s_and. rewrite <- app_assoc.
  rewrite (split_at_skip 32 [97;110;100;32] (print_dec n)) by (apply print_dec_not_byte; lia).
  cbn [app]. rewrite split_at_unfold. cbn [strip_prefix]. rewrite N.eqb_refl.
  destruct (N.eqb_spec 97 c) as [E|_]; [congruence|].
  change (c :: t ++ s) with ((c :: t) ++ s).
  rewrite (split_at_skip 32 [97;110;100;32] (c :: t)) by (apply lower_not_byte; [exact L|lia]).
  destruct (split_at _ s) as [[x y]|]; [|reflexivity]. rewrite <- app_assoc. reflexivity.
Qed.

Definition plural (n : N) (word : str) : str := if n =? 1 then word else word ++ [115].
Definition words : list (N * str) := [(1, w_error); (2, w_warning); (3, w_note)].

Lemma okword_plural n k word : In (k, word) words -> okword (plural n word).
Proof.
  unfold plural. intros [[= <- <-]|[[= <- <-]|[[= <- <-]|[]]]]; destruct (n =? 1);
    (split; [reflexivity|]); eexists; eexists; (split; [reflexivity|]); discriminate.
Qed.

Lemma num_zero word : num 0 word = [].
Proof. reflexivity. Qed.

Lemma num_nonzero n word : n <> 0 -> num n word = El n (plural n word).
Proof.
  intros H. unfold num, El, plural. destruct (N.eqb_spec n 0); [contradiction|].
  destruct (n =? 1); cbn [app]; reflexivity.
Qed.

Lemma parse_num_El n k word :
  n <> 0 -> In (k, word) words -> parse_num (El n (plural n word)) = Some (k, n).
Proof.
  intros Hn Hw. unfold parse_num, El.
  rewrite (split_at_skip 32 [] (print_dec n)) by (apply print_dec_not_byte; lia).
  change (32 :: plural n word) with ([32] ++ plural n word). rewrite split_at_hit.
  rewrite app_nil_r, dec_roundtrip.
  destruct (N.eqb_spec n 0); [contradiction|]. unfold plural.
  destruct Hw as [[= <- <-]|[[= <- <-]|[[= <- <-]|[]]]]; destruct (n =? 1); reflexivity.
Qed.

Definition count_parts (ps : list str) : option (N * N * N) :=
  fold_left (fun acc p => match acc, parse_num p with Some a, Some k => set_count a k | _, _ => None end)
            ps (Some (0, 0, 0)).

Lemma parse_summary_1 n W : okword W -> parse_summary (El n W ++ s_found) = count_parts [El n W].
Proof.
  intros OK. unfold parse_summary. rewrite strip_suffix_app.
  rewrite (split_at_none 44 [32]) by (apply El_not_comma, OK).
  pose proof (split_and_El n W [] OK) as E. rewrite app_nil_r in E. rewrite E. reflexivity.
Qed.

Lemma parse_summary_2 n W n' W' : okword W -> okword W' ->
  parse_summary ((El n W ++ s_and ++ El n' W') ++ s_found) = count_parts [El n W; El n' W'].
Proof.
  intros OK OK'. unfold parse_summary. rewrite strip_suffix_app.
  rewrite (split_at_none 44 [32]).
  - rewrite split_and_El, split_at_hit, app_nil_r by assumption. reflexivity.
  - apply not_byte_app; [|apply not_byte_app; [reflexivity|]]; apply El_not_comma; assumption.
Qed.

Lemma parse_summary_3 n W n' W' n'' W'' : okword W -> okword W' -> okword W'' ->
  parse_summary ((El n W ++ s_comma ++ El n' W' ++ s_and ++ El n'' W'') ++ s_found) =
  count_parts [El n W; El n' W'; El n'' W''].
Proof.
  intros OK OK' OK''. unfold parse_summary. rewrite strip_suffix_app. unfold s_comma at 2.
  rewrite (split_at_skip 44 [32] (El n W)), split_at_hit, app_nil_r by (apply El_not_comma, OK).
  rewrite split_and_El, split_at_hit, app_nil_r by assumption. reflexivity.
Qed.

Theorem summary_line_roundtrip e w n :
  (e <> 0 \/ w <> 0 \/ n <> 0) -> parse_summary (print_summary e w n) = Some (e, w, n).
Proof.
  intros NZ. unfold print_summary, join_cambridge.
  destruct (N.eqb_spec e 0) as [->|He], (N.eqb_spec w 0) as [->|Hw], (N.eqb_spec n 0) as [->|Hn]; [lia|..];
    rewrite ?num_zero, ?(num_nonzero e), ?(num_nonzero w), ?(num_nonzero n) by assumption;
    cbn [filter str_eqb negb]; rewrite ?El_nonempty; cbn [filter negb].
  all: rewrite ?parse_summary_1, ?parse_summary_2, ?parse_summary_3 by (eapply okword_plural; cbn; eauto).
  all: cbn [count_parts fold_left].
  all: rewrite ?(parse_num_El e 1 w_error), ?(parse_num_El w 2 w_warning), ?(parse_num_El n 3 w_note)
    by (cbn; auto).
  all: reflexivity.
Qed.

Definition print_diag_trad (lv : level) (path : str) (n : N) (msg : str) : str :=
  level_name false lv ++ s_colon_sp ++ path ++ 58 :: print_dec n ++ s_colon_sp ++ msg.

Lemma strip_level_name lv r :
  strip_level false all_levels (level_name false lv ++ s_colon_sp ++ r) = Some (lv, r).
Proof. destruct lv; reflexivity. Qed.

Lemma classify_trad_level lv r :
  let s := level_name false lv ++ s_colon_sp ++ r in
  classify false s =
  match parse_diag_trad s with
  | Some k => k
  | None => match parse_summary s with Some (e, w, n) => KSummary e w n | None => KUnknown end
  end.
Proof. destruct lv; reflexivity. Qed.

Lemma split_last_none c b : not_byte c b -> split_last c b = None.
Proof.
  unfold not_byte. induction b as [|x b IH]; simpl; intros H; [reflexivity|].
  apply andb_true_iff in H as [Hx Hb]. rewrite (IH Hb). apply negb_true_iff in Hx. rewrite Hx. reflexivity.
Qed.

Lemma split_last_app c a b : not_byte c b -> split_last c (a ++ c :: b) = Some (a, b).
Proof.
  intros H. induction a as [|x a IH]; cbn [app split_last].
  - rewrite (split_last_none c b H). rewrite N.eqb_refl. reflexivity.
  - rewrite IH. reflexivity.
Qed.

Lemma print_dec_head n : exists d D, print_dec n = d :: D /\ 48 <= d <= 57.
Proof.
  pose proof (print_dec_nonempty n) as NE. pose proof (print_dec_digits n) as DG.
  destruct (print_dec n) as [|d D]; [contradiction|]. exists d, D.
  cbn [forallb] in DG. unfold is_digit_b in DG. split; [reflexivity|lia].
Qed.

Lemma parse_lineno_dec n : parse_lineno (print_dec n) = Some (LNum n).
Proof.
  unfold parse_lineno. rewrite (split_at_none 45 [45]), dec_roundtrip by (apply print_dec_not_byte; lia).
  destruct (print_dec_head n) as (d & D & -> & Hd). cbn [str_eqb].
  replace (d =? 69) with false by lia. reflexivity.
Qed.

Lemma split_colon_sp path n msg :
  not_byte 58 path ->
  split_at s_colon_sp (path ++ 58 :: print_dec n ++ s_colon_sp ++ msg) = Some (path ++ 58 :: print_dec n, msg).
Proof.
  intros NP. unfold s_colon_sp. rewrite (split_at_skip 58 [32] path _ NP), split_at_unfold.
  (* the colon before the line number is followed by a digit, not by a blank *)
  destruct (print_dec_head n) as (d & D & E & Hd). rewrite E at 1. cbn [strip_prefix app].
  rewrite N.eqb_refl. replace (32 =? d) with false by lia.
  rewrite (split_at_skip 58 [32] (print_dec n)) by (apply print_dec_not_byte; lia).
  change (58 :: 32 :: msg) with ([58; 32] ++ msg). rewrite split_at_hit, app_nil_r. reflexivity.
Qed.

Theorem diag_line_roundtrip lv path n msg :
  path <> [] -> not_byte 58 path ->
  classify false (print_diag_trad lv path n msg) = KDiag lv (Some path) (LNum n) msg.
Proof.
  intros NE NP. unfold print_diag_trad.
  rewrite (classify_trad_level lv (path ++ 58 :: print_dec n ++ s_colon_sp ++ msg)).
  unfold parse_diag_trad. rewrite strip_level_name. rewrite (split_colon_sp path n msg NP).
  destruct path as [|c p]; [contradiction|]. cbn [app].
  unfold split_loc. change (c :: p ++ 58 :: print_dec n) with ((c :: p) ++ 58 :: print_dec n).
  rewrite split_last_app by (apply print_dec_not_byte; lia).
  rewrite parse_lineno_dec. reflexivity.
Qed.

Lemma print_dec_safe n : forallb safe_byte (print_dec n) = true.
Proof.
  pose proof (print_dec_digits n) as H. rewrite forallb_forall in *. intros c Hc.
  specialize (H c Hc). unfold is_digit_b in H. unfold safe_byte. lia.
Qed.

Lemma num_safe n word : In word [w_error; w_warning; w_note] -> safe_line (num n word) = true.
Proof.
  intros HW. unfold num, safe_line. destruct (n =? 0); [reflexivity|].
  destruct (n =? 1); rewrite !forallb_app, print_dec_safe; destruct HW as [<-|[<-|[<-|[]]]]; reflexivity.
Qed.

Theorem print_summary_safe e w n : safe_line (print_summary e w n) = true.
Proof.
  unfold print_summary, safe_line. rewrite forallb_app.
  replace (forallb safe_byte s_found) with true by reflexivity. rewrite andb_true_r.
  pose proof (num_safe e w_error) as He. pose proof (num_safe w w_warning) as Hw. pose proof (num_safe n w_note) as Hn.
  unfold safe_line in *. cbn [In] in *.
  unfold join_cambridge. cbn [filter].
  destruct (negb (str_eqb (num e w_error) [])), (negb (str_eqb (num w w_warning) [])), (negb (str_eqb (num n w_note) []));
    rewrite ?forallb_app, ?He, ?Hw, ?Hn by auto; reflexivity.
Qed.
