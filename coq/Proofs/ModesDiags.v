(* show_diags_subset_default, the part that is true: when no check uses
   Replace/ReplaceAfter (the only operation whose effect on texts/Line.Text
   depends on the mode) and the level of a diagnostic is determined by its
   message, every diagnostic printed with -f is printed by the default run. *)
From PV Require Import Lib.Bytes Model.Modes Proofs.Modes.
Open Scope N_scope.

Definition op_no_ra (o : op) : Prop := match o with OReplaceAfter _ _ _ => False | _ => True end.
Definition event_no_ra (e : event) : Prop :=
  match e with EFix _ _ _ _ _ ops => Forall op_no_ra ops | _ => True end.
Definition event_level (lvl : str -> level) (e : event) : Prop :=
  match e with
  | EDiag _ lv _ msg => lv = lvl msg
  | EFix _ lv _ msg _ _ => lv = lvl msg
  | _ => True
  end.
Definition checks_ok (lvl : str -> level) (cs : list check) : Prop :=
  forall c ls e, In c cs -> In e (c ls) -> event_no_ra e /\ event_level lvl e.

Lemma do_op_no_ra m1 m2 skip f o : op_no_ra o -> do_op m1 skip f o = do_op m2 skip f o.
Proof. destruct o; cbn; intros H; try reflexivity. destruct H. Qed.
Lemma open_fix_no_ra m1 m2 only ls i fmt expl ops : Forall op_no_ra ops ->
  open_fix m1 only ls i fmt expl ops = open_fix m2 only ls i fmt expl ops.
Proof.
  intros H. apply open_fix_ext. intros o Ho skip f. apply do_op_no_ra.
  exact (proj1 (Forall_forall _ _) H o Ho).
Qed.

Lemma key_eqb_true a b : key_eqb a b = true -> a = b.
Proof.
  destruct a as [[f1 [a1 b1]] m1], b as [[f2 [a2 b2]] m2]. cbn. intros H.
  repeat (apply andb_true_iff in H as [H ?]).
  apply str_eqb_spec in H. apply str_eqb_spec in H0. apply N.eqb_eq in H1. apply N.eqb_eq in H2. congruence.
Qed.

(* a key in `logged` carries no level: the level has to be a function of the message *)
Definition LogInv (lvl : str -> level) (g : lg) : Prop :=
  forall f ln msg, In (f, ln, msg) (g_logged g) -> In (IDiag (lvl msg) f ln msg) (g_out g).
Definition grows (g g' : lg) : Prop := exists x, g_out g' = g_out g ++ x.

Lemma grows_refl g : grows g g.
Proof. exists []. symmetry. apply app_nil_r. Qed.
Lemma grows_in g g' it : grows g g' -> In it (g_out g) -> In it (g_out g').
Proof. intros [x ->] H. apply in_or_app. left. exact H. Qed.
Lemma prints_grows g items g' : prints g items g' -> grows g g'.
Proof. intros [H _]. exists items. exact H. Qed.

Lemma LogInv_grows lvl g g' : LogInv lvl g -> g_logged g' = g_logged g -> grows g g' -> LogInv lvl g' /\ grows g g'.
Proof. intros HL El Hg. split; [|exact Hg]. intros f ln msg Hin. rewrite El in Hin. eapply grows_in; [exact Hg|]. apply HL, Hin. Qed.

Lemma LogInv_once lvl g g' f ln msg (b : bool) : LogInv lvl g ->
  prints g (if b then [IDiag (lvl msg) f ln msg] else []) g' ->
  g_logged g' = (if b then (f, ln, msg) :: g_logged g else g_logged g) ->
  LogInv lvl g' /\ grows g g'.
Proof.
  intros HL P El. split; [|exact (prints_grows _ _ _ P)]. destruct P as [Ho _].
  intros f' ln' msg' Hin. rewrite Ho. apply in_or_app. rewrite El in Hin.
  destruct b; [destruct Hin as [[= <- <- <-]|Hin]|]; [right; left; reflexivity|left; apply HL, Hin..].
Qed.

Lemma logged_in lvl g f ln msg : LogInv lvl g -> logged g (f, ln, msg) = true -> In (IDiag (lvl msg) f ln msg) (g_out g).
Proof. intros HL (k & Hin & <-%key_eqb_true)%existsb_exists. apply HL, Hin. Qed.

Lemma explain_logged g : g_logged (explain g) = g_logged g.
Proof. unfold explain. destruct (g_suppressExpl g); reflexivity. Qed.
Lemma summary_logged m g : g_logged (summary m g) = g_logged g.
Proof. unfold summary. destruct (m_fix m); reflexivity. Qed.
Lemma save_logged m g ls : g_logged (save m g ls) = g_logged g.
Proof. unfold save. destruct (m_fix m); [reflexivity|]. destruct (existsb _ _); reflexivity. Qed.

Lemma diag_logged only g l lv fmt msg :
  g_logged (diag Default only g l lv fmt msg)
  = if shall_be_logged only fmt && negb (logged g (l_file l, line_linenos l, msg))
    then (l_file l, line_linenos l, msg) :: g_logged g else g_logged g.
Proof.
  unfold diag, relevant, first_time, logged. cbn. destruct (shall_be_logged only fmt); cbn; [|reflexivity].
  destruct (existsb _ (g_logged g)); reflexivity.
Qed.

Lemma apply_items_default only g f lv fmt msg :
  apply_items Default only g f lv fmt msg
  = if shall_be_logged only fmt && negb (str_eqb fmt silent_format) && negb (logged g (own_key f msg))
    then [own_diag f lv msg] else [].
Proof.
  unfold apply_items. cbn. rewrite orb_true_r, app_nil_r.
  destruct (shall_be_logged only fmt), (str_eqb fmt silent_format), (logged g _); reflexivity.
Qed.

Lemma apply_fix_logged only g f lv fmt msg expl :
  g_logged (fst (apply_fix Default only g f lv fmt msg expl))
  = if shall_be_logged only fmt && negb (str_eqb fmt silent_format) && negb (logged g (own_key f msg))
    then own_key f msg :: g_logged g else g_logged g.
Proof.
  unfold apply_fix, relevant, first_time, logged, own_key. cbn. rewrite orb_true_r.
  destruct (shall_be_logged only fmt); cbn; [|reflexivity].
  destruct (str_eqb fmt silent_format); cbn; [reflexivity|].
  destruct (existsb _ (g_logged g)), expl; cbn; rewrite ?explain_logged; reflexivity.
Qed.

Lemma diag_default lvl only g l lv fmt msg :
  LogInv lvl g -> lv = lvl msg ->
  LogInv lvl (diag Default only g l lv fmt msg) /\ grows g (diag Default only g l lv fmt msg).
Proof.
  intros HL ->. eapply LogInv_once; [exact HL| |apply diag_logged].
  exact (diag_prints Default only g l (lvl msg) fmt msg).
Qed.

Lemma apply_fix_default lvl only g f lv fmt msg expl :
  LogInv lvl g -> lv = lvl msg ->
  LogInv lvl (fst (apply_fix Default only g f lv fmt msg expl)) /\ grows g (fst (apply_fix Default only g f lv fmt msg expl)).
Proof.
  intros HL ->. pose proof (apply_fix_prints Default only g f (lvl msg) fmt msg expl) as P.
  rewrite apply_items_default in P. exact (LogInv_once lvl g _ _ _ msg _ HL P (apply_fix_logged _ _ _ _ _ _ _)).
Qed.

Lemma step_default_log lvl only st e : event_level lvl e -> LogInv lvl (s_lg st) ->
  LogInv lvl (s_lg (step Default only st e)) /\ grows (s_lg st) (s_lg (step Default only st e)).
Proof.
  intros Hlv HL. apply step_cases; cbn [s_lg panic]; try (split; [exact HL|apply grows_refl]).
  - intros i lv fmt msg expl ops f -> _. apply apply_fix_default; assumption.
  - intros g' L. revert Hlv. destruct L as [i l lv fmt msg| | |]; intros Hlv;
      [apply diag_default; assumption|apply LogInv_grows; [exact HL|..]..].
    + apply explain_logged.
    + apply (prints_grows _ []), explain_prints.
    + apply save_logged.
    + exists []. rewrite app_nil_r. apply save_out.
    + apply summary_logged.
    + destruct (summary_prints Default (s_lg st)) as (items & P & _). apply (prints_grows _ _ _ P).
Qed.

Definition covered (base : list item) (gS gD : lg) : Prop :=
  forall it, is_diag_item it = true -> In it (g_out gS) -> In it base \/ In it (g_out gD).

Lemma covered_grows base gS gD gD' : covered base gS gD -> grows gD gD' -> covered base gS gD'.
Proof. intros H Hg it Hd Hin. destruct (H it Hd Hin) as [B|B]; [left; exact B|right; eapply grows_in; eauto]. Qed.

Lemma covered_quiet base only sS e gD : no_fix e ->
  covered base (s_lg sS) gD -> covered base (s_lg (step ShowAutofix only sS e)) gD.
Proof.
  intros He H. apply step_cases; try exact H.
  - intros i lv fmt msg expl ops f ->. destruct He.
  - intros g' (items & Ho & _ & D)%logs_out it Hd. cbn [s_lg]. rewrite Ho.
    intros [Hin|Hin]%in_app_or; [exact (H it Hd Hin)|].
    assert (Hf : In it (filter is_diag_item items)) by (apply filter_In; auto). rewrite (D eq_refl) in Hf. destruct Hf.
Qed.

(* -f prints the diagnostic only if --only lets it through and it is not silent; the default run
   prints it then, or has printed it before *)
Lemma covered_fix lvl base only gS gD fS fD lv fmt msg expl :
  LogInv lvl gD -> lv = lvl msg -> own_diag fD lv msg = own_diag fS lv msg -> covered base gS gD ->
  covered base (fst (apply_fix ShowAutofix only gS fS lv fmt msg expl))
               (fst (apply_fix Default only gD fD lv fmt msg expl)).
Proof.
  intros HL -> Eo Hc it Hd. destruct (apply_fix_default lvl only gD fD _ fmt msg expl HL eq_refl) as [_ Hg].
  rewrite (proj1 (apply_fix_prints ShowAutofix _ _ _ _ _ _ _)).
  intros [H|H]%in_app_or; [exact (covered_grows _ _ _ _ Hc Hg it Hd H)|right].
  unfold apply_items in H. cbn in H. rewrite orb_false_r, andb_true_r in H.
  destruct (shall_be_logged only fmt) eqn:Hs; [|destruct H]. destruct (nonempty (f_acts fS)); [|destruct H].
  apply in_app_or in H as [H|H].
  2:{ unfold fix_items in H. apply in_map_iff in H as (a & <- & _). discriminate Hd. }
  destruct (str_eqb fmt silent_format) eqn:Hn; cbn in H; [destruct H|]. destruct H as [<-|[]]. rewrite <- Eo.
  destruct (logged gD (own_key fD msg)) eqn:El; [eapply grows_in; [exact Hg|]; apply (logged_in lvl), El; exact HL|].
  rewrite (proj1 (apply_fix_prints Default _ _ _ _ _ _ _)), apply_items_default, Hs, Hn, El.
  apply in_or_app. right. left. reflexivity.
Qed.

Definition DInv (lvl : str -> level) (sD sS : state) : Prop :=
  together sD sS /\ LogInv lvl (s_lg sD) /\ covered [] (s_lg sS) (s_lg sD).

Lemma DInv_init lvl ls : DInv lvl (init ls) (init ls).
Proof. repeat split; [intros f ln msg []|intros it _ []]. Qed.

Lemma step_DInv lvl only sD sS e :
  event_no_ra e /\ event_level lvl e -> DInv lvl sD sS ->
  DInv lvl (step Default only sD e) (step ShowAutofix only sS e).
Proof.
  intros [Hra Hlv] (Ht & HL & Hsub).
  destruct (step_default_log lvl only sD e Hlv HL) as [HL' Hgr].
  split; [apply step_together; [exact Ht|intros i lv fmt msg expl ops ->; apply open_fix_no_ra, Hra]|].
  split; [exact HL'|]. destruct Ht as [Hl Hp].
  destruct (s_panic sD) eqn:Ep.
  { rewrite (panic_sticky ShowAutofix) by congruence. eapply covered_grows; eauto. }
  destruct e as [i lv fmt msg| |i lv fmt msg expl ops| |];
    try (eapply covered_grows; [apply covered_quiet; [exact I|exact Hsub]|exact Hgr]).
  cbn in Hra, Hlv. rewrite (step_fix Default) by exact Ep. rewrite (step_fix ShowAutofix) by congruence.
  rewrite <- Hl, <- (open_fix_no_ra Default ShowAutofix _ _ _ _ _ _ Hra).
  destruct (open_fix Default _ _ _ _ _ _) as [f|]; [|exact Hsub]. apply (covered_fix lvl); auto.
Qed.

Lemma checks_DInv lvl only cs sD sS : checks_ok lvl cs -> DInv lvl sD sS ->
  DInv lvl (fold_left (run_check Default only) cs sD) (fold_left (run_check ShowAutofix only) cs sS).
Proof.
  apply (checks_lockstep only (fun e => event_no_ra e /\ event_level lvl e)).
  - intros s1 s2 H. apply H.
  - intros s1 s2 e. apply step_DInv.
Qed.

(* C04, second clause, under the guard checks_ok *)
Theorem show_diags_subset_default_partial lvl only ls cs :
  checks_ok lvl cs ->
  forall it, In it (diags (run ShowAutofix only ls cs)) -> In it (diags (run Default only ls cs)).
Proof.
  intros Hok it Hin. unfold diags in *. apply filter_In in Hin as [Hin Hd]. apply filter_In. split; [|exact Hd].
  assert (H : DInv lvl (run Default only ls cs) (run ShowAutofix only ls cs)).
  { apply step_DInv; [split; exact I|]. apply checks_DInv; [exact Hok|apply DInv_init]. }
  destruct H as (_ & _ & H). destruct (H it Hd Hin) as [[]|H']. exact H'.
Qed.

(* the witness of the refutation violates exactly the first guard *)
Example partial_guard_needed : ~ checks_ok (fun _ => Note) [wit_check1; wit_check2].
Proof.
  intros H. destruct (H wit_check1 [] _ (or_introl eq_refl) (or_introl eq_refl)) as [Hra _].
  cbn in Hra. inversion Hra as [|? ? X _]. exact X.
Qed.
