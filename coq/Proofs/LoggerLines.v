(* C06 diag_line_shape / logger_lines_recognised: every line the Logger machine writes
   to stdout is recognised by the executable recogniser of the whole-run part,
   Spec/OutputGrammar.v `classify` -- the same grammar the real binary's output is
   judged by (harness/c06run.go). *)
From PV Require Import Lib.Bytes Lib.Utf8 Model.Escape Model.Logger.
From PV Require Import Proofs.Escape Proofs.LoggerInv Proofs.LoggerOut.
From PV Require Spec.OutputGrammar Proofs.OutputGrammar Spec.LinesSpec.
From Coq Require Import ZifyBool ZifyN ZifyNat.
Open Scope N_scope.

Module G := PV.Spec.OutputGrammar.
Module GP := PV.Proofs.OutputGrammar.

Definition clean (s : str) : Prop := Forall (fun b => b <> 10) s.
Definition recognised (g : bool) (x : str) : Prop := clean x /\ G.classify g x <> G.KUnknown.
Definition unlines (ls : list str) : str := concat (map (fun x => x ++ [10]) ls).

(* characters of a Linenos text: digits, '-', "EOF" -- in any case printable, no ':' ' ' or newline *)
Definition lnos_ok (n : str) : Prop := Forall (fun c => xprint c = true /\ c <> 58 /\ c <> 32 /\ c <> 10) n.

Lemma clean_nil : clean [].
Proof. constructor. Qed.

Lemma clean_cons c s : c <> 10 -> clean s -> clean (c :: s).
Proof. unfold clean. intros. constructor; assumption. Qed.

Lemma clean_app a b : clean a -> clean b -> clean (a ++ b).
Proof. unfold clean. intros. apply Forall_app. split; assumption. Qed.

Lemma clean_if (c : bool) a b : clean a -> clean b -> clean (if c then a else b).
Proof. destruct c; auto. Qed.

Lemma clean_forallb s : forallb (fun b => negb (b =? 10)) s = true -> clean s.
Proof. intro H. apply Forall_forall. intros x Hx ->. apply (proj1 (forallb_forall _ _) H) in Hx. discriminate. Qed.

Lemma clean_not_in s : clean s <-> ~ In 10 s.
Proof.
  unfold clean. rewrite Forall_forall. split.
  - intros H Hin. exact (H 10 Hin eq_refl).
  - intros H x Hx ->. contradiction.
Qed.

Lemma escape_clean s : clean s -> clean (escape_printable s).
Proof. rewrite !clean_not_in. apply escape_keeps_out. reflexivity. Qed.

Lemma lnos_ok_clean n : lnos_ok n -> clean n.
Proof. apply Forall_impl. tauto. Qed.
Lemma lnos_ok_safe n : lnos_ok n -> safe n.
Proof. apply Forall_impl. tauto. Qed.

Lemma level_name_safe lv : safe (gcc_name lv) /\ safe (traditional_name lv).
Proof. destruct lv; split; apply safe_forallb; reflexivity. Qed.
Lemma level_name_clean lv : clean (gcc_name lv) /\ clean (traditional_name lv).
Proof. destruct lv; split; apply clean_forallb; reflexivity. Qed.

(* `auto with clean`: a string put together from newline-free pieces; a literal by evaluation *)
Create HintDb clean.
#[local] Hint Resolve clean_nil clean_cons clean_app clean_if escape_clean lnos_ok_clean : clean.
#[local] Hint Extern 1 (clean (_ :: _)) => (apply clean_forallb; reflexivity) : clean.
#[local] Hint Extern 1 (clean (gcc_name _)) => apply level_name_clean : clean.
#[local] Hint Extern 1 (clean (traditional_name _)) => apply level_name_clean : clean.
#[local] Hint Resolve lnos_ok_safe : safe.
#[local] Hint Extern 1 (safe (gcc_name _)) => apply level_name_safe : safe.
#[local] Hint Extern 1 (safe (traditional_name _)) => apply level_name_safe : safe.

Lemma unlines_app a b : unlines (a ++ b) = unlines a ++ unlines b.
Proof. unfold unlines. rewrite map_app, concat_app. reflexivity. Qed.

Lemma recognised_nil g : recognised g [].
Proof. split; [constructor|destruct g; discriminate]. Qed.

(* the bytes of a newline-free x all go to the line buffer; in state 2 (separator wanted)
   the first of them is preceded by the newline that flushes the buffer *)
Lemma sw_write_clean w x : clean x ->
  sw_out (sw_write w x) ++ sw_line (sw_write w x) =
  sw_out w ++ sw_line w ++ (if (sw_state w =? 2) && nonempty_list x then [10] else []) ++ x.
Proof.
  intro Hx. revert w. induction Hx as [|b x Hb Hx IH]; intro w.
  - rewrite andb_false_r, !app_nil_r. reflexivity.
  - change (sw_write w (b :: x)) with (sw_write (sw_write_byte w b) x). rewrite IH.
    unfold sw_write_byte. destruct (N.eqb_spec b 10); [contradiction|].
    destruct (sw_state w =? 2); cbn [sw_state sw_out sw_line andb nonempty_list N.eqb Pos.eqb app];
      rewrite <- !app_assoc; reflexivity.
Qed.

Lemma sw_write_unit w x : sw_line w = [] -> clean x ->
  exists sep, (sep = [] \/ sep = [[]]) /\
    sw_out (sw_write w (x ++ [10])) = sw_out w ++ unlines (sep ++ [x]) /\ sw_line (sw_write w (x ++ [10])) = [].
Proof.
  intros Hl Hx. rewrite sw_write_app. change (sw_write ?w0 [10]) with (sw_write_byte w0 10).
  unfold sw_write_byte. rewrite N.eqb_refl. cbn [sw_out sw_line].
  rewrite app_assoc, (sw_write_clean w x Hx), Hl.
  destruct ((sw_state w =? 2) && nonempty_list x); [exists [[]]|exists []];
    cbn [unlines map concat app]; rewrite <- ?app_assoc, ?app_nil_r; auto.
Qed.

(* the unit of output and the invariant for inv_run: complete lines that the recogniser knows *)
Definition GLr (g : bool) (u : str) : Prop := exists x, u = x ++ [10] /\ recognised g x.

Definition Pr (g : bool) (l : logger) : Prop :=
  sw_line (l_out l) = [] /\ exists ls, sw_out (l_out l) = unlines ls /\ Forall (recognised g) ls.

Lemma Pr_write g l u : GLr g u -> Pr g l -> Pr g (out_write l u).
Proof.
  intros (x & -> & Hx) (Hl & ls & Ho & Hls).
  destruct (sw_write_unit (l_out l) x Hl (proj1 Hx)) as (sep & Hsep & E1 & E2).
  split; [assumption|]. exists (ls ++ sep ++ [x]). cbn [l_out out_write set_out]. rewrite E1, Ho, <- unlines_app.
  split; [reflexivity|]. repeat (apply Forall_app; split); auto.
  destruct Hsep as [-> | ->]; auto using recognised_nil.
Qed.

Lemma Pr_separate g l : Pr g l -> Pr g (out_separate l).
Proof.
  intros (Hl & ls & Ho & Hls). unfold out_separate, sw_separate. cbn.
  destruct (sw_state (l_out l) <? 2); cbn; (split; [assumption|exists ls; split; assumption]).
Qed.

Definition parse_diag (g : bool) (s : str) : option G.line_kind :=
  if g then G.parse_diag_gcc s else G.parse_diag_trad s.

(* what `classify` does with a line that has no tab among its first two bytes *)
Definition ordinary (g : bool) (s : str) : G.line_kind :=
  if str_eqb s G.s_looks_fine then G.KLooksFine else
  match G.parse_hint s with
  | Some k => G.KHint k
  | None =>
    match parse_diag g s with
    | Some k => k
    | None => match G.parse_summary s with Some (e, w, n) => G.KSummary e w n | None => G.KUnknown end
    end
  end.

Lemma classify_eq g s :
  G.classify g s =
  match s with
  | [] => G.KEmpty
  | c :: r =>
    if c =? 9 then G.KIndented
    else if match r with c1 :: _ => c1 =? 9 | [] => false end
    then if (c =? 62) || (c =? 43) || (c =? 45) then G.KSource c
         else match parse_diag g s with Some k => k | None => G.KUnknown end
    else ordinary g s
  end.
Proof.
  unfold G.classify, ordinary, parse_diag. destruct s as [|c [|c1 r]]; [reflexivity|..].
  (* the pattern 9 is a tree of matches on N and positive: at each of its leaves both sides compute *)
  all: repeat match goal with
              | |- context [match ?x with 0 => _ | N.pos _ => _ end] => destruct x
              | |- context [match ?x with xI _ => _ | xO _ => _ | xH => _ end] => destruct x
              end; reflexivity.
Qed.

Lemma parse_diag_known g s : parse_diag g s <> Some G.KUnknown.
Proof.
  unfold parse_diag, G.parse_diag_gcc, G.parse_diag_trad. destruct g.
  - destruct (G.strip_level true G.all_levels s) as [[lv msg]|]; [discriminate|].
    destruct (G.split_at G.s_colon_sp s) as [[loc r]|]; [|discriminate].
    destruct (G.strip_level true G.all_levels r) as [[lv msg]|], loc; try discriminate.
    destruct (G.split_loc _). discriminate.
  - destruct (G.strip_level false G.all_levels s) as [[lv r]|]; [|discriminate].
    destruct (G.split_at G.s_colon_sp r) as [[[|c loc] msg]|]; try discriminate.
    destruct (G.split_loc _). discriminate.
Qed.

Lemma ordinary_known g s :
  s = G.s_looks_fine \/ G.parse_hint s <> None \/ parse_diag g s <> None \/ G.parse_summary s <> None ->
  ordinary g s <> G.KUnknown.
Proof.
  intro H. unfold ordinary. destruct (str_eqb s G.s_looks_fine) eqn:E; [discriminate|].
  destruct H as [->|H]; [rewrite str_eqb_refl in E; discriminate|].
  destruct (G.parse_hint s); [discriminate|].
  destruct (parse_diag g s) as [k|] eqn:Ed; [intros ->; exact (parse_diag_known _ _ Ed)|].
  destruct (G.parse_summary s) as [[[e w] n]|]; [discriminate|tauto].
Qed.

Lemma classify_diag g s : parse_diag g s <> None -> G.classify g s <> G.KUnknown.
Proof.
  intro H. rewrite classify_eq. destruct s as [|c r]; [discriminate|]. destruct (c =? 9); [discriminate|].
  destruct (match r with c1 :: _ => c1 =? 9 | [] => false end); [|apply ordinary_known; auto].
  destruct ((c =? 62) || (c =? 43) || (c =? 45)); [discriminate|].
  destruct (parse_diag g (c :: r)) as [k|] eqn:Ed; [intros ->; exact (parse_diag_known _ _ Ed)|congruence].
Qed.

Lemma In_firstn {A} (x : A) n l : In x (firstn n l) -> In x l.
Proof. revert l. induction n as [|n IH]; intros [|a l]; simpl; try tauto. intros [H|H]; auto. Qed.

Lemma classify_ordinary g s :
  ~ In 9 (firstn 2 s) ->
  s = G.s_looks_fine \/ G.parse_hint s <> None \/ G.parse_summary s <> None -> G.classify g s <> G.KUnknown.
Proof.
  intros Ht H. rewrite classify_eq. destruct s as [|c r]; [discriminate|].
  destruct (N.eqb_spec c 9) as [->|_]; [destruct Ht; left; reflexivity|].
  assert (ordinary g (c :: r) <> G.KUnknown) as Ho by (apply ordinary_known; tauto).
  destruct r as [|c1 r]; [exact Ho|]. destruct (N.eqb_spec c1 9) as [->|_]; [destruct Ht; right; left; reflexivity|exact Ho].
Qed.

Lemma GLr_nl g : GLr g [10].
Proof. exists []. split; [reflexivity|apply recognised_nil]. Qed.

(* a physical line: no newline except possibly as its last byte (C09: raw_ok) *)
Definition raw_clean (t : str) : Prop := exists t', clean t' /\ (t = t' \/ t = t' ++ [10]).

Lemma has_suffix_nl_snoc t : has_suffix_nl (t ++ [10]) = true.
Proof. induction t as [|c t IH]; [reflexivity|]. cbn [app has_suffix_nl]. destruct (t ++ [10]) eqn:E; [destruct t; discriminate|exact IH]. Qed.

Lemma has_suffix_nl_clean t : clean t -> has_suffix_nl t = false.
Proof.
  induction 1 as [|c t Hc Ht IH]; [reflexivity|]. cbn [has_suffix_nl]. destruct t; [|exact IH].
  apply N.eqb_neq. assumption.
Qed.

Lemma src_unit_shape p t : raw_clean t -> exists t', clean t' /\ src_unit p t = (p ++ escape_printable t') ++ [10].
Proof.
  intros (t' & Hc & [-> | ->]); exists t'; (split; [assumption|]); unfold src_unit.
  - rewrite (has_suffix_nl_clean _ Hc), <- app_assoc. reflexivity.
  - rewrite has_suffix_nl_snoc, app_nil_r, (escape_app_ascii t' [10]) by (cbn; lia).
    rewrite app_assoc. reflexivity.
Qed.

Lemma src_unit_GLr g p t : In p src_prefixes -> raw_clean t -> GLr g (src_unit p t).
Proof.
  intros Hp Ht. destruct (src_unit_shape p t Ht) as (t' & Hc & ->).
  exists (p ++ escape_printable t'). split; [reflexivity|].
  destruct Hp as [<-|[<-|[<-|[<-|[]]]]]; (split; [auto with clean|destruct g; discriminate]).
Qed.

Lemma expl_unit_GLr g x : clean x -> GLr g (expl_unit x).
Proof.
  intro Hc. unfold expl_unit. destruct x as [|c x]; cbn [nonempty_list]; [apply GLr_nl|].
  exists ([9] ++ escape_printable (c :: x)). split; [rewrite <- app_assoc; reflexivity|].
  split; [auto with clean|destruct g; discriminate].
Qed.

Lemma uint_digits_bytes u : uint_digits u = G.uint_bytes u.
Proof. induction u; cbn; congruence. Qed.

Lemma dec_of_N_print_dec n : dec_of_N n = G.print_dec n.
Proof. apply uint_digits_bytes. Qed.

Lemma num_is_num n word plural : plural = word ++ [115] -> num n word plural = G.num n word.
Proof.
  intros ->. unfold num, G.num. rewrite dec_of_N_print_dec.
  destruct (n =? 0); [reflexivity|]. destruct (n =? 1); reflexivity.
Qed.

Lemma join_cambridge_3 a b c :
  join_cambridge [97; 110; 100] [a; b; c] = G.join_cambridge [a; b; c].
Proof.
  unfold join_cambridge, G.join_cambridge.
  destruct a, b, c; cbn; rewrite <- ?app_assoc; reflexivity.
Qed.

Lemma summary_counts_is_print e w n : summary_counts e w n = G.print_summary e w n ++ [10].
Proof.
  unfold summary_counts, G.print_summary.
  rewrite (num_is_num e G.w_error), (num_is_num w G.w_warning), (num_is_num n G.w_note) by reflexivity.
  rewrite join_cambridge_3, <- app_assoc. reflexivity.
Qed.

Lemma summary_line_GLr g e w n : GLr g (summary_line e w n).
Proof.
  destruct (summary_line_bytes e w n) as (x & Hx & Hb). exists x. split; [exact Hx|].
  assert (forall c, In c x -> c <> 9 /\ c <> 10) as Hc.
  { intros c Hin. apply (proj1 (Forall_forall _ _) Hb) in Hin. unfold summary_byte, is_digit, is_lower in Hin. lia. }
  split; [apply Forall_forall; intros c Hin; apply Hc, Hin|].
  apply classify_ordinary; [intros Hin%In_firstn; apply Hc in Hin; tauto|].
  unfold summary_line in Hx. destruct (negb (e =? 0) || negb (w =? 0)) eqn:E.
  - rewrite summary_counts_is_print in Hx. apply app_inj_tail in Hx as [<- _].
    right. right. rewrite GP.summary_line_roundtrip by lia. discriminate.
  - apply (app_inj_tail G.s_looks_fine x) in Hx as [<- _]. left. reflexivity.
Qed.

Lemma parse_hint_run cl suf :
  In suf [G.s_hint1; G.s_hint2; G.s_hint3] -> G.parse_hint (G.s_run ++ cl ++ suf) <> None.
Proof.
  intro H. unfold G.parse_hint. rewrite (proj2 (strip_prefix_some G.s_run _ _) eq_refl).
  destruct H as [<-|[<-|[<-|[]]]].
  - rewrite (GP.strip_suffix_app G.s_hint1 cl). discriminate.
  - rewrite (GP.strip_suffix_app G.s_hint2 cl). destruct (G.strip_suffix G.s_hint1 (cl ++ G.s_hint2)); discriminate.
  - rewrite (GP.strip_suffix_app G.s_hint3 cl).
    destruct (G.strip_suffix G.s_hint1 (cl ++ G.s_hint3)), (G.strip_suffix G.s_hint2 (cl ++ G.s_hint3)); discriminate.
Qed.

Lemma hint_unit_GLr g cl h : clean cl -> In h [hint_e; hint_fs; hint_F] -> GLr g (hint_unit cl (snd h)).
Proof.
  intros Hc Hh. set (suf := [34; 32; 116; 111; 32] ++ snd h ++ [46; 41]).
  assert (In suf [G.s_hint1; G.s_hint2; G.s_hint3] /\ clean suf) as [Hsuf Hcs].
  { destruct Hh as [<-|[<-|[<-|[]]]]; (split; [cbn; auto|apply clean_forallb; reflexivity]). }
  exists (G.s_run ++ cl ++ suf). split; [unfold hint_unit, suf, G.s_run; rewrite <- !app_assoc; reflexivity|].
  split; [unfold G.s_run; auto with clean|].
  apply classify_ordinary; [simpl; intros [H|[H|[]]]; discriminate|]. right. left. apply parse_hint_run, Hsuf.
Qed.

Definition conv (lv : level) : G.level :=
  match lv with LError => G.LError | LWarn => G.LWarn | LNote => G.LNote | LAutofix => G.LAutofix end.

Lemma traditional_name_is lv : traditional_name lv = G.level_name false (conv lv).
Proof. destruct lv; reflexivity. Qed.
Lemma gcc_name_is lv : gcc_name lv = G.level_name true (conv lv).
Proof. destruct lv; reflexivity. Qed.

Lemma strip_level_name_gcc lv r :
  G.strip_level true G.all_levels (G.level_name true lv ++ G.s_colon_sp ++ r) = Some (lv, r).
Proof. destruct lv; reflexivity. Qed.

Lemma escape_nonempty s : nonempty_list (escape_printable s) = nonempty_list s.
Proof.
  destruct s as [|b0 s]; [reflexivity|]. unfold escape_printable. cbn [escape_from].
  destruct (decode_rune (b0 :: s)) as [r w]. unfold escape_piece.
  destruct ((r <? 256) && xprint b0); [reflexivity|].
  destruct ((r =? rune_error) && negb (has_prefix utf8_rune_error (b0 :: s))); reflexivity.
Qed.

#[local] Hint Resolve ascii_head_safe : safe.
#[local] Hint Extern 1 (ascii_head (_ :: _)) => reflexivity : safe.
#[local] Hint Extern 1 (ascii_head ((_ :: _) ++ _)) => reflexivity : safe.

(* Everything around the file name and the message is printable ASCII: the line is the
   format applied to the escaped file name and the escaped message. *)
Lemma escape_format_diag o lv f n m : safe n ->
  escape_printable (format_diag o lv f n m) = format_diag o lv (escape_printable f) n (escape_printable m).
Proof.
  intro Hn. unfold format_diag. rewrite escape_nonempty.
  assert (escape_printable (m ++ [10]) = escape_printable m ++ [10]) as Hm by (apply escape_app_ascii; auto with safe).
  destruct (lo_gcc o).
  - rewrite escape_app_ascii, !escape_safe_prefix, Hm by auto 8 with safe. reflexivity.
  - rewrite !escape_safe_prefix, escape_app_ascii, !escape_safe_prefix, Hm by auto 8 with safe. reflexivity.
Qed.

Lemma not_in_not_byte b s : ~ In b s -> GP.not_byte b s.
Proof. intro H. apply forallb_forall. intros c Hc. apply negb_true_iff, N.eqb_neq. intros ->. contradiction. Qed.

(* "path[:linenos]: level: message" is split at the right ": " *)
Lemma split_gcc_loc F n rest : ~ In 58 F -> lnos_ok n ->
  G.split_at G.s_colon_sp (F ++ (if nonempty_list n then [58] else []) ++ n ++ G.s_colon_sp ++ rest)
  = Some (F ++ (if nonempty_list n then [58] else []) ++ n, rest).
Proof.
  intros HF Hn. unfold G.s_colon_sp. rewrite (GP.split_at_skip 58 [32] F) by (apply not_in_not_byte, HF).
  destruct n as [|c n]; cbn [nonempty_list].
  - rewrite !app_nil_l, (GP.split_at_hit [58; 32] rest). reflexivity.
  - cbn [app]. assert (GP.not_byte 58 (c :: n)) as H58.
    { apply not_in_not_byte. intro Hin. destruct (proj1 (Forall_forall _ _) Hn 58 Hin) as (_ & H & _). congruence. }
    apply Forall_inv in Hn as (_ & _ & Hc & _).
    rewrite GP.split_at_unfold. cbn [strip_prefix]. rewrite N.eqb_refl. destruct (N.eqb_spec 32 c); [congruence|].
    change (c :: n ++ 58 :: 32 :: rest) with ((c :: n) ++ [58; 32] ++ rest).
    rewrite (GP.split_at_skip 58 [32] (c :: n) _ H58), (GP.split_at_hit [58; 32] rest), app_nil_r. reflexivity.
Qed.

Lemma parse_trad_level lv r : G.parse_diag_trad (G.level_name false lv ++ G.s_colon_sp ++ r) <> None.
Proof.
  unfold G.parse_diag_trad. rewrite GP.strip_level_name.
  destruct (G.split_at G.s_colon_sp r) as [[[|c loc] msg]|]; try discriminate. destruct (G.split_loc _). discriminate.
Qed.

Lemma format_diag_recognised o lv F n M :
  clean F -> ~ In 58 F -> clean M -> lnos_ok n ->
  exists x, format_diag o lv F (if nonempty_list F then n else []) M = x ++ [10] /\ recognised (lo_gcc o) x.
Proof.
  intros HF HF58 HM Hn. unfold format_diag.
  destruct (lo_gcc o); (eexists; split; [rewrite !app_assoc; reflexivity|]); rewrite <- !app_assoc;
    (split; [auto 10 with clean|]); apply classify_diag; unfold parse_diag; change [58; 32] with G.s_colon_sp.
  - unfold G.parse_diag_gcc. rewrite gcc_name_is.
    destruct F as [|f0 F]; cbn [nonempty_list app]; [rewrite strip_level_name_gcc; discriminate|].
    destruct (G.strip_level true G.all_levels _) as [[lv0 msg0]|]; [discriminate|].
    change (f0 :: F ++ ?r) with ((f0 :: F) ++ r).
    rewrite (split_gcc_loc (f0 :: F) n _ HF58 Hn), strip_level_name_gcc. cbn [app].
    destruct (G.split_loc _). discriminate.
  - rewrite traditional_name_is. destruct F; apply parse_trad_level.
Qed.

(* diag_line_shape: the line Logf writes for (level, file, linenos, message) is
   "LEVEL: [file[:linenos]: ]message" resp. "[file[:linenos]: ]level: message" with -g,
   escaped, and the recogniser reads it as a diagnostic of that level *)
Theorem diag_line_shape o lv f n m :
  clean f -> ~ In 58 f -> clean m -> lnos_ok n ->
  exists x, escape_printable (format_diag o lv f (if nonempty_list f then n else []) m) = x ++ [10] /\
            clean x /\ G.classify (lo_gcc o) x <> G.KUnknown.
Proof.
  intros Hf H58 Hm Hn. rewrite escape_format_diag, <- (escape_nonempty f) by (destruct (nonempty_list f); auto with safe).
  apply format_diag_recognised; auto using escape_clean, escape_keeps_out.
Qed.

Lemma lnos_ok_app a b : lnos_ok a -> lnos_ok b -> lnos_ok (a ++ b).
Proof. unfold lnos_ok. intros. apply Forall_app. split; assumption. Qed.

Lemma uint_digits_lnos_ok u : lnos_ok (uint_digits u).
Proof. eapply Forall_impl; [|apply uint_digits_digits]. intro c. unfold is_digit, xprint. lia. Qed.

Lemma dec_of_Z_lnos_ok z : lnos_ok (dec_of_Z z).
Proof.
  destruct z; cbn [dec_of_Z]; [|apply uint_digits_lnos_ok|apply (lnos_ok_app [45]); [|apply uint_digits_lnos_ok]];
    repeat constructor; discriminate.
Qed.

Lemma range_lnos_ok a b : lnos_ok (dec_of_Z a ++ [45; 45] ++ dec_of_Z b).
Proof. repeat apply lnos_ok_app; try apply dec_of_Z_lnos_ok. repeat constructor; discriminate. Qed.

Lemma linenos_lnos_ok ln : lnos_ok (linenos ln).
Proof.
  unfold linenos. destruct (ln_lineno ln =? -1)%Z; [repeat constructor; discriminate|].
  destruct (ln_lineno ln =? 0)%Z; [constructor|].
  destruct (Nat.eqb (length (ln_raws ln)) 1); [apply dec_of_Z_lnos_ok|apply range_lnos_ok].
Qed.

Lemma action_lnos_ok a : lnos_ok (action_lnos a).
Proof. unfold action_lnos. destruct (snd a =? 0)%Z; [constructor|apply dec_of_Z_lnos_ok]. Qed.

Lemma affected_linenos_lnos_ok ln actions : lnos_ok (affected_linenos ln actions).
Proof.
  unfold affected_linenos. destruct actions as [|a actions]; [apply linenos_lnos_ok|].
  match goal with |- context [fold_left ?f ?xs ?i] => destruct (fold_left f xs i) as [first last] end.
  destruct (last =? 0)%Z; [apply linenos_lnos_ok|].
  destruct (first <? last)%Z; [apply range_lnos_ok|apply dec_of_Z_lnos_ok].
Qed.

(* wrap only moves bytes around and inserts spaces *)
Lemma space_word_pairs_clean s sp wd b :
  clean s -> clean sp -> clean wd -> Forall (fun p => clean (fst p) /\ clean (snd p)) (space_word_pairs s sp wd b).
Proof.
  intros Hs. revert sp wd b. induction Hs as [|c s Hc Hs IH]; intros sp wd b Hsp Hwd; cbn [space_word_pairs].
  - destruct (nonempty_list sp || nonempty_list wd); repeat constructor; assumption.
  - destruct (is_space c); [destruct b; [constructor; [split; assumption|]|]|]; apply IH; auto with clean.
Qed.

Lemma wrap_pairs_clean max ps bol sb acc :
  Forall (fun p => clean (fst p) /\ clean (snd p)) ps -> clean sb -> Forall clean acc ->
  clean (fst (wrap_pairs max ps bol sb acc)) /\ Forall clean (snd (wrap_pairs max ps bol sb acc)).
Proof.
  intro Hps. revert bol sb acc. induction Hps as [|[sp wd] ps [Hsp Hwd] Hps IH]; intros bol sb acc Hsb Hacc; cbn [wrap_pairs].
  - cbn. auto.
  - cbn [fst snd] in Hsp, Hwd.
    set (sp' := if bol && nonempty_list sb then [32] else sp).
    assert (clean sp') as Hsp' by (unfold sp'; auto with clean).
    destruct (nonempty_list sb && (max <? length sb + length sp' + length wd)%nat); apply IH; auto with clean.
    apply Forall_app. auto.
Qed.

Lemma wrap_lines_clean max lines sb acc :
  Forall clean lines -> clean sb -> Forall clean acc -> Forall clean (wrap_lines max lines sb acc).
Proof.
  intro Hl. revert sb acc. induction Hl as [|ln lines Hln Hl IH]; intros sb acc Hsb Hacc; cbn [wrap_lines].
  - destruct (nonempty_list sb); [apply Forall_app|]; auto.
  - assert (Forall clean ((if nonempty_list sb then acc ++ [sb] else acc) ++ [ln])) as Hflush.
    { apply Forall_app. split; [|auto]. destruct (nonempty_list sb); [apply Forall_app|]; auto. }
    destruct ln as [|c ln']; [apply IH; [constructor|assumption]|].
    destruct ((c =? 32) || (c =? 9) || (c =? 42)); [apply IH; [constructor|assumption]|].
    pose proof (wrap_pairs_clean max (space_word_pairs (c :: ln') [] [] false) true sb acc
                  (space_word_pairs_clean _ _ _ _ Hln clean_nil clean_nil) Hsb Hacc) as [H1 H2].
    destruct (wrap_pairs max (space_word_pairs (c :: ln') [] [] false) true sb acc) as [sb' acc'].
    apply IH; assumption.
Qed.

Lemma wrap_clean max e : Forall clean e -> Forall clean (wrap max e).
Proof. intro H. apply wrap_lines_clean; [assumption|constructor|constructor]. Qed.

Lemma shquote_clean s : clean s -> clean (shquote s).
Proof.
  intro H. unfold shquote. destruct (nonempty_list s && forallb shquote_safe s); [assumption|].
  apply clean_app; [auto with clean|]. apply clean_app; [|auto with clean].
  induction H as [|c s Hc Hs IH]; [constructor|]. cbn [flat_map].
  apply clean_app; [|assumption]. destruct (c =? 39); auto with clean.
Qed.

Lemma command_line_clean args a cl : Forall clean args -> clean a -> command_line args a = Some cl -> clean cl.
Proof.
  intros Hargs Ha. unfold command_line. destruct Hargs as [|a0 rest Ha0 Hrest]; [discriminate|]. intro H.
  replace cl with (escape_printable (join [32] (map shquote (a0 :: a :: rest)))) by congruence.
  apply escape_clean, join_Forall; [repeat constructor; discriminate|]. apply Forall_forall. intros x (y & <- & Hy)%in_map_iff.
  rewrite Forall_forall in Hrest. apply shquote_clean. destruct Hy as [<-|[<-|Hy]]; auto.
Qed.

Definition clean_file (f : str) : Prop := clean f /\ ~ In 58 f.   (* no newline, no ':' *)

Definition clean_line (ln : line) : Prop := clean_file (ln_file ln) /\ Forall raw_clean (ln_raws ln).

Definition clean_event (ev : event) : Prop :=
  match ev with
  | EvDiag ln lv f m => clean_line ln /\ clean m
  | EvExplain e => Forall clean e
  | EvFix ln fv lv f m e actions =>
    clean_line ln /\ clean m /\ Forall clean e /\ Forall (fun a : str * Z => clean (fst a)) actions /\
    Forall raw_clean (fv_above fv) /\ Forall raw_clean (fv_texts fv) /\ Forall raw_clean (fv_below fv)
  | EvSaved _ => True
  | EvTechError _ _ => True
  | EvSummary args => Forall clean args
  end.

Lemma explanation_ok_clean g e : Forall clean e -> explanation_ok (GLr g) e.
Proof.
  intro He. split; [apply GLr_nl|].
  eapply Forall_impl; [|apply wrap_clean; exact He]. intros x Hx. apply expl_unit_GLr. assumption.
Qed.

(* Logf turns the file name "." into none *)
Lemma log_ok_clean o lv f n m : clean_file f -> lnos_ok n -> clean m -> log_ok o (GLr (lo_gcc o)) lv f n m.
Proof.
  intros [Hf H58] Hn Hm.
  destruct (diag_line_shape o lv (if str_eqb f [46] then [] else f) n m) as (x & Hx & Hr); auto.
  - destruct (str_eqb f [46]); auto with clean.
  - destruct (str_eqb f [46]); auto.
  - exists x. auto.
Qed.

Lemma ev_ok_clean o ev : clean_event ev -> ev_ok o True (GLr (lo_gcc o)) ev.
Proof.
  intro Hev. split; [left; exact I|]. set (g := lo_gcc o).
  assert (forall ts, Forall raw_clean ts -> Forall (src_ok (GLr g)) ts) as Hsrc.
  { intro ts. apply Forall_impl. intros t Ht p Hp. apply src_unit_GLr; assumption. }
  destruct ev; cbn [clean_event] in Hev.
  - destruct Hev as ((Hf & Hr) & Hm). split.
    + repeat split; auto. all: constructor.
    + apply log_ok_clean; auto using linenos_lnos_ok.
  - apply explanation_ok_clean. assumption.
  - destruct Hev as ((Hf & Hr) & Hm & He & Hacts & Ha & Ht & Hb).
    split; [repeat split; auto|].
    split; [apply log_ok_clean; auto using affected_linenos_lnos_ok|].
    split; [|apply explanation_ok_clean; assumption].
    eapply Forall_impl; [|exact Hacts]. intros a Ha'. apply log_ok_clean; auto using action_lnos_ok.
  - exact I.
  - exact I.
  - assert (forall h, In h [hint_e; hint_fs; hint_F] -> hint_ok (GLr g) args h) as Hh.
    { intros h Hin cl Hcl. apply hint_unit_GLr; [|assumption].
      apply (command_line_clean args (fst h) cl Hev); [|assumption].
      destruct Hin as [<-|[<-|[<-|[]]]]; apply clean_forallb; reflexivity. }
    repeat split; apply Hh; cbn; auto.
Qed.

(* For every option record and every list of events whose strings carry no stray newline
   (and whose file names contain no ':'): stdout is a sequence of newline-terminated lines,
   each of which the whole-run recogniser classifies as something other than KUnknown *)
Theorem logger_lines_recognised o evs :
  Forall clean_event evs ->
  exists ls, sw_out (l_out (log_run o evs)) = unlines ls /\
             Forall (fun x => clean x /\ G.classify (lo_gcc o) x <> G.KUnknown) ls.
Proof.
  intro Hev. apply proj2 with (A := sw_line (l_out (log_run o evs)) = []).
  apply (inv_run o (Pr (lo_gcc o)) True (GLr (lo_gcc o))); auto using Pr_write, Pr_separate, summary_line_GLr.
  - intros l lv f n m H. destruct lv; exact H.
  - eapply Forall_impl; [|exact Hev]. intros ev. apply ev_ok_clean.
  - split; [reflexivity|]. exists []. split; [reflexivity|constructor].
Qed.

Lemma raw_ok_raw_clean r : PV.Spec.LinesSpec.raw_ok r = true -> raw_clean r.
Proof.
  unfold PV.Spec.LinesSpec.raw_ok. intro H. apply andb_true_iff in H as [Hne Hnl].
  destruct r as [|c r]; [discriminate|].
  assert (clean (removelast (c :: r))) as Hc.
  { unfold clean. apply Forall_forall. intros x Hx ->. apply negb_true_iff in Hnl.
    assert (existsb PV.Spec.LinesSpec.is_nl (removelast (c :: r)) = true); [|congruence].
    apply existsb_exists. exists 10. split; [assumption|reflexivity]. }
  pose proof (app_removelast_last 0 (l := c :: r) ltac:(discriminate)) as E.
  destruct (N.eqb_spec (last (c :: r) 0) 10) as [E10|E10].
  - exists (removelast (c :: r)). split; [assumption|]. right. rewrite <- E10. exact E.
  - exists (c :: r). split; [|left; reflexivity]. rewrite E. apply clean_app; [assumption|repeat constructor; assumption].
Qed.
