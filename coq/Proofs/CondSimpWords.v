(* C14: what cond.c's TryParseNumber does not take for a number.
   1. A string whose first byte cannot start one -- letters: the literal
      "yes"/"no" of the rewritten yes/no comparison, words matching [yY][eE][sS].
   2. A string with a blank inside, where strtoul and strtod stop.  Hence the
      result of ${V:Mpat} as a bare expression: if no single word that matches
      the pattern is a number, it is "true" exactly when it is non-empty. *)
From PV Require Import Lib.Bytes Spec.BmakeCond Proofs.CondSimpA.
From Coq Require Import ZifyBool ZifyN ZifyNat.
Open Scope N_scope.

(* 43 45 46: + - . *)
Definition head_ok (c : N) : bool :=
  negb (is_cspace c || is_digit c || (c =? 43) || (c =? 45) || (c =? 46)).

Lemma alpha_head_ok c : is_alpha c = true -> head_ok c = true.
Proof. unfold head_ok, is_alpha, is_lower, is_upper, is_cspace, is_digit. lia. Qed.

Lemma lower_head_ok c : is_lower (to_lower c) = true -> head_ok c = true.
Proof.
  intros H. apply alpha_head_ok. unfold to_lower, is_alpha, is_lower, is_upper in *.
  destruct ((65 <=? c) && (c <=? 90)) eqn:E; lia.
Qed.

Lemma head_ok_sign c r : head_ok c = true -> take_sign (skip_cspace (c :: r)) = (false, c :: r).
Proof.
  intros H. assert (is_cspace c = false /\ (c =? 45) = false /\ (c =? 43) = false) as (H1 & H2 & H3)
    by (unfold head_ok in H; lia).
  cbn [skip_cspace]. rewrite H1. unfold take_sign. rewrite H2, H3. reflexivity.
Qed.

(* strtoul converts nothing and stays at the byte, or, in "cx...", reads the hexadecimal
   digit c and stops at the x *)
Lemma strtoul_head c r hex : head_ok c = true -> (hex = true -> exists r', r = 120 :: r') ->
  exists conv neg mag e rest, strtoul (c :: r) hex = (conv, neg, mag, e :: rest) /\ (e = c \/ e = 120).
Proof.
  intros H Hx. unfold strtoul. cbv zeta. rewrite head_ok_sign by exact H.
  assert (is_digit c = false /\ (c =? 48) = false) as [Hd H48] by (unfold head_ok, is_digit in *; lia).
  destruct hex.
  - destruct (Hx eq_refl) as (r' & ->).
    destruct r'; rewrite ?H48; cbn [andb span]; change (is_hexdigit 120) with false;
      destruct (is_hexdigit c); repeat eexists; auto.
  - cbn [span]. rewrite Hd. repeat eexists. auto.
Qed.

Lemma strtod_head c r : head_ok c = true -> snd (strtod (c :: r)) = c :: r.
Proof.
  intros H. unfold strtod. cbv zeta. rewrite head_ok_sign by exact H.
  assert (is_digit c = false /\ (c =? 48) = false /\ (c =? 46) = false) as (Hd & H48 & H46)
    by (unfold head_ok, is_digit in *; lia).
  destruct r; rewrite ?H48; cbn [andb span]; rewrite Hd, H46; reflexivity.
Qed.

Lemma head_not_number c r : head_ok c = true -> try_parse_number (c :: r) = None.
Proof.
  intros Hc. unfold try_parse_number.
  pose proof (strtod_head c r Hc) as Hd. destruct (strtod (c :: r)) as [v r']. cbn [snd] in Hd. subst r'.
  destruct (strtoul_head c r (match r with x :: _ => x =? 120 | [] => false end) Hc)
    as (conv & neg & mag & e & rest & -> & [->| ->]).
  - destruct r as [|x r']; [discriminate|]. intros Hx. apply N.eqb_eq in Hx. subst x. eauto.
  - destruct ((c =? 46) || (c =? 101) || (c =? 69)); reflexivity.
  - reflexivity.
Qed.

Lemma first_not_number (f : N -> bool) s : (forall c, f c = true -> head_ok c = true) ->
  s <> [] -> forallb f s = true -> try_parse_number s = None.
Proof.
  intros Hf. destruct s as [|c r]; [congruence|]. intros _ Hall. cbn [forallb] in Hall.
  apply andb_true_iff in Hall as [Hc _]. apply head_not_number, Hf, Hc.
Qed.

Lemma alpha_not_number s : s <> [] -> forallb is_alpha s = true -> try_parse_number s = None.
Proof. apply first_not_number, alpha_head_ok. Qed.

(* the only white space in the value is blank, tab, newline (what Str_Words splits at) *)
Definition clean (s : str) : Prop := forall c, In c s -> is_cspace c = true -> is_ws c = true.

Lemma clean_cons c s : clean (c :: s) -> clean s.
Proof. intros H x Hx. apply H. right. exact Hx. Qed.

Lemma split_ws_words s : forall cur, clean s -> wordlike cur ->
  Forall (fun w => w <> [] /\ wordlike w) (split_ws s cur).
Proof.
  induction s as [|c s IH]; intros cur Hcl Hcur; simpl.
  - destruct cur; repeat constructor; easy.
  - pose proof (clean_cons _ _ Hcl) as Hcl'. destruct (is_ws c) eqn:Ews.
    + destruct cur; [|constructor; [easy|]]; apply IH; easy.
    + apply IH; [exact Hcl'|]. unfold wordlike. rewrite forallb_app, Hcur. simpl.
      destruct (is_cspace c) eqn:Ec; [|reflexivity].
      rewrite (Hcl c (or_introl eq_refl) Ec) in Ews. discriminate.
Qed.

Lemma words_spec s : clean s -> Forall (fun w => w <> [] /\ wordlike w) (words s).
Proof. intros H. apply split_ws_words; [exact H|exact wordlike_nil]. Qed.

Lemma kept_words (f : str -> bool) s w :
  clean s -> In w (filter f (words s)) -> w <> [] /\ wordlike w /\ f w = true.
Proof.
  intros Hcl Hin. apply filter_In in Hin as [Hin Hf].
  pose proof (words_spec s Hcl) as Hw. rewrite Forall_forall in Hw. destruct (Hw w Hin). auto.
Qed.

Lemma span_keeps (f : N -> bool) (b : N) s : f b = false -> In b s -> In b (snd (span f s)).
Proof.
  intros Hf. induction s as [|c s IH]; intros Hin; [contradiction|]. simpl.
  destruct (f c) eqn:E.
  - destruct Hin as [->|Hin]; [congruence|]. destruct (span f s) as [a r]. simpl in *. apply IH. exact Hin.
  - exact Hin.
Qed.

Lemma take_sign_keeps s : In 32 s -> In 32 (snd (take_sign s)).
Proof.
  unfold take_sign. destruct s as [|c r]; [easy|]. intros [->|H]; [simpl; auto|].
  destruct (c =? 45), (c =? 43); simpl; auto.
Qed.

Lemma take_exponent_keeps m1 m2 s : m1 <> 32 -> m2 <> 32 -> In 32 s -> In 32 (snd (take_exponent m1 m2 s)).
Proof.
  intros H1 H2. unfold take_exponent. destruct s as [|c r]; [easy|]. intros Hin.
  destruct ((c =? m1) || (c =? m2)) eqn:E; [|exact Hin].
  destruct Hin as [Heq|Hin]; [lia|].
  pose proof (take_sign_keeps r Hin) as Hs. destruct (take_sign r) as [neg r1]. cbn [snd] in Hs.
  pose proof (span_keeps is_digit 32 r1 eq_refl Hs) as Hd. destruct (span is_digit r1) as [[|? ?] r2];
    simpl; auto.
Qed.

(* "0x" in front of a digit is stepped over *)
Lemma x_keeps z x r : is_x x = true -> In 32 (z :: x :: r) -> z <> 32 -> In 32 r.
Proof. unfold is_x. intros Hx [H|[H|H]] Hz; [congruence|lia|exact H]. Qed.

Lemma strtoul_keeps s hex : skip_cspace s = s -> In 32 s ->
  In 32 (snd (strtoul s hex)).
Proof.
  intros Hsk Hin. unfold strtoul. rewrite Hsk.
  pose proof (take_sign_keeps s Hin) as Hs. destruct (take_sign s) as [neg s2]. cbn [snd] in Hs.
  destruct hex.
  - set (s3 := match s2 with [] => _ | _ => _ end).
    assert (H3 : In 32 s3).
    { subst s3. destruct s2 as [|z [|x [|h t]]]; try exact Hs.
      destruct ((z =? 48) && is_x x && is_hexdigit h) eqn:E; [|exact Hs].
      apply (x_keeps z x); [|exact Hs|]; lia. }
    pose proof (span_keeps is_hexdigit 32 s3 eq_refl H3) as Hd.
    destruct (span is_hexdigit s3) as [[|? ?] r]; assumption.
  - pose proof (span_keeps is_digit 32 s2 eq_refl Hs) as Hd.
    destruct (span is_digit s2) as [[|? ?] r]; assumption.
Qed.

(* digits with an optional fraction, "." digits, and then an optional exponent: the shape
   of both of strtod's forms; [none] and [some] are what the form makes of it *)
Lemma mantissa_keeps {B} (P : B -> Prop) (f : N -> bool) m1 m2 (none : B) (some : str -> str -> Z -> str -> B) s :
  f 32 = false -> m1 <> 32 -> m2 <> 32 ->
  P none -> (forall ip fp ex r3, In 32 r3 -> P (some ip fp ex r3)) -> In 32 s ->
  P (let (ip, r1) := span f s in
     let (fp, r2) := match r1 with
                     | d :: r1' => if d =? 46 then span f r1' else ([], r1)
                     | [] => ([], r1)
                     end in
     match ip ++ fp with
     | [] => none
     | _ => let (ex, r3) := take_exponent m1 m2 r2 in some ip fp ex r3
     end).
Proof.
  intros Hf Hm1 Hm2 Hnone Hsome Hin.
  pose proof (span_keeps f 32 s Hf Hin) as H1. destruct (span f s) as [ip r1]. cbn [snd] in H1.
  assert (H2 : In 32 (snd (match r1 with
                           | d :: r1' => if d =? 46 then span f r1' else ([], r1)
                           | [] => ([], r1)
                           end))).
  { destruct r1 as [|d r1']; [easy|]. destruct (N.eqb_spec d 46) as [->|]; [|exact H1].
    destruct H1 as [H1|H1]; [discriminate|]. apply span_keeps; assumption. }
  destruct (match r1 with [] => _ | _ => _ end) as [fp r2]. cbn [snd] in H2.
  destruct (ip ++ fp); [exact Hnone|].
  pose proof (take_exponent_keeps m1 m2 r2 Hm1 Hm2 H2) as H3. destruct (take_exponent m1 m2 r2).
  apply Hsome, H3.
Qed.

Lemma strtod_keeps s : skip_cspace s = s -> In 32 s -> In 32 (snd (strtod s)).
Proof.
  intros Hsk Hin. unfold strtod. rewrite Hsk.
  pose proof (take_sign_keeps s Hin) as Hs. destruct (take_sign s) as [neg s2]. cbn [snd] in Hs.
  (* the decimal form, taken when the hexadecimal one does not apply *)
  match goal with |- context [match _ with Some res => res | None => ?d end] => set (dec := d) end.
  assert (Hdec : In 32 (snd dec)) by (apply (mantissa_keeps (fun res => In 32 (snd res))); easy).
  destruct s2 as [|z [|x r]]; try exact Hdec.
  destruct ((z =? 48) && is_x x) eqn:E; [|exact Hdec]. apply andb_true_iff in E as [Ez Ex].
  apply (mantissa_keeps (fun o => In 32 (snd match o with Some res => res | None => dec end))); try easy.
  apply (x_keeps z x); [exact Ex|exact Hs|lia].
Qed.

Lemma blank_not_number s : skip_cspace s = s -> In 32 s -> try_parse_number s = None.
Proof.
  intros Hsk Hin. unfold try_parse_number. destruct s as [|c0 s']; [contradiction|].
  set (hex := match c0 :: s' with _ :: x :: _ => x =? 120 | _ => false end).
  pose proof (strtoul_keeps (c0 :: s') hex Hsk Hin) as H1.
  pose proof (strtod_keeps (c0 :: s') Hsk Hin) as H2.
  destruct (strtoul (c0 :: s') hex) as [[[conv neg] mag] rest]. simpl in H1.
  destruct (strtod (c0 :: s')) as [v r']. simpl in H2.
  destruct rest as [|e rest']; [contradiction|]. destruct r' as [|x r'']; [contradiction|].
  destruct ((e =? 46) || (e =? 101) || (e =? 69)); reflexivity.
Qed.

Lemma match_result_shape (f : str -> bool) s : clean s ->
  let r := join_sp (filter f (words s)) in
  r = [] \/ (skip_cspace r = r /\ r <> [] /\ ((wordlike r /\ f r = true) \/ In 32 r)).
Proof.
  intros Hcl. pose proof (kept_words f s) as Hk.
  destruct (filter f (words s)) as [|w rest]; [left; reflexivity|right].
  destruct (Hk w Hcl (or_introl eq_refl)) as (Hne & Hwl & Hf).
  destruct w as [|c w']; [congruence|]. pose proof Hwl as Hc. apply wordlike_cons in Hc as [Hc _].
  destruct rest as [|w2 rest]; cbn [join_sp app skip_cspace]; rewrite Hc.
  - repeat split; auto.
  - repeat split; [discriminate|]. right. right. apply in_or_app. right. left. reflexivity.
Qed.

Lemma match_result_head (f : str -> bool) s :
  clean s -> let r := join_sp (filter f (words s)) in nonempty (skip_cspace r) = nonempty r.
Proof. intros Hcl r. subst r. destruct (match_result_shape f s Hcl) as [->|[-> _]]; reflexivity. Qed.

Theorem match_result_bare pat s :
  clean s ->
  (forall w, w <> [] -> wordlike w -> str_match w pat = true -> try_parse_number w = None) ->
  let r := join_sp (filter (fun w => str_match w pat) (words s)) in
  nonempty (skip_cspace r) = nonempty r /\ (r <> [] -> truthy r false = true).
Proof.
  intros Hcl Hnum r. subst r. split; [apply match_result_head, Hcl|].
  destruct (match_result_shape (fun w => str_match w pat) s Hcl) as [->|(Hsk & Hne & H)]; [congruence|].
  assert (Hn : try_parse_number (join_sp (filter (fun w => str_match w pat) (words s))) = None)
    by (destruct H as [[Hw Hm]|Hb]; [apply Hnum|apply blank_not_number]; assumption).
  intros _. unfold truthy. rewrite Hn.
  destruct (join_sp _); [congruence|reflexivity].
Qed.
