(* C03: the PLIST sorter writes a permutation of whole lines, under one logged action. *)
From PV Require Import Lib.Bytes Model.Autofix Proofs.Autofix.
From Coq Require Import Lia Permutation.
Open Scope Z_scope.

Lemma span_list_app {A} (f : A -> bool) l : fst (span_list f l) ++ snd (span_list f l) = l.
Proof.
  induction l as [|x l IH]; cbn; [reflexivity|].
  destruct (f x); [|reflexivity]. destruct (span_list f l) as [a b]. cbn in *. rewrite IH. reflexivity.
Qed.

Lemma split_plist_app l h m f : split_plist l = (h, m, f) -> h ++ m ++ f = l.
Proof.
  unfold split_plist.
  set (isc := fun p : nat * pkey => has_prefix at_comment (k_text (snd p))).
  set (isa := fun p : nat * pkey => has_prefix at_sign (k_text (snd p))).
  pose proof (span_list_app isc l) as H1.
  destruct (span_list isc l) as [header rest]. cbn [fst snd] in H1.
  pose proof (span_list_app isa (rev rest)) as H2.
  destruct (span_list isa (rev rest)) as [fr mr]. cbn [fst snd] in H2.
  intro E. inversion E; subst h m f. rewrite <- H1. f_equal.
  rewrite <- (rev_involutive rest), <- H2, rev_app_distr. reflexivity.
Qed.

Lemma stable_insert_perm x l : Permutation (stable_insert x l) (x :: l).
Proof.
  induction l as [|y l IH]; cbn; [reflexivity|].
  destruct (pkey_less (snd x) (snd y)); [reflexivity|].
  rewrite IH. apply perm_swap.
Qed.

Lemma stable_sort_perm l : Permutation (stable_sort l) l.
Proof.
  unfold stable_sort.
  assert (G : forall acc, Permutation (fold_left (fun a x => stable_insert x a) l acc) (l ++ acc)).
  { induction l as [|x l IH]; intro acc; cbn; [reflexivity|].
    rewrite IH. rewrite stable_insert_perm. symmetry. apply Permutation_middle. }
  rewrite G, app_nil_r. reflexivity.
Qed.

Lemma map_nth_seq {A} (l : list A) d : map (fun i => nth i l d) (seq 0 (length l)) = l.
Proof.
  induction l as [|x l IH]; cbn; [reflexivity|]. f_equal.
  rewrite <- seq_shift, map_map. exact IH.
Qed.

Lemma map_fst_combine {A B} (a : list A) (b : list B) : length a = length b -> map fst (combine a b) = a.
Proof.
  revert b; induction a as [|x a IH]; intros [|y b] H; cbn in *; try discriminate; [reflexivity|].
  f_equal. apply IH. lia.
Qed.

Definition last_raw_terminated (store : list line) : Prop :=
  match rev store with
  | lastl :: _ => match rev (l_raw lastl) with r :: _ => has_suffix_nl r = true | [] => True end
  | [] => True
  end.

Definition sort_action (l : line) : list (descr * Z) := [(DSort, l_lineno l + 0)].
Definition sorted_line (l : line) : line := settled l (l_text l) (cur l) (sort_action l).

Lemma sort_fix o l0 l1 f1 l2 f2 l4 printed :
  idle l0 -> autofix l0 = Ok (l1, f1) -> set_diag silent_format l1 = Ok l2 -> the_fix l2 = Ok f2 ->
  apply o (with_fix l2 (describe 0 DSort l2 f2)) = Ok (l4, printed) ->
  l4 = sorted_line l0 /\
  printed = if shall_be_logged o silent_format && is_autofix o then sort_action l0 else [].
Proof.
  intros I AF SD TF. destruct (open_fix l0 silent_format I) as (l1' & f1' & AF' & SD').
  rewrite AF in AF'. inversion AF'; subst l1' f1'. rewrite SD in SD'. inversion SD'; subst l2.
  unfold the_fix, opened in TF. cbn [l_fix with_fix] in TF. inversion TF; subst f2.
  erewrite apply_spec by reflexivity. intro H. inversion H. split; reflexivity.
Qed.

(* plistLineSorter.Sort: nothing at all, or the fix on the first line of the middle part
   and a save of the lines in the order [idx] *)
Lemma plist_sort_cases o keys store r :
  plist_sort o keys store = Ok r ->
  r = (store, [], [], false) \/
  exists first l0 idx l4 printed,
    Permutation idx (combine (seq 0 (length keys)) keys) /\
    last_raw_terminated (firstn (length keys) store) /\
    nth_error store first = Some l0 /\
    (Forall idle store ->
     l4 = sorted_line l0 /\ printed = if is_autofix o then sort_action l0 else []) /\
    let view := map (fun p : nat * pkey => nth (fst p) (set_nth first l4 store) dummy_line) idx in
    r = (set_nth first l4 store, log_of l4 printed, fst (save o view), snd (save o view)).
Proof.
  unfold plist_sort.
  destruct (split_plist (combine (seq 0 (length keys)) keys)) as [[header middle] footer] eqn:SP.
  apply split_plist_app in SP.
  match goal with |- context [if ?c then _ else _] => destruct c eqn:C end; [intro H; inversion H; auto|].
  destruct (negb (shall_be_logged o sorted_before_format)); [intro H; inversion H; auto|].
  destruct (shall_be_logged o silent_format) eqn:SL; cbn [negb]; [|intro H; inversion H; auto].
  destruct middle as [|[first k] middle']; [intro H; inversion H; auto|].
  destruct (nat_list_eqb _ _); [intro H; inversion H; auto|].
  destruct (nth_error store first) as [l0|] eqn:En; [|discriminate].
  unfold bind. destruct (autofix l0) as [[l1 f1]|] eqn:AF; [|discriminate].
  destruct (set_diag silent_format l1) as [l2|] eqn:SD; [|discriminate].
  destruct (the_fix l2) as [f2|] eqn:TF; [|discriminate].
  destruct (apply o (with_fix l2 (describe 0 DSort l2 f2))) as [[l4 pr]|] eqn:AP; [|discriminate].
  intro H. right. exists first, l0, (header ++ stable_sort ((first, k) :: middle') ++ footer), l4, pr.
  split; [rewrite <- SP; apply Permutation_app_head, Permutation_app_tail, stable_sort_perm|].
  split.
  { (* the unsortable test was negative *)
    apply orb_false_iff in C as [_ C]. unfold last_raw_terminated.
    destruct (rev (firstn (length keys) store)) as [|lastl rs]; [exact I|].
    destruct (rev (l_raw lastl)) as [|x rr]; [exact I|]. destruct (has_suffix_nl x); [reflexivity|discriminate]. }
  split; [exact En|]. split.
  { intro Id. rewrite Forall_forall in Id. rewrite <- (andb_true_l (is_autofix o)), <- SL.
    exact (sort_fix o l0 l1 f1 l2 f2 l4 pr (Id l0 (nth_error_In _ _ En)) AF SD TF AP). }
  cbv zeta. destruct (save o _) as [sops saf]. inversion H. reflexivity.
Qed.

Lemma view_perm (store : list line) (idx : list (nat * pkey)) keys :
  length keys = length store -> Permutation idx (combine (seq 0 (length keys)) keys) ->
  Permutation (map (fun p : nat * pkey => nth (fst p) store dummy_line) idx) store.
Proof.
  intros L P. rewrite (Permutation_map _ P), <- (map_map fst (fun i => nth i store dummy_line)).
  rewrite map_fst_combine by (rewrite seq_length; reflexivity). rewrite L. apply Permutation_refl'. apply map_nth_seq.
Qed.

(* what plistLineSorter.Sort does to the lines [store] of the file:
   either nothing at all, or the fix object of one line gets the single action
   "Sorting the whole file." and the lines are saved in an order that is a
   permutation of the file's lines (each line as a whole, with everything that
   earlier fixes put into it) *)
Theorem sort_permutes_whole_lines o keys store store' printed ops af :
  length keys = length store -> Forall idle store ->
  plist_sort o keys store = Ok (store', printed, ops, af) ->
  (store' = store /\ printed = [] /\ ops = [] /\ af = false) \/
  (exists view i l, Permutation view store' /\ (ops, af) = save o view /\
     nth_error store' i = Some l /\ (forall k, k <> i -> nth_error store' k = nth_error store k) /\
     (printed = [] \/ printed = [Log (l_file l) DSort (l_lineno l)])).
Proof.
  intros Hlen Hidle PS.
  apply plist_sort_cases in PS as [H|(first & l0 & idx & l4 & pr & P & _ & En & SF & H)]; inversion H; [auto|].
  right. destruct (SF Hidle) as [-> ->].
  eexists _, first, _. split; [apply (view_perm _ idx keys); [rewrite set_nth_length; exact Hlen|exact P]|].
  split; [destruct (save o _); reflexivity|].
  split; [apply nth_error_set_nth; apply nth_error_Some; congruence|].
  split; [intros j Hj; apply nth_error_set_nth_other; congruence|].
  destruct (is_autofix o); [right|left; reflexivity]. cbn. rewrite Z.add_0_r. reflexivity.
Qed.
