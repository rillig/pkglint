(* Proofs for C09 (Model/Lines.v against Spec/LinesSpec.v), part 1:
   the Go library functions, and the decomposition of a physical line. *)
From PV Require Import Lib.Bytes Lib.LinesLib Model.Lines Spec.LinesSpec.
Open Scope N_scope.

Lemma has_suffix_nil c : has_suffix [c] [] = false.
Proof. reflexivity. Qed.

Lemma has_suffix_snoc c s d : has_suffix [c] (s ++ [d]) = (c =? d).
Proof.
  unfold has_suffix, has_prefix. rewrite rev_app_distr. simpl.
  destruct (c =? d); reflexivity.
Qed.

Lemma orig_is_content r : orig r = content r.
Proof.
  unfold orig, trim_suffix, content, ends_nl, is_nl.
  destruct (list_snoc_cases r) as [->|[r' [c ->]]]; [reflexivity|].
  rewrite has_suffix_snoc, last_snoc, removelast_snoc. unfold nl.
  rewrite N.eqb_sym. destruct (c =? 10); [|reflexivity].
  apply (firstn_app_len r' [c]).
Qed.

Lemma trailing_count_snoc p s c :
  trailing_count p (s ++ [c]) = if p c then S (trailing_count p s) else O.
Proof. unfold trailing_count. rewrite fold_left_app. reflexivity. Qed.

Lemma count_back_snoc p s c :
  count_back p (s ++ [c]) = if p c then S (count_back p s) else O.
Proof.
  unfold count_back. rewrite rev_app_distr. simpl.
  destruct (p c); [|reflexivity]. destruct (span p (rev s)); reflexivity.
Qed.

Lemma trailing_count_is_count_back p s : trailing_count p s = count_back p s.
Proof.
  induction s as [|c s IH] using rev_ind; [reflexivity|].
  rewrite trailing_count_snoc, count_back_snoc, IH. reflexivity.
Qed.

Lemma no_backslash_suffix_count o :
  has_suffix [backslash] o = false -> trailing_count is_bs o = O.
Proof.
  destruct (list_snoc_cases o) as [->|[o' [c ->]]]; [reflexivity|].
  rewrite has_suffix_snoc, trailing_count_snoc. unfold is_bs, backslash.
  rewrite N.eqb_sym. intros ->. reflexivity.
Qed.

Definition last_not (p : N -> bool) (s : str) : Prop := head_not p (rev s).

Lemma last_not_app p a b : b <> [] -> last_not p (a ++ b) <-> last_not p b.
Proof.
  unfold last_not. rewrite rev_app_distr. intros Hb.
  destruct (rev b) eqn:E; [|reflexivity].
  apply (f_equal (@rev N)) in E. rewrite rev_involutive in E. contradiction.
Qed.

Lemma all_last_not p s : forallb p s = true -> last_not p s -> s = [].
Proof.
  destruct (list_snoc_cases s) as [->|[s' [c ->]]]; [reflexivity|].
  unfold last_not. rewrite forallb_app, rev_app_distr. simpl. intros H1 H2.
  rewrite H2, andb_false_r in H1. discriminate.
Qed.

Lemma count_back_app p x w :
  forallb p w = true -> last_not p x -> count_back p (x ++ w) = length w.
Proof.
  intros Hw Hx. unfold count_back.
  rewrite rev_app_distr, span_app_exact; [apply rev_length|rewrite forallb_rev; exact Hw|exact Hx].
Qed.

Lemma count_back_le p s : (count_back p s <= length s)%nat.
Proof. unfold count_back. rewrite <- (rev_length s), <- (span_length p (rev s)). lia. Qed.

Definition cont_of (o : str) : str := if Nat.odd (trailing_count is_bs o) then [92] else [].

(* decomp_ok, read as a proposition *)
Record decomp (o : str) (p : parts) : Prop := {
  d_eq : o = p_indent p ++ p_body p ++ p_outdent p ++ p_cont p;
  d_indent : forallb is_hspace (p_indent p) = true;
  d_outdent : forallb is_hspace (p_outdent p) = true;
  d_cont : p_cont p = cont_of o;
  d_head : head_not is_hspace (p_body p);
  d_last : last_not is_hspace (p_body p);
  d_empty : p_body p = [] -> p_indent p = [] }.

Lemma head_is_not p s : negb (head_is p s) = true <-> head_not p s.
Proof. destruct s as [|c s]; simpl; [tauto|]. destruct (p c); simpl; split; congruence. Qed.

Lemma last_is_not p s : negb (last_is p s) = true <-> last_not p s.
Proof. apply head_is_not. Qed.

Lemma nilb_true s : nilb s = true <-> s = [].
Proof. destruct s; simpl; split; congruence. Qed.

Lemma decomp_ok_iff o p : decomp_ok o p = true <-> decomp o p.
Proof.
  unfold decomp_ok. rewrite !andb_true_iff.
  rewrite str_eqb_spec, head_is_not, last_is_not, orb_true_iff, negb_true_iff, nilb_true.
  split.
  - intros [[[[[[H1 H2] H3] H4] H5] H6] H7]. split; try assumption.
    + unfold cont_of. destruct (Nat.odd _); [apply str_eqb_spec|apply nilb_true]; exact H4.
    + intros Hb. destruct H7 as [H7|H7]; [rewrite Hb in H7; discriminate|exact H7].
  - intros [H1 H2 H3 H4 H5 H6 H7]. repeat split; try assumption.
    + unfold cont_of in H4. destruct (Nat.odd _); [apply str_eqb_spec|apply nilb_true]; exact H4.
    + destruct (p_body p) eqn:E; [right; apply H7; reflexivity|left; reflexivity].
Qed.

Lemma decomp_stripped o p : decomp o p -> last_not is_hspace (p_indent p ++ p_body p).
Proof.
  intros D. destruct (p_body p) as [|c b] eqn:E.
  - rewrite (d_empty o p D E). exact I.
  - apply last_not_app; [discriminate|]. rewrite <- E. exact (d_last o p D).
Qed.

Lemma cont_of_length t : length (cont_of t) = Nat.modulo (count_back is_bs t) 2.
Proof.
  unfold cont_of. rewrite trailing_count_is_count_back, <- Nat.bit0_mod, Nat.bit0_odd.
  destruct (Nat.odd _); reflexivity.
Qed.

Lemma cont_of_suffix t : exists core, t = core ++ cont_of t.
Proof.
  unfold cont_of. destruct (Nat.odd (trailing_count is_bs t)) eqn:E.
  - destruct (list_snoc_cases t) as [->|[t' [c ->]]]; [discriminate|].
    rewrite trailing_count_snoc in E. destruct (is_bs c) eqn:Ec; [|discriminate].
    apply N.eqb_eq in Ec. subst c. exists t'. reflexivity.
  - exists t. symmetry. apply app_nil_r.
Qed.

(* Each of the three scans of matchContinuationLine stops where the next field of
   the decomposition begins; so a decomposition is what the function returns, and
   there is only one. *)
Theorem mcl_of_decomp o p : decomp o p ->
  match_continuation_line o = (p_indent p, p_body p, p_outdent p, p_cont p).
Proof.
  intros D. assert (Hx := decomp_stripped o p D).
  destruct p as [a b w c], D as [E Ha Hw Hc Hb _ _]. simpl in *.
  unfold match_continuation_line. cbv zeta. change is_backslash with is_bs.
  replace (length o - (length o - count_back is_bs o))%nat with (count_back is_bs o)
    by (assert (H := count_back_le is_bs o); lia).
  rewrite <- cont_of_length, <- Hc. clear Hc.
  rewrite !app_assoc in E. subst o.
  replace (length (((a ++ b) ++ w) ++ c) - length c)%nat with (length ((a ++ b) ++ w))
    by (rewrite (app_length (_ ++ w)); lia).
  rewrite firstn_app_exact, skipn_app_exact, (count_back_app _ _ _ Hw Hx).
  replace (length ((a ++ b) ++ w) - length w)%nat with (length (a ++ b))
    by (rewrite (app_length (a ++ b)); lia).
  rewrite skipn_app_exact, <- (app_assoc (a ++ b)), firstn_app_exact.
  rewrite (span_app_exact _ _ _ Ha Hb), skipn_app_exact, <- !app_assoc, firstn_app_exact.
  reflexivity.
Qed.

Theorem decomp_unique o p q : decomp o p -> decomp o q -> p = q.
Proof.
  intros Dp Dq. apply mcl_of_decomp in Dp, Dq. rewrite Dp in Dq.
  destruct p, q. simpl in Dq. congruence.
Qed.

Theorem decomp_ok_unique o p q : decomp_ok o p = true -> decomp_ok o q = true -> p = q.
Proof. rewrite !decomp_ok_iff. apply decomp_unique. Qed.

Lemma drop_while_end_spec p s :
  (exists w, s = drop_while_end p s ++ w /\ forallb p w = true) /\ last_not p (drop_while_end p s).
Proof.
  induction s as [|c s [[w [Hs Hw]] Hl]]; simpl.
  - split; [exists []; split; reflexivity|exact I].
  - destruct (drop_while_end p s) as [|d r] eqn:E.
    + simpl in Hs. subst w. destruct (p c) eqn:Ec; simpl.
      * split; [exists (c :: s); simpl; rewrite Ec, Hw; split; reflexivity|exact I].
      * split; [exists s; split; [reflexivity|exact Hw]|exact Ec].
    + rewrite andb_false_r. split.
      * exists w. split; [simpl; f_equal; exact Hs|exact Hw].
      * apply (last_not_app p [c]); [discriminate|exact Hl].
Qed.

Lemma spec_parts_decomp o : decomp o (spec_parts o).
Proof.
  unfold spec_parts. cbv zeta.
  change (if Nat.odd (trailing_count is_bs o) then [92] else []) with (cont_of o).
  destruct (cont_of_suffix o) as [core Ho]. remember (cont_of o) as c eqn:Hc.
  subst o. rewrite firstn_app_len.
  destruct (drop_while_end_spec is_hspace core) as [[w [Hs Hw]] Hl].
  set (st := drop_while_end is_hspace core) in *. clearbody st. subst core.
  rewrite skipn_app_exact.
  assert (Hab := span_app is_hspace st). assert (Ha := span_all is_hspace st).
  assert (Hb := span_rest_head_not is_hspace st).
  destruct (span is_hspace st) as [a b]. simpl in Hab, Ha, Hb. subst st.
  split; simpl.
  - rewrite <- !app_assoc. reflexivity.
  - exact Ha.
  - exact Hw.
  - exact Hc.
  - exact Hb.
  - destruct b; [exact I|]. apply (last_not_app _ a); [discriminate|exact Hl].
  - intros ->. rewrite app_nil_r in Hl. exact (all_last_not _ _ Ha Hl).
Qed.

Theorem spec_parts_ok o : decomp_ok o (spec_parts o) = true.
Proof. apply decomp_ok_iff, spec_parts_decomp. Qed.

Theorem mcl_is_spec_parts t :
  match_continuation_line t =
  (p_indent (spec_parts t), p_body (spec_parts t), p_outdent (spec_parts t), p_cont (spec_parts t)).
Proof. apply mcl_of_decomp, spec_parts_decomp. Qed.
