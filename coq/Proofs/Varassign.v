(* matchVarassign in two stages: the scan from tokenize to NewMkOperator (va_scan,
   independent of the raw lines) and the rest (va_guard, va_finish), each with one
   postcondition (va_scan_post, va_guard_post, va_finish_post); what comes before the tail is read once,
   in parse_varassign_ml_front.  What an accepting run has established
   (match_varassign_tail_accept, parse_varassign_ml_accept) is what the laws of this
   file, of VarassignFull.v and of MatchVarassign.v are derived from. *)
From PV Require Import Lib.Bytes Model.MkLexPrim Model.MkLexer Model.MkTokensLexer Model.MkLineSplit
  Model.VaralignSplit Model.MatchVarassign Spec.MkPartition Proofs.MkLineSplit Proofs.MkLexPrim Proofs.MkLexer.
From PV Require Lib.LinesLib.
From Coq Require Import ZifyBool ZifyN ZifyNat.
Open Scope N_scope.

Definition starts_nonblank (x : str) : Prop :=
  match x with [] => True | c :: _ => is_hspace c = false end.

Lemma span_app_all f b x : forallb f b = true ->
  span f (b ++ x) = (b ++ fst (span f x), snd (span f x)).
Proof.
  intro Hb. induction b as [|b0 b IH]; [cbn [app]; destruct (span f x); reflexivity|].
  cbn [forallb] in Hb. apply andb_true_iff in Hb as [H0 Hb].
  cbn [app span]. rewrite H0, (IH Hb). reflexivity.
Qed.

Lemma span_blanks_stop b x : forallb is_hspace b = true -> starts_nonblank x ->
  span is_hspace (b ++ x) = (b, x).
Proof. exact (LinesLib.span_app_exact is_hspace b x). Qed.

Lemma ltrim_blanks_app b x : forallb is_hspace b = true -> ltrim_hspace (b ++ x) = ltrim_hspace x.
Proof. intro Hb. unfold ltrim_hspace. rewrite (span_app_all _ _ _ Hb). reflexivity. Qed.

Lemma ltrim_ltrim_app y R : ltrim_hspace (ltrim_hspace y ++ R) = ltrim_hspace (y ++ R).
Proof.
  rewrite <- (span_app is_hspace y) at 2. rewrite <- app_assoc.
  symmetry. apply ltrim_blanks_app, span_all.
Qed.

Lemma rtrim_app x y :
  rtrim_hspace (x ++ y) = match rtrim_hspace y with [] => rtrim_hspace x | y' => x ++ y' end.
Proof.
  induction x as [|c x IH]; [cbn [app]; destruct (rtrim_hspace y); reflexivity|].
  cbn [app rtrim_hspace]. rewrite IH. destruct (rtrim_hspace y); [reflexivity|].
  destruct x; reflexivity.
Qed.

Lemma rtrim_all_blanks b : forallb is_hspace b = true -> rtrim_hspace b = [].
Proof.
  induction b as [|c b IH]; intro H; [reflexivity|].
  cbn [forallb] in H. apply andb_true_iff in H as [Hc Hb].
  cbn [rtrim_hspace]. rewrite (IH Hb), Hc. reflexivity.
Qed.

Lemma rtrim_idem s : rtrim_hspace (rtrim_hspace s) = rtrim_hspace s.
Proof.
  destruct (rtrim_hspace_app s) as (sp & E & B). apply (f_equal rtrim_hspace) in E.
  rewrite rtrim_app, (rtrim_all_blanks sp B) in E. symmetry. exact E.
Qed.

Lemma rtrim_fixed_tail a y : rtrim_hspace (a :: y) = a :: y -> rtrim_hspace y = y.
Proof.
  cbn [rtrim_hspace]. destruct (rtrim_hspace y) as [|x t'] eqn:R.
  - destruct (is_hspace a); intro H; inversion H; reflexivity.
  - intro H; inversion H; reflexivity.
Qed.

Lemma rtrim_suffix_fixed m x : rtrim_hspace m = m -> is_suffix x m -> rtrim_hspace x = x.
Proof.
  intros Hm (c & ->). induction c as [|a c IH]; [exact Hm|].
  apply IH. apply (rtrim_fixed_tail a). exact Hm.
Qed.

Lemma skip_spaces_suffix s : is_suffix (skip_spaces s) s.
Proof.
  induction s as [|c t IH]; [apply is_suffix_refl|].
  cbn [skip_spaces]. destruct (c =? 32); [|apply is_suffix_refl].
  eapply is_suffix_trans; [exact IH|apply is_suffix_cons].
Qed.

Lemma skip_spaces_app t R : match R with [] => True | c :: _ => c <> 32 end ->
  skip_spaces (t ++ R) = skip_spaces t ++ R.
Proof.
  intro HR. induction t as [|c t IH].
  - destruct R as [|c R']; [reflexivity|]. cbn [app skip_spaces].
    destruct (N.eqb_spec c 32); [contradiction|reflexivity].
  - cbn [app skip_spaces]. destruct (c =? 32); [exact IH|reflexivity].
Qed.

(* the text that matchVarassign hands to Varname *)
Lemma lexer1_rest (commented : bool) main toks : tokenize main = Ok toks ->
  tl_rest (if commented then tl_new toks else tl_lift skip_spaces (tl_new toks)) =
  (if commented then main else skip_spaces main).
Proof.
  intro Ht. destruct (tokenize_partition main) as (toks' & Et & P & _). rewrite Ht in Et.
  injection Et as <-. rewrite app_nil_r in P.
  destruct commented; [rewrite tl_rest_new; exact P|].
  destruct toks as [|[t k] rest]; [simpl in P; subst main; reflexivity|].
  pose proof (tokenize_first _ _ _ _ Ht) as F. destruct k.
  - destruct F as (s' & ->).
    unfold tl_new, tl_next, tl_lift, tl_rest. cbn [fst snd skip_spaces app].
    change (36 =? 32) with false. cbn iota. exact P.
  - unfold tl_new, tl_next, tl_lift, tl_rest. cbn [fst snd].
    rewrite <- P. cbn [map concat fst]. symmetry. apply skip_spaces_app.
    destruct (concat (map fst rest)) as [|c R]; [exact I|]. simpl in F. subst c. discriminate.
Qed.

(* the value: main is trimmed on the right, so is every suffix of it *)
Lemma tl_value_after (m : tlexer) main : rtrim_hspace main = main -> is_suffix (tl_rest m) main ->
  trim_hspace (tl_rest (tl_lift (fun s => snd (next_bytes is_hspace s)) m)) = ltrim_hspace (tl_rest m).
Proof.
  intros Hm S. unfold trim_hspace.
  change (tl_rest (tl_lift _ m)) with (ltrim_hspace (fst m) ++ concat (map fst (snd m))).
  rewrite ltrim_ltrim_app. apply (rtrim_suffix_fixed main); [exact Hm|].
  eapply is_suffix_trans; [|exact S]. apply next_bytes_suffix.
Qed.

(* the operator that matchVarassign finds in the current text token is the one that
   MkParser.Op finds in the whole rest *)
Lemma op_in_cur cur3 cur5 :
  skip_byte 61 (match cur3 with
                | c :: t => if (c =? 33) || (c =? 43) || (c =? 58) || (c =? 63) then t else cur3
                | [] => cur3
                end) = Some cur5 ->
  exists o, cur3 = o ++ 61 :: cur5 /\
    starts_nonblank cur3 /\
    forall R, mk_op (cur3 ++ R) = Some (cur5 ++ R).
Proof.
  destruct cur3 as [|c t]; [discriminate|].
  destruct (N.eqb_spec c 33) as [->|N1];
    [|destruct (N.eqb_spec c 43) as [->|N2];
      [|destruct (N.eqb_spec c 58) as [->|N3]; [|destruct (N.eqb_spec c 63) as [->|N4]]]];
    cbn [orb]; intro H; apply skip_byte_some in H.
  1-4: subst t; eexists [_]; split; [reflexivity|split; [reflexivity|intro; reflexivity]].
  inversion H; subst. exists []. split; [reflexivity|split; [reflexivity|intro; reflexivity]].
Qed.

(* what the scan has found: the lexer at mainStart, the variable name, the blanks
   after it, the operator text, the lexer behind the operator *)
Definition va_found : Type := (tlexer * str * str * str * tlexer)%type.

(* matchVarassign from tokenize to NewMkOperator; None: no assignment *)
Definition va_scan (commented : bool) (main : str) : res (option va_found) :=
  toks <- tokenize main ;;
  let lexer0 := tl_new toks in
  let lexer1 := if commented then lexer0 else tl_lift skip_spaces lexer0 in
  let rest1 := tl_rest lexer1 in
  '(vname, mkrest) <- Varname rest1 ;;
  lexer2 <- tl_skip_mixed (S (length rest1))
              (Z.of_nat (length rest1) - Z.of_nat (length mkrest))%Z lexer1 ;;
  match vname with
  | [] => Ok None
  | _ =>
    let '(space_after_varname, cur3) := next_bytes is_hspace (fst lexer2) in
    let cur4 := match cur3 with
                | c :: t => if (c =? 33) || (c =? 43) || (c =? 58) || (c =? 63) then t else cur3
                | [] => cur3
                end in
    match skip_byte 61 cur4 with
    | None => Ok None
    | Some cur5 =>
      let op0 := tl_since (cur3, snd lexer2) (cur5, snd lexer2) in
      if negb (existsb (str_eqb op0) [[61]; [33; 61]; [58; 61]; [43; 61]; [63; 61]]) then Panic
      else Ok (Some (lexer0, vname, space_after_varname, op0, (cur5, snd lexer2)))
    end
  end.

(* the check that the operator ends in the first physical line *)
Definition va_guard (multiline : bool) (raw0 text : str) (commented : bool) (h : va_found) : res bool :=
  let '(lexer0, _, _, _, lexer5) := h in
  if multiline then
    up_to_op <- get_raw_value_align text ((if commented then [35] else []) ++ tl_since lexer0 lexer5) ;;
    Ok (length (first_line_of raw0) <? length up_to_op)%nat
  else Ok false.

Definition va_finish (raw0 : str) (commented : bool) (sr : split_result) (h : va_found)
    : res (option varassign) :=
  let '(lexer0, vname, space_after_varname, op0, lexer5) := h in
  let '(vname', op) :=
    if has_suffix [43] vname && str_eqb op0 [61] && negb (nonempty space_after_varname)
    then (firstn (length vname - 1) vname, [43; 61])
    else (vname, op0) in
  let lexer6 := tl_lift (fun s => snd (next_bytes is_hspace s)) lexer5 in
  let value := trim_hspace (tl_rest lexer6) in
  let parsed_value_align := (if commented then [35] else []) ++ tl_since lexer0 lexer6 in
  align <- get_raw_value_align raw0 parsed_value_align ;;
  let '(align', sr') :=
    match value with
    | [] => (align ++ sr_space_before_comment sr,
             mk_split (sr_main sr) [] (sr_has_comment sr) (sr_comment sr))
    | _ => (align, sr)
    end in
  Ok (Some (mk_varassign commented vname' space_after_varname op value align' sr')).

Lemma match_varassign_tail_ml_stages ml raw0 text c sr :
  match_varassign_tail_ml ml raw0 text c sr =
  (h <- va_scan c (sr_main sr) ;;
   match h with
   | Some h => rejected <- va_guard ml raw0 text c h ;;
               if rejected : bool then Ok None else va_finish raw0 c sr h
   | None => Ok None
   end).
Proof.
  unfold match_varassign_tail_ml, va_scan.
  destruct (tokenize (sr_main sr)); try reflexivity. cbn [bind]. cbv zeta.
  destruct (Varname _) as [[vname mkrest]| |]; try reflexivity. cbn [bind].
  destruct (tl_skip_mixed _ _ _) as [lexer2| |]; try reflexivity. cbn [bind].
  destruct vname; [reflexivity|].
  destruct (next_bytes is_hspace (fst lexer2)) as [sav cur3].
  match goal with |- context [skip_byte 61 ?c4] => destruct (skip_byte 61 c4) end; [|reflexivity].
  match goal with |- (if ?b then _ else _) = _ => destruct b end; reflexivity.
Qed.

Lemma match_varassign_tail_stages c text sr :
  match_varassign_tail c text sr =
  (h <- va_scan c (sr_main sr) ;;
   match h with Some h => va_finish text c sr h | None => Ok None end).
Proof.
  change (match_varassign_tail c text sr) with (match_varassign_tail_ml false text text c sr).
  rewrite match_varassign_tail_ml_stages.
  destruct (va_scan c (sr_main sr)) as [[[[[[l0 v] sav] op0] l5]|]| |]; reflexivity.
Qed.

Lemma tl_next_Forall (P : token -> Prop) toks : Forall P toks -> Forall P (snd (tl_next toks)).
Proof.
  intro H. unfold tl_next. destruct toks as [|[t [|]] rest]; cbn [snd]; try exact H. inversion H; assumption.
Qed.

Lemma tl_skip_mixed_fuel : forall fuel k m,
  Forall (fun t : token => fst t <> []) (snd m) -> (k < Z.of_nat fuel)%Z -> (0 < fuel)%nat ->
  tl_skip_mixed fuel k m <> OutOfFuel.
Proof.
  induction fuel as [|f IH]; intros k m Hne Hk H0.
  - lia.
  - cbn [tl_skip_mixed]. destruct (Z.leb_spec k 0); [discriminate|].
    destruct (tl_next_expr m) as [[[text e] m1]|] eqn:En.
    + destruct (Z.ltb_spec (k - Z.of_nat (length text)) 0); [discriminate|].
      unfold tl_next_expr in En. destruct m as [[|c cur] [|[text0 [|]] rest]]; try discriminate.
      inversion En; subst. cbn [snd] in Hne. inversion Hne as [|? ? Hx Hrest]; subst.
      apply IH.
      * exact (tl_next_Forall _ _ Hrest).
      * cbn [fst] in Hx. destruct text; [congruence|]. simpl length. lia.
      * lia.
    + destruct (Z.leb_spec (Z.min (Z.of_nat (length (fst m))) k) 0); [discriminate|].
      apply IH; [exact Hne|lia|lia].
Qed.

Lemma va_scan_post c main :
  match va_scan c main with
  | Ok (Some (lexer0, vname, sav, op0, lexer5)) =>
    exists m1 A,
      tl_rest lexer0 = main /\ main = A ++ 61 :: tl_rest lexer5 /\ vname <> [] /\
      Varname (if c then main else skip_spaces main) = Ok (vname, m1) /\
      mk_op (ltrim_hspace m1) = Some (tl_rest lexer5)
  | OutOfFuel => False
  | _ => True
  end.
Proof.
  unfold va_scan. destruct (tokenize_partition main) as (toks & Et & _ & Pne). rewrite Et. cbn [bind]. cbv zeta.
  pose proof (lexer1_rest c main toks Et) as HM.
  set (lexer1 := if c then tl_new toks else tl_lift skip_spaces (tl_new toks)) in *.
  set (M := if c then main else skip_spaces main) in *.
  assert (SM : is_suffix M main).
  { unfold M. destruct c; [apply is_suffix_refl|apply skip_spaces_suffix]. }
  assert (Hne : Forall (fun t : token => fst t <> []) (snd lexer1))
    by (unfold lexer1; destruct c; exact (tl_next_Forall _ _ Pne)).
  destruct (varname_partition M) as (v & mkrest & Ev & Hv).
  rewrite HM, Ev. cbn [bind].
  pose proof (tl_skip_mixed_fuel (S (length M)) (Z.of_nat (length M) - Z.of_nat (length mkrest))%Z
                lexer1 Hne ltac:(lia) ltac:(lia)) as F2.
  destruct (tl_skip_mixed _ _ lexer1) as [lexer2| |] eqn:E2; cbn [bind]; [|congruence|exact I].
  rewrite <- HM in E2. apply (tl_skip_mixed_to _ _ _ v) in E2; [|rewrite HM; symmetry; exact Hv].
  destruct v as [|v0 v]; [exact I|].
  destruct (next_bytes is_hspace (fst lexer2)) as [sav cur3] eqn:E3.
  match goal with |- context [skip_byte 61 ?c4] => destruct (skip_byte 61 c4) as [cur5|] eqn:E5 end; [|exact I].
  match goal with |- context [if ?b then Panic else _] => destruct b; [exact I|] end.
  destruct (op_in_cur cur3 cur5 E5) as (o & Ho & Hhead & Hop).
  set (R2 := concat (map fst (snd lexer2))).
  assert (Bsav : forallb is_hspace sav = true).
  { pose proof (span_all is_hspace (fst lexer2)) as B. unfold next_bytes in E3. rewrite E3 in B. exact B. }
  assert (Hm1 : mkrest = sav ++ cur3 ++ R2).
  { rewrite <- E2. unfold tl_rest. fold R2.
    rewrite (next_bytes_eq _ _ _ _ E3), <- app_assoc. reflexivity. }
  exists mkrest. destruct SM as (B & HB).
  exists (B ++ (v0 :: v) ++ sav ++ o).
  split; [exact (lexer1_rest true main toks Et)|]. change (tl_rest (cur5, snd lexer2)) with (cur5 ++ R2).
  split; [rewrite HB, <- Hv, Hm1, Ho, <- !app_assoc; reflexivity|].
  split; [discriminate|]. split; [reflexivity|].
  unfold ltrim_hspace. rewrite Hm1, span_blanks_stop; [apply Hop|exact Bsav|].
  destruct cur3; [discriminate E5|exact Hhead].
Qed.

(* the only assert is that of getRawValueAlign; the premises: lexer5 stands in the main
   part, which has no trailing blanks *)
Lemma va_finish_post raw0 c sr lexer0 vname sav op0 lexer5 :
  match va_finish raw0 c sr (lexer0, vname, sav, op0, lexer5) with
  | Ok (Some a) =>
    rtrim_hspace (sr_main sr) = sr_main sr -> is_suffix (tl_rest lexer5) (sr_main sr) ->
    exists vname' op al r,
      raw0 = al ++ r /\
      a = (let value := ltrim_hspace (tl_rest lexer5) in
           mk_varassign c vname' sav op value
             (match value with [] => al ++ sr_space_before_comment sr | _ => al end)
             (match value with
              | [] => mk_split (sr_main sr) [] (sr_has_comment sr) (sr_comment sr)
              | _ => sr
              end))
  | Panic => True
  | _ => False
  end.
Proof.
  unfold va_finish.
  match goal with |- context [let '(_, _) := ?b in _] => destruct b as [vname' op] end.
  match goal with |- context [get_raw_value_align ?x ?p] =>
    pose proof (get_raw_value_align_post x p) as P; destruct (get_raw_value_align x p) as [al| |] end;
    cbn [bind]; [|exact P|exact I].
  destruct P as (r & Hr).
  destruct (trim_hspace _) as [|x val] eqn:Ev; intros Hm S5;
    rewrite (tl_value_after lexer5 (sr_main sr) Hm S5) in Ev;
    exists vname', op, al, r; (split; [exact Hr|]); rewrite Ev; reflexivity.
Qed.

Lemma va_guard_post ml raw0 text c h : va_guard ml raw0 text c h = Ok false -> ml = true ->
  exists up_to_op r', text = up_to_op ++ r' /\ (length up_to_op <= length (first_line_of raw0))%nat.
Proof.
  destruct h as [[[[lexer0 vname] sav] op0] lexer5]. intros G ->. cbn [va_guard] in G.
  match type of G with context [get_raw_value_align text ?p] =>
    pose proof (get_raw_value_align_post text p) as P; destruct (get_raw_value_align text p) as [up| |] end;
    cbn [bind] in G; try discriminate.
  destruct P as (r' & Hr'). exists up, r'. split; [exact Hr'|].
  injection G as G. apply Nat.ltb_ge in G. exact G.
Qed.

Lemma match_varassign_tail_accept ml raw0 text c T sr a :
  split T true = Ok sr -> match_varassign_tail_ml ml raw0 text c sr = Ok (Some a) ->
  exists vname m1 m3 A vname' sav op al r,
    Varname (if c then sr_main sr else skip_spaces (sr_main sr)) = Ok (vname, m1) /\ vname <> [] /\
    mk_op (ltrim_hspace m1) = Some m3 /\ sr_main sr = A ++ 61 :: m3 /\
    raw0 = al ++ r /\
    a = (let value := ltrim_hspace m3 in
         mk_varassign c vname' sav op value
           (match value with [] => al ++ sr_space_before_comment sr | _ => al end)
           (match value with
            | [] => mk_split (sr_main sr) [] (sr_has_comment sr) (sr_comment sr)
            | _ => sr
            end)) /\
    (ml = true -> exists up_to_op r', text = up_to_op ++ r' /\
                    (length up_to_op <= length (first_line_of raw0))%nat).
Proof.
  intros Hs H. rewrite match_varassign_tail_ml_stages in H.
  pose proof (va_scan_post c (sr_main sr)) as P.
  destruct (va_scan c (sr_main sr)) as [[[[[[lexer0 vname] sav] op0] lexer5]|]| |];
    cbn [bind] in H; try discriminate.
  destruct P as (m1 & A & _ & HA & Hne & Hv & Hop).
  destruct (split_recombines _ _ _ Hs) as (pre & _ & _ & _ & Hrt & _).
  assert (Hm : rtrim_hspace (sr_main sr) = sr_main sr) by (rewrite <- Hrt at 1; rewrite rtrim_idem; exact Hrt).
  pose proof (va_guard_post ml raw0 text c (lexer0, vname, sav, op0, lexer5)) as Hg.
  destruct (va_guard ml raw0 text c _) as [[|]| |]; cbn [bind] in H; try discriminate.
  specialize (Hg eq_refl).
  pose proof (va_finish_post raw0 c sr lexer0 vname sav op0 lexer5) as P. rewrite H in P.
  destruct (P Hm ltac:(exists (A ++ [61]); rewrite <- app_assoc; exact HA)) as (vname' & op & al & r & Hr & Ha).
  exists vname, m1, (tl_rest lexer5), A, vname', sav, op, al, r. eauto 10.
Qed.

(* matchVarassign before the tail: whether the line is a commented assignment, and the split
   the tail works on; the raw lines play no part *)
Lemma parse_varassign_ml_front text :
  (forall ml raw0, parse_varassign_ml ml raw0 text = Ok None) \/
  (forall ml raw0, parse_varassign_ml ml raw0 text = Panic) \/
  exists (c : bool) T sr, split T true = Ok sr /\ text = (if c then [35] else []) ++ T /\
    (if c then match T with [] => False | x :: _ => is_hspace x = false end
     else forall t, text <> 35 :: t) /\
    forall ml raw0, parse_varassign_ml ml raw0 text = match_varassign_tail_ml ml raw0 text c sr.
Proof.
  unfold parse_varassign_ml, match_varassign_ml. pose proof (split_fuel text true) as F1.
  destruct (split text true) as [first| |] eqn:E1; cbn [bind]; [|congruence|auto].
  destruct (negb (nonempty (sr_main first)) && sr_has_comment first && has_prefix [35] text) eqn:C.
  - apply andb_true_iff in C as [C Hp]. apply has_prefix_app in Hp as (t1 & ->). cbn [app].
    apply split_comment_line in E1. subst first. cbn [sr_comment].
    destruct (next_bytes is_hspace t1) as [hs crest] eqn:Ehs.
    destruct (nonempty hs || negb (nonempty crest)) eqn:Cond; [auto|].
    apply orb_false_iff in Cond as [Chs Ccr]. destruct hs; [|discriminate].
    pose proof (span_rest_head is_hspace t1) as Hhead. unfold next_bytes in Ehs.
    pose proof (span_app is_hspace t1) as A. rewrite Ehs in A, Hhead. cbn [fst snd app] in A, Hhead. subst crest.
    rewrite skip_ok by (simpl; lia). cbn [bind skipn]. pose proof (split_fuel t1 true) as F2.
    destruct (split t1 true) as [sr| |] eqn:E2; cbn [bind]; [|congruence|auto].
    right. right. exists true, t1, sr. repeat split; auto. destruct t1; [discriminate|exact Hhead].
  - right. right. exists false, text, first. repeat split; auto.
    intros t ->. apply split_comment_line in E1. subst first. discriminate C.
Qed.

Lemma parse_varassign_ml_accept ml raw0 text a :
  parse_varassign_ml ml raw0 text = Ok (Some a) ->
  exists (c : bool) T sr, split T true = Ok sr /\ text = (if c then [35] else []) ++ T /\
    match_varassign_tail_ml ml raw0 text c sr = Ok (Some a) /\
    (if c then match T with [] => False | x :: _ => is_hspace x = false end
     else forall t, text <> 35 :: t).
Proof.
  destruct (parse_varassign_ml_front text) as [E|[E|(c & T & sr & Hs & Ht & Hc & E)]]; rewrite E; try discriminate.
  intro Hm. exists c, T, sr. auto.
Qed.

Definition va_law (text : str) (a : varassign) : Prop :=
  exists head pre sp,
    text = (if va_commented a then [35] else []) ++ pre ++ comment_tail (va_split a) /\
    unescape_hash pre = head ++ va_value a ++ sp /\
    sr_main (va_split a) = head ++ va_value a /\
    forallb is_hspace sp = true /\
    (va_value a <> [] -> sp = sr_space_before_comment (va_split a)).

(* C10mk: the law does not depend on the raw lines *)
Lemma varassign_ml_value_comment_recombine ml raw0 text a :
  parse_varassign_ml ml raw0 text = Ok (Some a) -> va_law text a.
Proof.
  intro H. destruct (parse_varassign_ml_accept _ _ _ _ H) as (c & T & sr & Hs & Ht & Hm & _).
  destruct (match_varassign_tail_accept _ _ _ _ _ _ _ Hs Hm)
    as (vname & m1 & m3 & A & vname' & sav & op & al & r & _ & _ & _ & HA & _ & Ha & _).
  destruct (split_recombines _ _ _ Hs) as (pre & B1 & B2 & B3 & _).
  exists (A ++ 61 :: fst (span is_hspace m3)), pre, (sr_space_before_comment sr).
  assert (Hmain : sr_main sr = (A ++ 61 :: fst (span is_hspace m3)) ++ ltrim_hspace m3).
  { rewrite HA, <- (span_app is_hspace m3) at 1. rewrite <- app_assoc. reflexivity. }
  subst a. cbv zeta. destruct (ltrim_hspace m3) as [|x v] eqn:Ev; cbn;
    (split; [rewrite Ht, B1; reflexivity|]); (split; [rewrite B2, Hmain, <- app_assoc; reflexivity|]);
    (split; [exact Hmain|]); (split; [exact B3|]); congruence.
Qed.

Lemma varassign_value_comment_recombine text a : parse_varassign text = Ok (Some a) -> va_law text a.
Proof. exact (varassign_ml_value_comment_recombine false text text a). Qed.

Lemma match_varassign_tail_fuel commented text sr :
  match_varassign_tail commented text sr <> OutOfFuel.
Proof.
  rewrite match_varassign_tail_stages. pose proof (va_scan_post commented (sr_main sr)) as F.
  destruct (va_scan commented (sr_main sr)) as [[[[[[lexer0 vname] sav] op0] lexer5]|]| |]; cbn [bind];
    [|discriminate|contradiction|discriminate].
  pose proof (va_finish_post text commented sr lexer0 vname sav op0 lexer5) as P. intro E. rewrite E in P. exact P.
Qed.

Lemma varassign_fuel text : parse_varassign text <> OutOfFuel.
Proof.
  change (parse_varassign text) with (parse_varassign_ml false text text).
  destruct (parse_varassign_ml_front text) as [E|[E|(c & T & sr & _ & _ & _ & E)]]; rewrite E; try discriminate.
  exact (match_varassign_tail_fuel c text sr).
Qed.
