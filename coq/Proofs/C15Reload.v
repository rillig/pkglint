(* C15 x C09: re-loading a makefile after a layout fix.

   The loader model of C09 (Model/Lines.v, convert_to_logical_lines in makefile
   mode) groups the physical lines of a file into logical lines: a physical line
   whose content ends in an odd number of backslashes is continued by the next
   one.  A layout fix rewrites physical lines; "the line structure is the same
   before and after" means: the file that is written back, loaded again, has the
   same number of logical lines and each of them has the physical lines the fix
   made of the old ones.

   reload_same_grouping is generic: any rewriting of the physical lines, logical
   line by logical line, that keeps for every physical line (a) whether it asks
   for a continuation, (b) whether it ends in a line feed, (c) that it is a
   physical line at all (not empty, a line feed only at the end), keeps the
   grouping.  It is instantiated with the trailing-whitespace fix (as repaired in
   /repo a0c5e27), the directive re-indentation and the shell-tab normalisation
   of Model/LayoutFix.v, for ALL file texts.  The old trailing-whitespace fix
   (trim regardless of a backslash) stands at the end, only as the
   counterexample. *)
From PV Require Import Lib.Bytes Model.Lines Spec.LinesSpec
  Proofs.Lines Proofs.LinesLoop Proofs.LinesComplete.
From PV Require Model.Tabs Model.Varalign Model.LayoutFix Proofs.Tabs Proofs.VaralignBlanks Proofs.LayoutFix.
Open Scope N_scope.

Definition same_cont (r r' : str) : Prop :=
  continues r' = continues r /\ ends_nl r' = ends_nl r /\ raw_ok r' = true.

Lemma group_ok_same b g g' : Forall2 same_cont g g' -> group_ok b g = true -> group_ok b g' = true.
Proof.
  induction 1 as [|r r' g g' (C & _) HF IH]; [trivial|].
  destruct HF; cbn [group_ok] in *; rewrite C; [trivial|].
  intros [-> G]%andb_true_iff. exact (IH G).
Qed.

Lemma valid_raws_same L L' : Forall2 same_cont L L' -> valid_raws L -> valid_raws L'.
Proof.
  unfold valid_raws. induction 1 as [|r r' L L' (_ & E & K) HF IH]; [trivial|].
  cbn [forallb]. rewrite K. intros [[_ A]%andb_true_iff B].
  destruct HF; [auto|]. cbn [all_but_last] in B |- *. rewrite E.
  apply andb_true_iff in B as [-> B]. exact (IH (conj A B)).
Qed.

Lemma Forall2_flat_map {A B C} (R : B -> C -> Prop) (f : A -> list B) (g : A -> list C) l :
  (forall a, In a l -> Forall2 R (f a) (g a)) -> Forall2 R (flat_map f l) (flat_map g l).
Proof.
  induction l as [|a l IH]; intros H; [constructor|]. cbn [flat_map].
  apply Forall2_app; [|apply IH]; auto using in_eq, in_cons.
Qed.

Section Generic.
  Variable F : line -> list str.

  Definition fixed_obs (l : line) : obs_line := (lineno l, text l, F l).

  Lemma fixed_grouping ls : (forall l, In l ls -> Forall2 same_cont (raws l) (F l)) ->
    grouping_mk (map obs ls) = true -> grouping_mk (map fixed_obs ls) = true.
  Proof.
    induction ls as [|l ls IH]; intros H; [trivial|]. cbn [map grouping_mk].
    intros [G1 G2]%andb_true_iff. apply andb_true_iff. split; [|auto using in_cons].
    apply (group_ok_same _ (raws l)); [apply H, in_eq|]. destruct ls; exact G1.
  Qed.

  Theorem reload_same_grouping s ls e :
    convert_to_logical_lines s true = Ok (ls, e) ->
    (forall l, In l ls -> Forall2 same_cont (raws l) (F l)) ->
    exists ls' e',
      convert_to_logical_lines (concat (flat_map F ls)) true = Ok (ls', e')
      /\ map raws ls' = map F ls.
  Proof.
    intros Hc HF.
    assert (V : valid_raws (flat_map F ls)).
    { apply (valid_raws_same (flat_map raws ls)); [apply Forall2_flat_map, HF|].
      rewrite (raws_are_raw_lines _ _ _ _ Hc). apply raw_lines_shape. }
    destruct (convert_spec (concat (flat_map F ls)) true) as (ls' & E' & R' & _ & G' & _).
    exists ls', (eof_flag (concat (flat_map F ls))). split; [exact E'|].
    (* the loader cuts the new text into the new physical lines, and these can be grouped in one way only *)
    rewrite (valid_raws_split _ V) in R'.
    pose proof (fixed_grouping ls HF (grouping_exact _ _ _ _ Hc)) as G.
    apply (grouping_mk_unique _ _ G') in G.
    - rewrite !map_map in G. exact G.
    - rewrite map_obs_raws, R'. unfold all_raws. rewrite !flat_map_concat_map, map_map. reflexivity.
  Qed.
End Generic.

Lemma same_raws_counts (F : line -> list str) ls ls' : map raws ls' = map F ls ->
  (forall l, In l ls -> length (F l) = length (raws l)) ->
  length ls' = length ls /\
  map (fun l => length (raws l)) ls' = map (fun l => length (raws l)) ls.
Proof.
  intros M HL. split.
  - apply (f_equal (@length _)) in M. rewrite !map_length in M. exact M.
  - apply (f_equal (map (@length str))) in M. rewrite !map_map in M. rewrite M.
    apply map_ext_in, HL.
Qed.

Lemma loaded_raws_ok s mk ls e l : convert_to_logical_lines s mk = Ok (ls, e) -> In l ls ->
  Forall (fun r => raw_ok r = true) (raws l).
Proof.
  intros Hc Hl. apply Forall_forall. intros r Hr.
  destruct (raw_lines_shape s) as [A _]. rewrite <- (raws_are_raw_lines _ _ _ _ Hc), forallb_forall in A.
  apply A, in_flat_map. eauto.
Qed.

Definition nlpart (r : str) : str := if ends_nl r then [10] else [].

Lemma raw_ok_split r : raw_ok r = true -> r = content r ++ nlpart r /\ nlfree (content r).
Proof.
  intros H. unfold content, nlpart.
  destruct (raw_ok_cases r H) as [(-> & a & -> & Ha)|(-> & Hr & _)].
  - rewrite removelast_last. auto.
  - rewrite app_nil_r. auto.
Qed.

Lemma last_app_nonempty (a b : str) d : b <> [] -> last (a ++ b) d = last b d.
Proof.
  intros Hb. destruct b as [|x b _] using rev_ind; [congruence|].
  rewrite app_assoc, !last_last. reflexivity.
Qed.

Lemma nlfree_app a b : nlfree (a ++ b) <-> nlfree a /\ nlfree b.
Proof. unfold nlfree. rewrite existsb_app, orb_false_iff. reflexivity. Qed.

Lemma nlfree_ends_nl c : nlfree c -> ends_nl c = false.
Proof.
  unfold ends_nl. destruct c as [|x c _] using rev_ind; [reflexivity|].
  rewrite last_last. intros [_ H]%nlfree_app. apply orb_false_iff in H as [H _]. exact H.
Qed.

(* c may take the place of the content of r: put in front of r's line feed it gives a physical
   line that continues, and ends in a line feed, exactly when r does *)
Definition fits (r c : str) : Prop := same_cont r (c ++ nlpart r).

Lemma fits_intro r c : nlfree c -> Nat.odd (trailing_count is_bs c) = continues r ->
  (c <> [] \/ ends_nl r = true) -> fits r c.
Proof.
  intros Hn Hc Hne. unfold fits, same_cont. rewrite <- Hc.
  unfold continues, content, raw_ok, nlpart.
  destruct (ends_nl r).
  - unfold ends_nl. rewrite last_last, removelast_last. unfold nlfree in Hn. rewrite Hn.
    destruct c; auto.
  - rewrite app_nil_r, (nlfree_ends_nl c Hn), (existsb_removelast _ _ Hn).
    destruct Hne as [Hne|]; [|discriminate]. destruct c; [congruence|auto].
Qed.

Lemma same_cont_refl_all rs : Forall (fun r => raw_ok r = true) rs -> Forall2 same_cont rs rs.
Proof. induction 1; constructor; [repeat split|]; assumption. Qed.

Lemma fits_refl r : raw_ok r = true -> fits r (content r).
Proof. intros H. unfold fits. rewrite <- (proj1 (raw_ok_split r H)). repeat split. exact H. Qed.

Lemma trailing_count_nil p : trailing_count p [] = 0%nat. Proof. reflexivity. Qed.

Lemma trailing_count_app p a b :
  trailing_count p (a ++ b) =
  if forallb p b then (trailing_count p a + length b)%nat else trailing_count p b.
Proof.
  induction b as [|c b IH] using rev_ind; [rewrite app_nil_r; simpl; lia|].
  rewrite app_assoc, !trailing_count_snoc, forallb_app, IH, app_length. cbn [forallb length].
  destruct (p c); [|rewrite andb_false_r; reflexivity]. rewrite andb_true_r.
  destruct (forallb p b); lia.
Qed.

Lemma fits_prefix_change r a a' rest : raw_ok r = true -> content r = a ++ rest ->
  trailing_count is_bs a = 0%nat -> trailing_count is_bs a' = 0%nat -> nlfree a' -> a' <> [] ->
  fits r (a' ++ rest).
Proof.
  intros Hr E Ha Ha' Hn Hne. destruct (raw_ok_split r Hr) as [_ Hc].
  rewrite E in Hc. apply nlfree_app in Hc as [_ Hc]. apply fits_intro.
  - apply nlfree_app. auto.
  - unfold continues. rewrite E, !trailing_count_app, Ha, Ha'. reflexivity.
  - left. destruct a'; [congruence|discriminate].
Qed.

Import Model.Tabs Model.LayoutFix Proofs.LayoutFix.
Open Scope N_scope.

Lemma blank_end_count t b : blankb b = true ->
  trailing_count is_bs t = 0%nat -> trailing_count is_bs (t ++ b) = 0%nat.
Proof.
  intros B Ht. destruct b as [|x b _] using rev_ind; [rewrite app_nil_r; exact Ht|].
  rewrite app_assoc, trailing_count_snoc.
  apply Proofs.Tabs.blankb_last, Proofs.Tabs.is_hspace_iff in B as [->| ->]; reflexivity.
Qed.

Lemma nlfree_blank b : blankb b = true -> nlfree b.
Proof.
  unfold nlfree, blankb. induction b as [|c b IH]; [reflexivity|]. cbn [forallb existsb].
  intros [Hc Hb]%andb_true_iff. rewrite (IH Hb).
  apply Proofs.Tabs.is_hspace_iff in Hc as [->| ->]; reflexivity.
Qed.

Definition refit_list (cs' : list str) (rs : list str) : list str :=
  map (fun p => fst p ++ nlpart (snd p)) (combine cs' rs).

Lemma refit_list_same rs cs' : Forall2 fits rs cs' -> Forall2 same_cont rs (refit_list cs' rs).
Proof. unfold refit_list. induction 1; constructor; assumption. Qed.

(* the fix on the physical lines of one logical line: the model's function on the
   contents, every line feed stays where it was; a Go panic leaves the lines alone
   (there is none on a logical line, C15_trailing_exact) *)
Definition trailing_fix (rs : list str) : list str :=
  match checkTrailingWhitespace (map content rs) with
  | Varalign.Ok cs' => refit_list cs' rs
  | Varalign.Panic => rs
  end.

Definition trailing_fix_file (ls : list line) : str :=
  concat (flat_map (fun l => trailing_fix (raws l)) ls).

Lemma ends_backslash_count t : ends_backslash t = false -> trailing_count is_bs t = 0%nat.
Proof.
  unfold ends_backslash. destruct t as [|x t _] using rev_ind; [reflexivity|].
  rewrite last_last, trailing_count_snoc. intros H. unfold is_bs. rewrite H. reflexivity.
Qed.

(* the trimmed line is the line itself, or neither ends in a backslash *)
Lemma trim_result_count t : trailing_count is_bs (trim_result t) = trailing_count is_bs t.
Proof.
  unfold trim_result. destruct (ends_backslash (rtrimHspace t)) eqn:Eb; [reflexivity|].
  apply ends_backslash_count in Eb. destruct (Proofs.Tabs.rtrimHspace_split t) as (b & E & B).
  pose proof (blank_end_count _ b B Eb) as H. rewrite <- E in H. congruence.
Qed.

Lemma fits_trim r : raw_ok r = true ->
  (trim_result (content r) <> [] \/ ends_nl r = true) -> fits r (trim_result (content r)).
Proof.
  intros Hr Hne. apply fits_intro; [|unfold continues; f_equal; apply trim_result_count|exact Hne].
  destruct (raw_ok_split r Hr) as [_ Hn], (trim_result_trimmed (content r)) as (x & E & _).
  rewrite E in Hn. apply nlfree_app in Hn. tauto.
Qed.

(* a physical line that is blanks only and has no line feed (the last line of a file
   that does not end in a line feed) would vanish; everything else is covered *)
Definition no_vanishing_line (rs : list str) : Prop :=
  trim_result (content (last rs [])) <> [] \/ ends_nl (last rs []) = true.

Lemma fits_contents rs : Forall (fun r => raw_ok r = true) rs -> Forall2 fits rs (map content rs).
Proof. induction 1; constructor; auto using fits_refl. Qed.

Lemma trailing_fix_same rs : Forall (fun r => raw_ok r = true) rs ->
  no_vanishing_line rs -> Forall2 same_cont rs (trailing_fix rs).
Proof.
  unfold trailing_fix, no_vanishing_line. destruct rs as [|l init _] using rev_ind; [constructor|].
  rewrite last_last, map_app. cbn [map]. rewrite checkTrailingWhitespace_snoc.
  intros [Hi Hl]%Forall_app Hv. apply refit_list_same, Forall2_app; [apply fits_contents, Hi|].
  constructor; [|constructor]. apply fits_trim; [|exact Hv]. inversion Hl; assumption.
Qed.

(* for ALL file texts: after CheckTrailingWhitespace on every logical line the file,
   loaded again, has the same logical lines, each made of the fixed physical lines *)
Theorem trailing_keeps_line_structure s ls e :
  convert_to_logical_lines s true = Ok (ls, e) ->
  (forall l, In l ls -> no_vanishing_line (raws l)) ->
  exists ls' e',
    convert_to_logical_lines (trailing_fix_file ls) true = Ok (ls', e')
    /\ length ls' = length ls
    /\ map (fun l => length (raws l)) ls' = map (fun l => length (raws l)) ls
    /\ map raws ls' = map (fun l => trailing_fix (raws l)) ls.
Proof.
  intros Hc Hv.
  assert (HF : forall l, In l ls -> Forall2 same_cont (raws l) (trailing_fix (raws l))).
  { intros l Hl. apply trailing_fix_same; [exact (loaded_raws_ok _ _ _ _ l Hc Hl)|exact (Hv l Hl)]. }
  destruct (reload_same_grouping (fun l => trailing_fix (raws l)) s ls e Hc HF) as (ls' & e' & E & M).
  exists ls', e'. split; [exact E|].
  destruct (same_raws_counts _ ls ls' M) as [L1 L2]; [|auto].
  intros l Hl. symmetry. exact (Proofs.VaralignBlanks.Forall2_length _ _ _ (HF l Hl)).
Qed.

Lemma no_vanishing_of_nl rs : ends_nl (last rs []) = true -> no_vanishing_line rs.
Proof. intros H. right. exact H. Qed.

Definition directive_fix (sn : bool) (indent : str) (d : Z) (rs : list str) : list str :=
  match rs with
  | [] => []
  | r0 :: rest =>
    match checkDirectiveIndentation sn (content r0) indent d with
    | Varalign.Ok c' => (c' ++ nlpart r0) :: rest
    | Varalign.Panic => rs
    end
  end.

Lemma directive_fix_same sn indent d rs : blankb indent = true ->
  Forall (fun r => raw_ok r = true) rs -> Forall2 same_cont rs (directive_fix sn indent d rs).
Proof.
  intros B Hok. pose proof (same_cont_refl_all rs Hok) as Hrefl.
  destruct Hok as [|r0 rest H0 _]; [constructor|]. cbn [directive_fix].
  destruct (checkDirectiveIndentation sn (content r0) indent d) as [c'|] eqn:E; [|exact Hrefl].
  inversion Hrefl; subst. constructor; [|assumption].
  destruct (directive_blanks_only sn (content r0) indent d c' B E) as [_ [->|(rest' & E1 & ->)]].
  - exact (fits_refl r0 H0).
  - apply (fits_prefix_change r0 (DOT :: indent) (DOT :: spaces d) rest' H0 E1).
    + exact (blank_end_count [DOT] indent B eq_refl).
    + exact (blank_end_count [DOT] _ (Proofs.Tabs.blankb_spaces d) eq_refl).
    + exact (nlfree_blank _ (Proofs.Tabs.blankb_spaces d)).
    + discriminate.
Qed.

(* for ALL file texts: re-indenting the directives (any choice of lines, depths and parsed
   indentations made of blanks) keeps the line structure *)
Theorem directive_keeps_line_structure s ls e (choice : line -> bool * str * Z) :
  convert_to_logical_lines s true = Ok (ls, e) ->
  (forall l, In l ls -> blankb (snd (fst (choice l))) = true) ->
  let F := fun l => directive_fix (fst (fst (choice l))) (snd (fst (choice l))) (snd (choice l)) (raws l) in
  exists ls' e',
    convert_to_logical_lines (concat (flat_map F ls)) true = Ok (ls', e')
    /\ map raws ls' = map F ls.
Proof.
  intros Hc HB F. apply (reload_same_grouping F s ls e Hc).
  intros l Hl. apply directive_fix_same; [exact (HB l Hl)|exact (loaded_raws_ok _ _ _ _ l Hc Hl)].
Qed.

(* the tab normalisation of checkShellCommand *)
Definition shell_fix (flag : bool) (rs : list str) : list str :=
  match shellTabs flag (map content rs) with
  | Varalign.Ok cs' => refit_list cs' rs
  | Varalign.Panic => rs
  end.

Lemma Forall2_map_l {A B C} (R : B -> C -> Prop) (f : A -> B) l l' :
  Forall2 R (map f l) l' -> Forall2 (fun a c => R (f a) c) l l'.
Proof. revert l'. induction l; intros l' H; inversion H; subst; constructor; auto. Qed.

Lemma shell_fix_same flag rs : Forall (fun r => raw_ok r = true) rs ->
  Forall2 same_cont rs (shell_fix flag rs).
Proof.
  intros Hok. unfold shell_fix.
  destruct (shellTabs flag (map content rs)) as [cs'|] eqn:E; [|apply same_cont_refl_all, Hok].
  apply refit_list_same. apply shellTabs_shape, Forall2_map_l in E.
  rewrite Forall_forall in Hok. eapply Proofs.VaralignBlanks.Forall2_impl; [|exact E].
  intros r c' Hr%Hok [->|(tb & rest & B & Ec & ->)]; [exact (fits_refl r Hr)|].
  apply (fits_prefix_change r tb [TAB] rest Hr Ec); [|reflexivity|reflexivity|discriminate].
  exact (blank_end_count [] tb B eq_refl).
Qed.

(* for ALL file texts: normalising the tabs of shell lines (any choice of lines) keeps the line structure *)
Theorem shell_keeps_line_structure s ls e flag :
  convert_to_logical_lines s true = Ok (ls, e) ->
  exists ls' e',
    convert_to_logical_lines (concat (flat_map (fun l => shell_fix flag (raws l)) ls)) true = Ok (ls', e')
    /\ map raws ls' = map (fun l => shell_fix flag (raws l)) ls.
Proof.
  intros Hc. apply (reload_same_grouping (fun l => shell_fix flag (raws l)) s ls e Hc).
  intros l Hl. apply shell_fix_same, (loaded_raws_ok _ _ _ _ l Hc Hl).
Qed.

(* the behaviour before /repo a0c5e27: trim regardless of a backslash *)
Definition trim_result_old (t : str) : str := rtrimHspace t.
Definition trailing_fix_old (rs : list str) : list str :=
  match rev rs with
  | [] => []
  | l :: init_rev => rev init_rev ++ [trim_result_old (content l) ++ nlpart l]
  end.
Definition trailing_fix_file_old (ls : list line) : str :=
  concat (flat_map (fun l => trailing_fix_old (raws l)) ls).

(* "VAR=\tvalue \\ \nOTHER=\tx\n" *)
Definition witness_text : str :=
  [86;65;82;61;9;118;97;108;117;101;32;92;32;10; 79;84;72;69;82;61;9;120;10].

Definition line_structure (s : str) : option (list nat) :=
  match convert_to_logical_lines s true with
  | Ok (ls, _) => Some (map (fun l => length (raws l)) ls)
  | _ => None
  end.

Definition fix_text (fixf : list line -> str) (s : str) : option str :=
  match convert_to_logical_lines s true with
  | Ok (ls, _) => Some (fixf ls)
  | _ => None
  end.

Example old_trailing_fix_joins_lines :
  line_structure witness_text = Some [1; 1]%nat /\
  (exists s', fix_text trailing_fix_file_old witness_text = Some s' /\ line_structure s' = Some [2]%nat) /\
  fix_text trailing_fix_file witness_text = Some witness_text.
Proof.
  split; [vm_compute; reflexivity|]. split; [|vm_compute; reflexivity].
  eexists. split; vm_compute; reflexivity.
Qed.

Definition old_keeps_line_structure : Prop :=
  forall s ls e, convert_to_logical_lines s true = Ok (ls, e) ->
    (forall l, In l ls -> ends_nl (last (raws l) []) = true) ->
    exists ls' e', convert_to_logical_lines (trailing_fix_file_old ls) true = Ok (ls', e')
                   /\ length ls' = length ls.

Theorem old_keeps_line_structure_refuted : ~ old_keeps_line_structure.
Proof.
  intros H.
  destruct (convert_to_logical_lines witness_text true) as [[ls e]| |] eqn:E; try (vm_compute in E; discriminate).
  specialize (H witness_text ls e E).
  vm_compute in E. injection E as <- <-.
  destruct H as (ls' & e' & E' & L).
  - intros l [<-|[<-|[]]]; vm_compute; reflexivity.
  - vm_compute in E'. injection E' as <- _. vm_compute in L. discriminate.
Qed.

(* the side condition of trailing_keeps_line_structure is needed: "A=1\n  " (the last line is
   two blanks without a line feed) becomes "A=1\n" -- the empty remainder is no physical line *)
Definition vanishing_text : str := [65; 61; 49; 10; 32; 32].

Example trailing_blank_last_line_vanishes :
  line_structure vanishing_text = Some [1; 1]%nat /\
  fix_text trailing_fix_file vanishing_text = Some [65; 61; 49; 10] /\
  line_structure [65; 61; 49; 10] = Some [1]%nat.
Proof. repeat split; vm_compute; reflexivity. Qed.
