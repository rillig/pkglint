(* C19: ContainsPath agrees with the infix relation on component lists. *)
From PV Require Import Lib.Bytes Model.Paths Spec.PathDenote Proofs.PathsBase Proofs.PathsRender
  Proofs.PathsPrefix.
Open Scope N_scope.

Lemma join_app l1 l2 : l1 <> [] -> l2 <> [] -> join_slash (l1 ++ l2) = join_slash l1 ++ slash :: join_slash l2.
Proof.
  intros H1 H2. induction l1 as [|x l1 IH]; [contradiction|]. destruct l1 as [|y l1].
  - destruct l2; [contradiction|reflexivity].
  - cbn [app]. rewrite !join_cons, <- app_assoc. cbn [app]. rewrite <- IH by discriminate. reflexivity.
Qed.

Section Loop.
Variable sub : str.

Lemma contains_loop_unfold first prev rest :
  contains_loop first prev rest sub =
  if (first || ((prev =? slash) && negb (rooted rest))) && has_prefix_path rest sub then true
  else match rest with [] => false | c :: r => contains_loop false c r sub end.
Proof. destruct rest; reflexivity. Qed.

Lemma contains_loop_spec rest : forall first prev,
  contains_loop first prev rest sub = true <->
  ((first || ((prev =? slash) && negb (rooted rest))) = true /\ has_prefix_path rest sub = true) \/
  (exists a b, rest = a ++ slash :: b /\ rooted b = false /\ has_prefix_path b sub = true).
Proof.
  induction rest as [|c r IH]; intros first prev; rewrite contains_loop_unfold;
    destruct (_ && has_prefix_path _ sub) eqn:E.
  - apply andb_true_iff in E. tauto.
  - apply andb_false_iff in E. split; [discriminate|]. intros [[H1 H2]|(a & b & H & _)].
    + destruct E; congruence.
    + destruct a; discriminate.
  - apply andb_true_iff in E. tauto.
  - apply andb_false_iff in E. rewrite IH. split.
    + intros [[H1 H2]|(a & b & -> & H)]; right.
      * apply andb_true_iff in H1 as [H1 H1']. apply N.eqb_eq in H1. apply negb_true_iff in H1'. subst c.
        exists [], r. auto.
      * exists (c :: a), b. auto.
    + intros [[H1 H2]|(a & b & H & Hb & Hs)]; [destruct E; congruence|].
      destruct a as [|c' a]; injection H as -> ->.
      * left. rewrite N.eqb_refl, Hb. auto.
      * right. exists a, b. auto.
Qed.
End Loop.

Lemma filter_split_at {A} (f : A -> bool) l : forall u x v,
  filter f l = u ++ x :: v ->
  exists l1 l2, l = l1 ++ x :: l2 /\ filter f l1 = u /\ f x = true /\ filter f l2 = v.
Proof.
  induction l as [|y l IH]; intros u x v H; simpl in H.
  - destruct u; discriminate.
  - destruct (f y) eqn:Ey.
    + destruct u as [|z u]; simpl in H; injection H as E1 E2.
      * subst y. exists [], l. repeat split; auto.
      * subst z. destruct (IH _ _ _ E2) as (l1 & l2 & -> & H3 & H4 & H5).
        exists (y :: l1), l2. simpl. rewrite Ey, H3. repeat split; auto.
    + destruct (IH _ _ _ H) as (l1 & l2 & -> & H3 & H4 & H5).
      exists (y :: l1), l2. simpl. rewrite Ey. repeat split; auto.
Qed.

Lemma names_split_at p u x v :
  names p = u ++ x :: v ->
  exists b, b <> [] /\ rooted b = false /\ names b = x :: v /\ (p = b \/ exists a, p = a ++ slash :: b).
Proof.
  intro H. unfold names in H. rewrite (segs_split p) in H.
  destruct (filter_split_at _ _ _ _ _ H) as (l1 & l2 & El & H1 & Hx & H2).
  pose proof (split_noslash p) as Hns. rewrite El in Hns. apply Forall_app in Hns as [Hns1 Hns2].
  assert (Hxne : x <> []) by (intros ->; discriminate).
  exists (join_slash (x :: l2)). repeat split.
  - destruct x as [|c x]; [contradiction|]. destruct l2; simpl; discriminate.
  - inversion Hns2; subst. apply rooted_join; assumption.
  - unfold names. rewrite (segs_split (join_slash (x :: l2))), split_join; [|discriminate|exact Hns2].
    simpl. rewrite Hx, H2. reflexivity.
  - rewrite <- (join_split p), El. destruct l1 as [|y l1].
    + left. reflexivity.
    + right. exists (join_slash (y :: l1)). apply join_app; discriminate.
Qed.

Lemma rooted_cut p : rooted p = true -> exists a b, p = a ++ slash :: b /\ rooted b = false.
Proof.
  induction p as [|c p IH]; [discriminate|]. intro H. apply N.eqb_eq in H. subst c.
  destruct (rooted p) eqn:R.
  - destruct (IH eq_refl) as (a & b & -> & Hb). exists (slash :: a), b. auto.
  - exists [], p. auto.
Qed.

Lemma empty_component_first p pre post t :
  components p = pre ++ ([] :: t) ++ post -> pre = [].
Proof.
  intro H. destruct pre as [|y pre]; [reflexivity|]. exfalso.
  assert (Hin : In [] (names p)).
  { rewrite components_names in H. destruct (rooted p); simpl in H.
    - inversion H. rewrite H2. apply in_or_app. right. left. reflexivity.
    - rewrite H. simpl. right. apply in_or_app. right. left. reflexivity. }
  apply (proj1 (Forall_forall _ _) (names_elem p)), elem_nonempty in Hin. contradiction.
Qed.

Lemma name_in_components p pre x v :
  components p = pre ++ x :: v -> x <> [] -> exists u, names p = u ++ x :: v.
Proof.
  rewrite components_names. intros H Hx. destruct (rooted p); [|exists pre; exact H].
  destruct pre as [|y pre]; injection H as H1 H2; [congruence|]. exists pre. exact H2.
Qed.

Lemma infix_cuts sub p :
  list_infixb (components sub) (components p) = true <->
  path_prefixb sub p = true \/
  exists a b, p = a ++ slash :: b /\ rooted b = false /\ path_prefixb sub b = true.
Proof.
  split.
  - intro H. apply list_infixb_spec in H as (pre & post & E).
    destruct (components sub) as [|x t] eqn:Ecs.
    + (* no component: any relative rest of p will do *)
      apply components_nil in Ecs as Hn. destruct Hn as [Rs _].
      assert (Hrel : forall b, rooted b = false -> path_prefixb sub b = true).
      { intros b Rb. unfold path_prefixb. rewrite Ecs, Rs, Rb. reflexivity. }
      destruct (rooted p) eqn:Rp; [right|left; auto].
      destruct (rooted_cut p Rp) as (a & b & Ep & Rb). exists a, b. auto.
    + destruct (components_head sub x t Ecs) as [Hx _]. destruct (rooted sub) eqn:Rs.
      * (* a rooted sub path can only sit at the front *)
        destruct x; [|discriminate]. left. pose proof (empty_component_first p pre post t E). subst pre.
        destruct (components_head p _ _ E) as [Hr _]. unfold path_prefixb. rewrite Ecs, E, Rs, <- Hr.
        apply (list_prefixb_app ([] :: t)).
      * (* cut p in front of the name x *)
        assert (Hne : x <> []) by (intros ->; discriminate).
        destruct (name_in_components p pre x (t ++ post) E Hne) as [u Hu].
        destruct (names_split_at p u x (t ++ post) Hu) as (b & _ & Rb & Nb & Hpb).
        assert (Hb : path_prefixb sub b = true).
        { unfold path_prefixb. rewrite Ecs, Rs, (components_names b), Rb, Nb. apply (list_prefixb_app (x :: t)). }
        destruct Hpb as [->|[a ->]]; [left|right; exists a, b]; auto.
  - intros [H|(a & b & -> & Rb & H)]; apply andb_true_iff in H as [_ H];
      apply list_prefixb_spec in H as [c H]; apply list_infixb_spec.
    + exists [], c. exact H.
    + exists (root_mark (rooted (a ++ slash :: b)) ++ names a), c.
      rewrite (components_names b), Rb in H. simpl in H.
      rewrite components_names, names_app_slash, H, <- !app_assoc. reflexivity.
Qed.

(* also for the empty p *)
Theorem contains_path_components p sub :
  sub <> [] -> (components sub = [] -> nocolon p) ->
  contains_path p sub = path_infixb sub p.
Proof.
  intros Hs Hg. unfold contains_path, path_infixb.
  destruct (str_eqb sub dotstr) eqn:Ed.
  { apply str_eqb_spec in Ed. subst sub. rewrite orb_true_r. destruct (components p); reflexivity. }
  rewrite orb_false_r. apply Bool.eq_true_iff_eq. rewrite contains_loop_spec, infix_cuts.
  (* HasPrefixPath on p and on the rests of p *)
  assert (Hpre : forall a b, p = a ++ b -> has_prefix_path b sub = path_prefixb sub b).
  { intros a b ->. apply has_prefix_path_components; [exact Hs|]. intro Hc. apply nocolon_is_abs.
    intro Hin. apply (Hg Hc). apply in_or_app. right. exact Hin. }
  rewrite (Hpre [] p eq_refl).
  split; (intros [H|(a & b & E & Hb & H)]; [left; tauto|right; exists a, b]).
  - rewrite <- (Hpre (a ++ [slash]) b) by (rewrite <- app_assoc; exact E). auto.
  - rewrite (Hpre (a ++ [slash]) b) by (rewrite <- app_assoc; exact E). auto.
Qed.

Theorem contains_is_parts_infix p sub :
  p <> [] -> sub <> [] -> (components sub = [] -> nocolon p) ->
  contains_path p sub = path_infixb sub p.
Proof. intros _. apply contains_path_components. Qed.
