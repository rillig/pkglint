(* finish_blanks_only (Proofs/VaralignBlanks.v) read as the three clauses Props/C15.v states
   for VaralignBlock.Finish -- blanks only, parts kept, line count -- and the refutation of
   the 72-column clause. *)
From PV Require Import Lib.Bytes Model.Tabs Model.Varalign Proofs.VaralignBlanks Proofs.VaralignSingle.
Open Scope Z_scope.

Definition blanks_only (i i' : info) : Prop := strip_blanks (text i') = strip_blanks (text i).
Definition parts_kept (i i' : info) : Prop :=
  lc (ps i') = lc (ps i) /\ vo (ps i') = vo (ps i) /\ val (ps i') = val (ps i) /\ cont (ps i') = cont (ps i) /\
  (text i = parts_string (ps i) -> text i' = parts_string (ps i')).

Lemma finish_rel (R : info -> info -> Prop) ms skip ms' : (forall i i', line_rel i i' -> R i i') ->
  wf_block ms -> finish ms skip = Ok ms' -> Forall2 (Forall2 R) ms ms'.
Proof.
  intros HR W H. pose proof (finish_blanks_only ms skip ms' W H) as F.
  eapply Forall2_impl; [|exact F]. intros l l' _ Fl.
  eapply Forall2_impl; [|exact Fl]. auto.
Qed.

Lemma finish_changes_blanks_only ms skip ms' : wf_block ms -> finish ms skip = Ok ms' ->
  Forall2 (Forall2 blanks_only) ms ms'.
Proof. apply finish_rel. intros i i' (A & _). exact A. Qed.

Lemma finish_parts_preserved ms skip ms' : wf_block ms -> finish ms skip = Ok ms' ->
  Forall2 (Forall2 parts_kept) ms ms'.
Proof. apply finish_rel. intros i i' (_ & (A & B & C & D) & E). unfold parts_kept. auto. Qed.

Lemma finish_line_count ms skip ms' : wf_block ms -> finish ms skip = Ok ms' ->
  map (@length info) ms' = map (@length info) ms.
Proof.
  intros W H. pose proof (finish_blanks_only ms skip ms' W H) as F.
  clear W H. induction F as [|l l' ms0 ms0' Hl _ IH]; [reflexivity|]. simpl. rewrite IH.
  rewrite (Forall2_length _ _ _ Hl). reflexivity.
Qed.

(* the 72-column clause as the property states it, for single-line paragraphs; refuted below *)
Definition no_widen_72_full : Prop :=
  forall para para', Forall single_ok para -> realign_lines para = Ok para' ->
    Forall2 (fun p p' => line_width p <= 72 -> line_width p' <= 72) para para'.

(* "LONG_VARNAME_1=\tx" and "A=\t" + 60 characters (DESIGN.md section 8, item 8): by the guard
   `blocked` of alignValueSingle the second line keeps its tab and stays 68 columns wide *)
Definition w72_long : parts :=
  mkParts [] [76;79;78;71;95;86;65;82;78;65;77;69;95;49;61]%N [9]%N [120]%N [] [].
Definition w72_a : parts := mkParts [] [65;61]%N [9]%N (repeat 118%N 60) [] [].
Lemma w72_repaired : realign_lines [w72_long; w72_a] = Ok [w72_long; w72_a].
Proof. vm_compute. reflexivity. Qed.

(* the refuting line: "E=" directly followed by 70 characters is 72 columns wide; whatever
   blank is put before the value makes the line wider *)
Definition w72_e : parts := mkParts [] [69;61]%N [] (repeat 118%N 70) [] [].
Definition w72_para : list parts := [w72_long; w72_e].
Definition w72_after : list parts := [w72_long; set_sbv w72_e [9; 9]%N].

Lemma w72_run : realign_lines w72_para = Ok w72_after.
Proof. vm_compute. reflexivity. Qed.
Lemma w72_widths : line_width w72_e = 72 /\ line_width (set_sbv w72_e [9; 9]%N) = 86.
Proof. split; vm_compute; reflexivity. Qed.
Lemma w72_ok : Forall single_ok w72_para.
Proof. repeat constructor. Qed.

Lemma no_widen_72_refuted : ~ no_widen_72_full.
Proof.
  intro H. specialize (H w72_para w72_after w72_ok w72_run).
  inversion H as [|? ? ? ? _ H2]; subst. inversion H2 as [|? ? ? ? H3 _]; subst.
  destruct w72_widths as [A B]. rewrite A, B in H3. specialize (H3 ltac:(discriminate)).
  apply H3. reflexivity.
Qed.
