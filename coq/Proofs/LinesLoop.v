(* Proofs for C09, part 2: nextLogicalLine's loop, the grouping loop, the
   physical lines, and the clause-by-clause theorems. *)
From PV Require Import Lib.Bytes Lib.LinesLib Model.Lines Spec.LinesSpec Proofs.Lines.
Open Scope N_scope.

Definition obs (l : line) : obs_line := (lineno l, text l, raws l).
Definition P (r : str) : parts := spec_parts (content r).

(* what the loop appends from the physical line with parts p on, when b is what
   is left of p's body after the comment marker is dropped *)
Fixpoint tail_text (b : str) (p : parts) (rest : list parts) : str :=
  match rest with
  | [] => b ++ p_outdent p ++ p_cont p
  | p' :: rest' => b ++ [space] ++ tail_text (body_after p p') p' rest'
  end.

Lemma has_prefix_single a c b : has_prefix [a] (c :: b) = (a =? c).
Proof. unfold has_prefix. cbn [strip_prefix]. destruct (a =? c); reflexivity. Qed.

Lemma trim_prefix_single a d e : trim_prefix [a] (d :: e) = if a =? d then e else d :: e.
Proof. unfold trim_prefix. cbn [strip_prefix]. destruct (a =? d); reflexivity. Qed.

Lemma trim_is_body_after prev cur :
  trim_prefix (next_string [hash] (p_body prev)) (p_body cur) = body_after prev cur.
Proof.
  unfold body_after, next_string, head_is, is_hash, hash.
  destruct (p_body prev) as [|c b]; [reflexivity|].
  rewrite has_prefix_single, (N.eqb_sym 35 c).
  destruct (c =? 35); [|reflexivity].
  destruct (p_body cur) as [|d e]; [reflexivity|].
  rewrite trim_prefix_single, (N.eqb_sym 35 d). destruct (d =? 35); reflexivity.
Qed.

Lemma last_cons {A} (x d : A) l : last (x :: l) d = last l x.
Proof.
  revert x d. induction l as [|y l IH]; intros x d; [reflexivity|].
  change (last (x :: y :: l) d) with (last (y :: l) d). rewrite (IH y d), (IH y x). reflexivity.
Qed.

Lemma tail_text_joined rest : forall b p,
  tail_text b p rest =
  join_with [32] (b :: map (fun pc => body_after (fst pc) (snd pc)) (combine (p :: rest) rest))
  ++ p_outdent (last rest p) ++ p_cont (last rest p).
Proof.
  induction rest as [|p' rest IH]; intros b p; [reflexivity|].
  cbn [tail_text]. rewrite IH, last_cons. cbn [combine map fst snd join_with].
  rewrite <- !app_assoc. reflexivity.
Qed.

Lemma joined_cons p rest : joined (p :: rest) = p_indent p ++ tail_text (p_body p) p rest.
Proof. unfold joined. rewrite tail_text_joined, last_cons. reflexivity. Qed.

Definition ends_here (post : list str) : bool := match post with [] => true | _ => false end.

Lemma mcl_P r :
  match_continuation_line (orig r) = (p_indent (P r), p_body (P r), p_outdent (P r), p_cont (P r)).
Proof. rewrite orig_is_content. apply mcl_is_spec_parts. Qed.

Lemma cont_P r : is_empty (p_cont (P r)) = negb (continues r).
Proof.
  unfold P. rewrite (d_cont _ _ (spec_parts_decomp (content r))). unfold cont_of, continues.
  destruct (Nat.odd _); reflexivity.
Qed.

Lemma nll_loop_cons r rest' text lr trim idx :
  nll_loop (r :: rest') text lr trim idx =
  let p := P r in
  let text1 := (text ++ if is_empty text then p_indent p else []) ++ trim_prefix trim (p_body p) in
  if continues r && negb (is_empty rest')
  then nll_loop rest' (text1 ++ [space]) (lr ++ [r]) (next_string [hash] (p_body p)) (idx + 1)
  else (text1 ++ p_outdent p ++ p_cont p, lr ++ [r], idx).
Proof.
  cbn [nll_loop]. rewrite mcl_P, cont_P, negb_involutive.
  destruct text; [|rewrite app_nil_r]; reflexivity.
Qed.

Lemma is_empty_snoc {A} (l : list A) x : is_empty (l ++ [x]) = false.
Proof. destruct l; reflexivity. Qed.

(* The loop's invariant.  Entered with any state, the loop consumes a group r :: g:
   every line of it but the last continues, the last does not unless the input
   ends with it.  The indent of r is kept only if no text has been collected so
   far; from r's body the pending marker `trim` is dropped. *)
Lemma nll_loop_spec l : forall text lr trim idx, l <> [] ->
  exists r g post, l = (r :: g) ++ post /\ group_ok (ends_here post) (r :: g) = true /\
    nll_loop l text lr trim idx =
    (text ++ (if is_empty text then p_indent (P r) else [])
          ++ tail_text (trim_prefix trim (p_body (P r))) (P r) (map P g),
     lr ++ r :: g, idx + N.of_nat (length g)).
Proof.
  induction l as [|r rest IH]; intros text lr trim idx Hne; [congruence|].
  rewrite nll_loop_cons. cbv zeta. destruct (continues r && negb (is_empty rest)) eqn:C.
  - apply andb_true_iff in C as [C Hr].
    edestruct IH as (r' & g & post & -> & G & ->); [destruct rest; discriminate|].
    exists r, (r' :: g), post. split; [reflexivity|]. split; [cbn [group_ok]; rewrite C; exact G|].
    rewrite is_empty_snoc, trim_is_body_after. cbn [map tail_text length app].
    f_equal; [f_equal|lia]; rewrite <- !app_assoc; reflexivity.
  - exists r, [], rest. split; [reflexivity|]. split.
    + cbn [group_ok]. destruct (continues r); [|reflexivity]. destruct rest; [reflexivity|discriminate].
    + cbn [map tail_text length]. f_equal; [f_equal|lia]. rewrite <- !app_assoc. reflexivity.
Qed.

Lemma spec_text_single r : spec_text [r] = content r.
Proof. symmetry. apply (d_eq _ _ (spec_parts_decomp (content r))). Qed.

Lemma next_logical_line_spec pre r rest :
  exists g post, r :: rest = g ++ post /\ group_ok (ends_here post) g = true /\
    next_logical_line (pre ++ r :: rest) (N.of_nat (length pre)) =
    Ok (mk_line (N.of_nat (length pre) + 1) (spec_text g) g, N.of_nat (length pre) + N.of_nat (length g)).
Proof.
  unfold next_logical_line. rewrite Nat2N.id, nth_error_app2, Nat.sub_diag by lia. cbn [nth_error].
  destruct (has_suffix [backslash] (orig r)) eqn:S; cbn [negb].
  - rewrite skipn_app_exact.
    destruct (nll_loop_spec (r :: rest) [] [] [] (N.of_nat (length pre))) as (r' & g & post & E & G & ->);
      [discriminate|].
    injection E as <- E. exists (r :: g), post. split; [simpl; f_equal; exact E|]. split; [exact G|].
    change (spec_text (r :: g)) with (joined (P r :: map P g)). rewrite joined_cons.
    unfold new_line_multi. f_equal. f_equal. cbn [length]. lia.
  - exists [r], rest. split; [reflexivity|].
    rewrite orig_is_content in S. apply no_backslash_suffix_count in S. split.
    + cbn [group_ok]. unfold continues. rewrite S. reflexivity.
    + unfold new_line, new_line_multi. rewrite spec_text_single, orig_is_content. reflexivity.
Qed.

Inductive grouped : N -> list str -> list line -> Prop :=
| grouped_nil k : grouped k [] []
| grouped_cons k g post l ls :
    group_ok (ends_here post) g = true ->
    lineno l = k + 1 -> raws l = g -> text l = spec_text g ->
    grouped (k + N.of_nat (length g)) post ls ->
    grouped k (g ++ post) (l :: ls).

Lemma group_ok_nonempty b g : group_ok b g = true -> g <> [].
Proof. destruct g; simpl; [discriminate|discriminate]. Qed.

Lemma mk_loop_done fuel raw_lines index acc :
  N.of_nat (length raw_lines) <= index -> mk_loop fuel raw_lines index acc = Ok acc.
Proof. intros H. apply N.leb_le in H. destruct fuel; cbn [mk_loop]; rewrite H; reflexivity. Qed.

(* pre: the physical lines consumed so far *)
Lemma mk_loop_grouped fuel : forall pre rest acc, (length rest <= fuel)%nat ->
  exists ls, mk_loop fuel (pre ++ rest) (N.of_nat (length pre)) acc = Ok (acc ++ ls)
             /\ grouped (N.of_nat (length pre)) rest ls.
Proof.
  induction fuel as [|fuel IH]; intros pre [|r rest] acc Hf; try (simpl in Hf; lia).
  1, 2: exists []; rewrite !app_nil_r; split; [apply mk_loop_done; lia|constructor].
  cbn [mk_loop].
  replace (N.of_nat (length (pre ++ r :: rest)) <=? N.of_nat (length pre)) with false
    by (rewrite app_length; simpl; lia).
  destruct (next_logical_line_spec pre r rest) as (g & post & E & G & ->). rewrite E, app_assoc.
  assert (Hg := group_ok_nonempty _ _ G). apply (f_equal (@length str)) in E. rewrite app_length in E.
  replace (N.of_nat (length pre) + N.of_nat (length g)) with (N.of_nat (length (pre ++ g)))
    by (rewrite app_length; lia).
  edestruct (IH (pre ++ g) post) as (ls & -> & H); [destruct g; simpl in *; [congruence|lia]|].
  eexists (_ :: ls). rewrite <- app_assoc. split; [reflexivity|].
  rewrite app_length, Nat2N.inj_add in H. constructor; try reflexivity; assumption.
Qed.

Lemma mk_loop_spec raw_lines fuel : forall index acc,
  (N.to_nat index <= length raw_lines)%nat ->
  (length raw_lines - N.to_nat index <= fuel)%nat ->
  exists ls, mk_loop fuel raw_lines index acc = Ok (acc ++ ls)
             /\ grouped index (skipn (N.to_nat index) raw_lines) ls.
Proof.
  intros index acc Hle Hfuel.
  destruct (mk_loop_grouped fuel (firstn (N.to_nat index) raw_lines) (skipn (N.to_nat index) raw_lines) acc)
    as (ls & H1 & H2); [rewrite skipn_length; exact Hfuel|].
  rewrite firstn_skipn, firstn_length_le, N2Nat.id in * by exact Hle. eauto.
Qed.

Lemma grouped_raws k rs ls : grouped k rs ls -> flat_map raws ls = rs.
Proof. induction 1; simpl; [reflexivity|]. congruence. Qed.

Lemma map_obs_raws ls : all_raws (map obs ls) = flat_map raws ls.
Proof. unfold all_raws. rewrite flat_map_concat_map, map_map, <- flat_map_concat_map. reflexivity. Qed.

Lemma grouped_numbering k rs ls : grouped k rs ls -> numbering_from (k + 1) (map obs ls) = true.
Proof.
  induction 1 as [|k g post l ls _ Hn Hr _ _ IH]; [reflexivity|]. cbn [map numbering_from obs o_lineno o_raws fst snd].
  rewrite Hn, N.eqb_refl, Hr.
  replace (k + 1 + N.of_nat (length g)) with (k + N.of_nat (length g) + 1) by lia. exact IH.
Qed.

Lemma grouped_ends k post ls : grouped k post ls ->
  ends_here post = match map obs ls with [] => true | _ => false end.
Proof.
  destruct 1 as [|k g post l ls G]; [reflexivity|].
  apply group_ok_nonempty in G. destruct g; [congruence|reflexivity].
Qed.

Lemma grouped_grouping k rs ls : grouped k rs ls -> grouping_mk (map obs ls) = true.
Proof.
  induction 1 as [|k g post l ls G _ Hr _ Hls IH]; [reflexivity|]. cbn [map grouping_mk obs o_raws snd].
  rewrite <- (grouped_ends _ _ _ Hls), Hr, G, IH. reflexivity.
Qed.

Lemma grouped_text k rs ls : grouped k rs ls -> text_ok true (map obs ls) = true.
Proof.
  unfold text_ok. induction 1 as [|k g post l ls _ _ Hr Ht _ IH]; [reflexivity|]. cbn [map forallb obs o_text o_raws fst snd].
  rewrite Hr, Ht, str_eqb_refl. exact IH.
Qed.

Lemma plain_raws rs k : flat_map raws (plain_loop rs k) = rs.
Proof. revert k; induction rs as [|r rs IH]; intros k; simpl; [reflexivity|]. rewrite IH. reflexivity. Qed.

Lemma plain_numbering rs k : numbering_from (k + 1) (map obs (plain_loop rs k)) = true.
Proof.
  revert k; induction rs as [|r rs IH]; intros k; simpl; [reflexivity|].
  unfold o_lineno at 1. simpl. rewrite N.eqb_refl. simpl. apply IH.
Qed.

Lemma plain_grouping rs k : grouping_plain (map obs (plain_loop rs k)) = true.
Proof.
  unfold grouping_plain. revert k; induction rs as [|r rs IH]; intros k; simpl; [reflexivity|]. apply IH.
Qed.

Lemma plain_text rs k : text_ok false (map obs (plain_loop rs k)) = true.
Proof.
  unfold text_ok. revert k; induction rs as [|r rs IH]; intros k; simpl; [reflexivity|].
  unfold o_text at 1. simpl. rewrite orig_is_content, str_eqb_refl. apply IH.
Qed.

Lemma split_after_acc_concat s : forall cur, concat (split_after_acc cur s) = cur ++ s.
Proof.
  induction s as [|c s IH]; intros cur; simpl; [rewrite !app_nil_r; reflexivity|].
  destruct (c =? nl); simpl; rewrite IH, <- app_assoc; reflexivity.
Qed.

Lemma existsb_removelast {A} (f : A -> bool) l : existsb f l = false -> existsb f (removelast l) = false.
Proof.
  induction l as [|a l IH]; [reflexivity|]. simpl. intros H. apply orb_false_iff in H as [H1 H2].
  destruct l; [reflexivity|]. simpl. rewrite H1. simpl. apply IH. exact H2.
Qed.

Lemma all_but_last_cons p (r : str) rest :
  p r = true -> all_but_last p rest = true -> all_but_last p (r :: rest) = true.
Proof. intros Hr H. destruct rest; [reflexivity|]. cbn [all_but_last]. rewrite Hr. exact H. Qed.

Definition nonempty (r : str) : bool := negb (is_empty r).

(* cur: the bytes of the current piece read so far; the last piece has no line
   feed and is the only one that can be empty *)
Lemma split_after_acc_shape s : forall cur, existsb is_nl cur = false ->
  forallb raw_ok (filter nonempty (split_after_acc cur s)) = true /\
  all_but_last ends_nl (filter nonempty (split_after_acc cur s)) = true.
Proof.
  induction s as [|c s IH]; intros cur Hc; cbn [split_after_acc].
  - destruct cur as [|a cur]; [split; reflexivity|]. split; [|reflexivity].
    cbn [filter nonempty is_empty negb forallb]. rewrite andb_true_r.
    unfold raw_ok. rewrite (existsb_removelast _ _ Hc). reflexivity.
  - change (c =? nl) with (is_nl c). destruct (is_nl c) eqn:E.
    + destruct (IH [] eq_refl) as [I1 I2].
      replace (filter nonempty ((cur ++ [c]) :: split_after_acc [] s))
        with ((cur ++ [c]) :: filter nonempty (split_after_acc [] s)) by (destruct cur; reflexivity).
      split.
      * cbn [forallb]. rewrite I1, andb_true_r. unfold raw_ok. rewrite removelast_snoc, Hc.
        destruct cur; reflexivity.
      * apply all_but_last_cons; [|exact I2]. unfold ends_nl. rewrite last_snoc. exact E.
    + apply IH. rewrite existsb_app, Hc. simpl. rewrite E. reflexivity.
Qed.

Definition raw_lines_of (s : str) : list str := filter nonempty (split_after_nl s).

Lemma raw_lines_concat s : concat (raw_lines_of s) = s.
Proof.
  transitivity (concat (split_after_nl s)).
  - exact (concat_filter_nonempty (split_after_nl s)).
  - apply split_after_acc_concat.
Qed.

Lemma raw_lines_shape s :
  forallb raw_ok (raw_lines_of s) = true /\ all_but_last ends_nl (raw_lines_of s) = true.
Proof. apply split_after_acc_shape. reflexivity. Qed.

Definition eof_flag (s : str) : bool := negb (is_empty s) && negb (has_suffix [nl] s).

(* what the loops establish of the logical lines ls made from the physical lines rs *)
Definition clauses (mk : bool) (rs : list str) (ls : list line) : Prop :=
  flat_map raws ls = rs
  /\ numbering_ok (map obs ls) = true
  /\ grouping_ok mk (map obs ls) = true
  /\ text_ok mk (map obs ls) = true.

Lemma grouped_clauses rs ls : grouped 0 rs ls -> clauses true rs ls.
Proof.
  intros H. repeat split;
    [eapply grouped_raws|apply (grouped_numbering 0 rs)|eapply grouped_grouping|eapply grouped_text]; exact H.
Qed.

Lemma plain_clauses rs : clauses false rs (plain_loop rs 0).
Proof. repeat split; [apply plain_raws|apply (plain_numbering rs 0)|apply plain_grouping|apply plain_text]. Qed.

Lemma convert_spec s mk :
  exists ls, convert_to_logical_lines s mk = Ok (ls, eof_flag s)
    /\ flat_map raws ls = raw_lines_of s
    /\ numbering_ok (map obs ls) = true
    /\ grouping_ok mk (map obs ls) = true
    /\ text_ok mk (map obs ls) = true.
Proof.
  unfold convert_to_logical_lines. cbv zeta.
  change (filter (fun r : list N => negb (is_empty r)) (split_after_nl s)) with (raw_lines_of s).
  fold (eof_flag s).
  set (loglines := if mk then _ else _).
  assert (exists ls, loglines = Ok ls /\ clauses mk (raw_lines_of s) ls) as (ls & -> & C).
  { subst loglines. destruct mk; [|eauto using plain_clauses].
    destruct (mk_loop_grouped (length (raw_lines_of s)) [] (raw_lines_of s) []) as (ls & H1 & H2);
      eauto using grouped_clauses. }
  exists ls. split; [|exact C].
  destruct (eof_flag s) eqn:E; [|reflexivity]. destruct ls; [|reflexivity].
  (* no lines: the input is empty, and then the flag is not set *)
  destruct C as [R _]. assert (Hs := raw_lines_concat s). rewrite <- R in Hs. subst s. discriminate.
Qed.

Theorem convert_total s mk : exists ls, convert_to_logical_lines s mk = Ok (ls, eof_flag s).
Proof. destruct (convert_spec s mk) as [ls [H _]]. eauto. Qed.

Lemma convert_inv s mk ls e :
  convert_to_logical_lines s mk = Ok (ls, e) -> e = eof_flag s /\ clauses mk (raw_lines_of s) ls.
Proof.
  intros H. destruct (convert_spec s mk) as [ls' [E C]]. rewrite E in H.
  injection H as -> ->. split; [reflexivity|exact C].
Qed.

Theorem raws_are_raw_lines s mk ls e :
  convert_to_logical_lines s mk = Ok (ls, e) -> flat_map raws ls = raw_lines_of s.
Proof. intros H. apply (convert_inv _ _ _ _ H). Qed.

Theorem raws_partition s mk ls e :
  convert_to_logical_lines s mk = Ok (ls, e) -> concat (flat_map raws ls) = s.
Proof. intros H. rewrite (raws_are_raw_lines _ _ _ _ H). apply raw_lines_concat. Qed.

Theorem partition_clause s mk ls e :
  convert_to_logical_lines s mk = Ok (ls, e) -> partition_ok s (map obs ls) = true.
Proof.
  intros H. unfold partition_ok. rewrite map_obs_raws, (raws_partition _ _ _ _ H). apply str_eqb_refl.
Qed.

Theorem raws_nonempty_nl s mk ls e :
  convert_to_logical_lines s mk = Ok (ls, e) -> raws_shape_ok (map obs ls) = true.
Proof.
  intros H. unfold raws_shape_ok. rewrite map_obs_raws, (raws_are_raw_lines _ _ _ _ H).
  destruct (raw_lines_shape s) as [-> ->]. reflexivity.
Qed.

Theorem numbering_exact s mk ls e :
  convert_to_logical_lines s mk = Ok (ls, e) -> numbering_ok (map obs ls) = true.
Proof. intros H. apply (convert_inv _ _ _ _ H). Qed.

Theorem grouping_exact s mk ls e :
  convert_to_logical_lines s mk = Ok (ls, e) -> grouping_ok mk (map obs ls) = true.
Proof. intros H. apply (convert_inv _ _ _ _ H). Qed.

Theorem text_clause s mk ls e :
  convert_to_logical_lines s mk = Ok (ls, e) -> text_ok mk (map obs ls) = true.
Proof. intros H. apply (convert_inv _ _ _ _ H). Qed.

Theorem eof_exact s mk ls e :
  convert_to_logical_lines s mk = Ok (ls, e) -> e = eof_flag s.
Proof. intros H. apply (convert_inv _ _ _ _ H). Qed.

Lemma spec_holds_iff mk s O :
  spec_holds mk s O = true <->
  partition_ok s O = true /\ raws_shape_ok O = true /\ numbering_ok O = true
  /\ grouping_ok mk O = true /\ text_ok mk O = true.
Proof. unfold spec_holds, spec_check. cbn [forallb]. rewrite !andb_true_iff. tauto. Qed.

Theorem model_meets_spec s mk ls e :
  convert_to_logical_lines s mk = Ok (ls, e) -> spec_holds mk s (map obs ls) = true.
Proof.
  intros H. apply spec_holds_iff.
  split; [exact (partition_clause _ _ _ _ H)|]. split; [exact (raws_nonempty_nl _ _ _ _ H)|].
  split; [exact (numbering_exact _ _ _ _ H)|].
  split; [exact (grouping_exact _ _ _ _ H)|exact (text_clause _ _ _ _ H)].
Qed.

Lemma numbering_from_reading pre l post : forall k,
  numbering_from k (map obs (pre ++ l :: post)) = true ->
  lineno l = k + N.of_nat (length (flat_map raws pre)).
Proof.
  induction pre as [|a pre IH]; intros k H; cbn [app map numbering_from obs o_lineno o_raws fst snd] in H;
    apply andb_true_iff in H as [H1 H2].
  - apply N.eqb_eq in H1. cbn [flat_map length]. lia.
  - rewrite (IH _ H2). cbn [flat_map]. rewrite app_length. lia.
Qed.

Theorem numbering_exact_prop s mk ls e :
  convert_to_logical_lines s mk = Ok (ls, e) ->
  forall pre l post, ls = pre ++ l :: post ->
  lineno l = 1 + N.of_nat (length (flat_map raws pre)).
Proof. intros H pre l post ->. exact (numbering_from_reading _ _ _ _ (numbering_exact _ _ _ _ H)). Qed.

Lemma group_ok_reading b g : group_ok b g = true ->
  exists init lst, g = init ++ [lst] /\ Forall (fun r => continues r = true) init
                   /\ (continues lst = false \/ b = true).
Proof.
  induction g as [|r g IH]; [discriminate|]. cbn [group_ok]. destruct g as [|r' g']; intros H.
  - exists [], r. apply orb_true_iff in H. rewrite negb_true_iff in H. auto.
  - apply andb_true_iff in H as [H1 H2]. destruct (IH H2) as (init & lst & E & F & O).
    exists (r :: init), lst. rewrite E. auto.
Qed.

Lemma grouping_mk_reading pre l post : grouping_mk (map obs (pre ++ l :: post)) = true ->
  exists init lst, raws l = init ++ [lst] /\ Forall (fun r => continues r = true) init
                   /\ (continues lst = false \/ post = []).
Proof.
  induction pre as [|a pre IH]; cbn [app map grouping_mk]; intros H; apply andb_true_iff in H as [H1 H2];
    [|exact (IH H2)].
  destruct (group_ok_reading _ _ H1) as (init & lst & E & F & [O|O]); exists init, lst; auto.
  destruct post; [auto|discriminate].
Qed.

Theorem grouping_exact_mk s ls e :
  convert_to_logical_lines s true = Ok (ls, e) ->
  forall pre l post, ls = pre ++ l :: post ->
  exists init lst, raws l = init ++ [lst] /\ Forall (fun r => continues r = true) init
                   /\ (continues lst = false \/ post = []).
Proof. intros H pre l post ->. exact (grouping_mk_reading _ _ _ (grouping_exact _ _ _ _ H)). Qed.

Lemma text_ok_reading mk ls l : text_ok mk (map obs ls) = true -> In l ls ->
  text l = if mk then spec_text (raws l) else match raws l with [r] => content r | _ => text l end.
Proof.
  unfold text_ok. rewrite forallb_forall. intros T Hl. apply str_eqb_spec, (T (obs l)), in_map, Hl.
Qed.

Theorem grouping_exact_plain s ls e :
  convert_to_logical_lines s false = Ok (ls, e) ->
  Forall (fun l => exists r, raws l = [r] /\ text l = content r) ls.
Proof.
  intros H. apply Forall_forall. intros l Hl.
  assert (T := text_ok_reading _ _ _ (text_clause _ _ _ _ H) Hl). assert (G := grouping_exact _ _ _ _ H).
  unfold grouping_ok, grouping_plain in G. rewrite forallb_forall in G.
  specialize (G _ (in_map obs _ _ Hl)). change (o_raws (obs l)) with (raws l) in G.
  destruct (raws l) as [|r [|r' rs]]; try discriminate. eauto.
Qed.

Lemma spec_text_rel rs : text_rel rs (spec_text rs).
Proof.
  exists (map (fun r => spec_parts (content r)) rs). split; [|reflexivity].
  induction rs; simpl; constructor; [apply spec_parts_ok|assumption].
Qed.

Theorem text_rel_functional rs t1 t2 : text_rel rs t1 -> text_rel rs t2 -> t1 = t2.
Proof.
  intros [p1 [F1 ->]] [p2 [F2 ->]]. f_equal.
  revert p2 F2; induction F1; intros p2 F2; inversion F2; subst; [reflexivity|].
  f_equal; [eapply decomp_ok_unique; eassumption|apply IHF1; assumption].
Qed.

Theorem text_exact_mk s ls e :
  convert_to_logical_lines s true = Ok (ls, e) ->
  Forall (fun l => text_rel (raws l) (text l)) ls.
Proof.
  intros H. apply Forall_forall. intros l Hl.
  rewrite (text_ok_reading _ _ _ (text_clause _ _ _ _ H) Hl). apply spec_text_rel.
Qed.

(* a line is untouched when it has no fix, or a fix on which nothing was modified
   since line.Autofix() created it *)
Definition untouched (fl : fline) : Prop :=
  snd fl = None \/ snd fl = Some (new_autofix (fst fl)).

Lemma untouched_chlines fl : untouched fl -> chlines_of fl = raws (fst fl).
Proof.
  destruct fl as [l [fx|]]; intros [H|H]; simpl in *; try discriminate; try reflexivity.
  inversion H. subst fx. unfold chlines_of. simpl. apply app_nil_r.
Qed.

Lemma untouched_not_modified fl : untouched fl -> fix_modified fl = false.
Proof.
  destruct fl as [l [fx|]]; intros [H|H]; simpl in *; try discriminate; try reflexivity.
  inversion H. reflexivity.
Qed.

Definition save_view (fl : fline) : obs_line * option (list str) :=
  (obs (fst fl), if fix_modified fl then Some (chlines_of fl) else None).

Definition fix_wf (fl : fline) : Prop := fix_modified fl = false -> untouched fl.

Lemma spec_saved_cons fl rest :
  spec_saved (save_view fl :: rest) =
  (if fix_modified fl then concat (chlines_of fl) else concat (raws (fst fl))) ++ spec_saved rest.
Proof. unfold save_view. cbn [spec_saved]. destruct (fix_modified fl); reflexivity. Qed.

Theorem save_is_spec_saved fls out :
  Forall fix_wf fls -> save_autofix_changes fls = Some out -> out = spec_saved (map save_view fls).
Proof.
  unfold save_autofix_changes. intros W H. destruct (existsb fix_modified fls); [|discriminate].
  inversion H; subst; clear H. induction W as [|fl fls Wf W IH]; [reflexivity|].
  cbn [flat_map map]. rewrite spec_saved_cons, concat_app, IH.
  destruct (fix_modified fl) eqn:M; [reflexivity|].
  rewrite (untouched_chlines fl (Wf M)). reflexivity.
Qed.

Theorem save_nothing_modified fls :
  Forall untouched fls -> save_autofix_changes fls = None.
Proof.
  intros U. unfold save_autofix_changes. replace (existsb fix_modified fls) with false; [reflexivity|].
  symmetry. induction U as [|fl fls H U IH]; [reflexivity|]. simpl. rewrite (untouched_not_modified _ H). exact IH.
Qed.

Lemma untouched_reproduce fls : Forall untouched fls ->
  flat_map chlines_of fls = flat_map raws (map fst fls).
Proof.
  induction 1 as [|fl fls H U IH]; [reflexivity|]. simpl. rewrite (untouched_chlines _ H), IH. reflexivity.
Qed.

(* no fix at all, or only untouched fixes: nothing is written; and what would
   be written is the input, byte for byte *)
Theorem save_untouched s mk ls e fls :
  convert_to_logical_lines s mk = Ok (ls, e) -> map fst fls = ls -> Forall untouched fls ->
  save_autofix_changes fls = None /\ concat (flat_map chlines_of fls) = s.
Proof.
  intros H E U. split; [apply save_nothing_modified; exact U|].
  rewrite (untouched_reproduce _ U), E. exact (raws_partition _ _ _ _ H).
Qed.

(* partial save: an untouched line's physical lines sit verbatim between what is
   written for the lines before and after it *)
Theorem save_partial pre fl post out :
  untouched fl -> save_autofix_changes (pre ++ fl :: post) = Some out ->
  out = concat (flat_map chlines_of pre) ++ concat (raws (fst fl)) ++ concat (flat_map chlines_of post).
Proof.
  unfold save_autofix_changes. intros U H. destruct (existsb _ _); [|discriminate].
  inversion H; subst; clear H. rewrite flat_map_app. cbn [flat_map].
  rewrite !concat_app, (untouched_chlines _ U). reflexivity.
Qed.
