(* C03/C02: the model Model/Autofix.v satisfies the specification Spec/ApplyLog.v. *)
From PV Require Import Lib.Bytes Spec.ApplyLog Model.Autofix Proofs.ApplyLog.
From Coq Require Import Lia.
Open Scope Z_scope.

Lemma set_nth_length {A} n (x : A) l : length (set_nth n x l) = length l.
Proof. revert n; induction l as [|y l IH]; intros [|n]; simpl; auto. Qed.

Lemma set_nth_same {A} n (x : A) l : nth_error l n = Some x -> set_nth n x l = l.
Proof.
  revert n; induction l as [|y l IH]; intros [|n] H; simpl in *; try discriminate; [congruence|].
  f_equal. auto.
Qed.

Lemma nth_error_set_nth {A} n (x : A) l : (n < length l)%nat -> nth_error (set_nth n x l) n = Some x.
Proof. revert n; induction l as [|z l IH]; intros [|n] H; simpl in *; try lia; [reflexivity|]. apply IH. lia. Qed.

Lemma nth_error_set_nth_other {A} n m (x : A) l : n <> m -> nth_error (set_nth n x l) m = nth_error l m.
Proof.
  revert n m; induction l as [|y l IH]; intros [|n] [|m] H; simpl; try reflexivity; try congruence.
  apply IH. congruence.
Qed.

Lemma set_nth_split {A} (s1 s2 : list A) x y : set_nth (length s1) y (s1 ++ x :: s2) = s1 ++ y :: s2.
Proof. induction s1 as [|z s1 IH]; simpl; [reflexivity|]. rewrite IH. reflexivity. Qed.

Lemma nth_error_split' {A} (l : list A) n x :
  nth_error l n = Some x -> exists s1 s2, l = s1 ++ x :: s2 /\ length s1 = n.
Proof. apply nth_error_split. Qed.

Lemma rev_last_nth {A} (l : list A) x r : rev l = x :: r -> nth_error l (length l - 1) = Some x.
Proof.
  intro H. assert (E : l = rev r ++ [x]) by (rewrite <- (rev_involutive l), H; reflexivity).
  subst l. rewrite app_length. cbn [length]. rewrite nth_error_app2 by lia.
  replace (length (rev r) + 1 - 1 - length (rev r))%nat with O by lia. reflexivity.
Qed.

Lemma nth_error_ext {A} (a b : list A) : (forall j, nth_error a j = nth_error b j) -> a = b.
Proof.
  revert b; induction a as [|x a IH]; intros [|y b] H; try reflexivity; try (specialize (H O); discriminate).
  pose proof (H O) as H0. cbn in H0. inversion H0; subst. f_equal. apply IH. intro j. exact (H (S j)).
Qed.

Lemma Forall_split_mid {A} (P : A -> Prop) s1 x s2 :
  Forall P (s1 ++ x :: s2) <-> Forall P s1 /\ P x /\ Forall P s2.
Proof. rewrite Forall_app, Forall_cons_iff. reflexivity. Qed.

Lemma Forall_set_nth {A} (P : A -> Prop) (l : list A) i x y :
  nth_error l i = Some x -> Forall P l -> P y -> Forall P (set_nth i y l).
Proof.
  intros En F Py. apply nth_error_split in En as (s1 & s2 & -> & <-). rewrite set_nth_split.
  apply Forall_split_mid in F as (F1 & _ & F2). apply Forall_split_mid. auto.
Qed.

Lemma skipn_app_exact {A} (a b : list A) : skipn (length a) (a ++ b) = b.
Proof. induction a; simpl; auto. Qed.

Lemma firstn_app_exact {A} (a b : list A) : firstn (length a) (a ++ b) = a.
Proof. induction a; simpl; [reflexivity|]. f_equal. assumption. Qed.

Lemma index_spec s sub i : index s sub = Some i -> s = firstn i s ++ sub ++ skipn (i + length sub) s.
Proof.
  revert i; induction s as [|c s IH]; intro i; simpl; destruct (has_prefix sub _) eqn:E; intro H;
    try discriminate.
  1, 2: inversion H; exact (has_prefix_skipn _ _ E).
  destruct (index s sub) as [k|]; [|discriminate]. inversion H. simpl. f_equal. apply IH. reflexivity.
Qed.

Lemma replace_once_spec s from to r :
  replace_once s from to = (true, r) -> exists a b, s = a ++ from ++ b /\ r = a ++ to ++ b.
Proof.
  unfold replace_once. destruct (index s from) as [i|] eqn:Ei; [|discriminate].
  destruct (last_index s from) as [j|]; [|discriminate].
  destruct (Nat.eqb i j); [|discriminate]. intro H. inversion H; subst.
  exists (firstn i s), (skipn (i + length from) s). split; [apply index_spec; exact Ei|reflexivity].
Qed.

Lemma replace_once_false s from to r : replace_once s from to = (false, r) -> r = s.
Proof.
  unfold replace_once. destruct (index s from); [|intro H; inversion H; reflexivity].
  destruct (last_index s from); [|intro H; inversion H; reflexivity].
  destruct (Nat.eqb _ _); intro H; inversion H; reflexivity.
Qed.

Lemma first_replace_spec texts from to i0 k r :
  first_replace texts from to i0 = Some (k, r) ->
  exists j a b, k = (i0 + j)%nat /\ nth_error texts j = Some (a ++ from ++ b) /\ r = a ++ to ++ b.
Proof.
  revert i0; induction texts as [|t ts IH]; intros i0 H; simpl in H; [discriminate|].
  destruct (replace_once t from to) as [ok r'] eqn:E. destruct ok.
  - inversion H; subst. apply replace_once_spec in E as (a & b & -> & ->).
    exists O, a, b. repeat split. lia.
  - apply IH in H as (j & a & b & -> & Hn & Hr). exists (S j), a, b. repeat split; [lia|exact Hn|exact Hr].
Qed.

Definition action_of (d : descr) : action :=
  match d with
  | DRepl f t => ARepl f t
  | DAbove t => AAbove t
  | DBelow t => ABelow t
  | DDelete => ADelete
  | DSort => ASort
  | DChmod => AChmod
  end.

Definition entry_of (p : descr * Z) : entry := (Z.to_N (snd p), action_of (fst p)).

Definition cur_texts (l : line) : list str := match l_fix l with Some f => f_texts f | None => l_raw l end.
Definition cur_above (l : line) : list str := match l_fix l with Some f => f_above f | None => [] end.
Definition cur_below (l : line) : list str := match l_fix l with Some f => f_below f | None => [] end.

Record parts := Parts { p_above : list str; p_texts : list str; p_below : list str }.

Definition parts_of (f : fixst) : parts := Parts (f_above f) (f_texts f) (f_below f).
Definition cur (l : line) : parts := Parts (cur_above l) (cur_texts l) (cur_below l).

Lemma cur_none l : l_fix l = None -> cur l = Parts [] (l_raw l) [].
Proof. intro E. unfold cur, cur_above, cur_texts, cur_below. rewrite E. reflexivity. Qed.

Lemma line_bytes_cur l : line_bytes l = cur_above l ++ cur_texts l ++ cur_below l.
Proof. unfold line_bytes, cur_above, cur_texts, cur_below. destruct (l_fix l); [|rewrite app_nil_r]; reflexivity. Qed.

(* the block of raw line number j (of n): the first one carries the lines inserted
   above, the last one those inserted below *)
Definition blk (above below : list str) (n j : nat) (t : str) : block :=
  Block (if Nat.eqb j 0 then above else []) t (if Nat.eqb (S j) n then below else []).

Fixpoint blocks_from (above below : list str) (ts : list str) : list block :=
  match ts with
  | [] => []
  | t :: ts' => Block above t (match ts' with [] => below | _ => [] end) :: blocks_from [] below ts'
  end.

Definition blocks (p : parts) : list block := blocks_from (p_above p) (p_below p) (p_texts p).

Definition blocks_of_line (l : line) : list block := blocks (cur l).

Definition blocks_of_store (ls : list line) : list block := flat_map blocks_of_line ls.

Lemma blocks_nth p j :
  nth_error (blocks p) j = option_map (blk (p_above p) (p_below p) (length (p_texts p)) j) (nth_error (p_texts p) j).
Proof.
  destruct p as [a ts b]. unfold blocks. cbn [p_above p_texts p_below].
  revert a j; induction ts as [|t ts IH]; intros a [|j]; cbn [blocks_from nth_error option_map]; try reflexivity.
  - destruct ts; reflexivity.
  - rewrite IH. destruct (nth_error ts j); [|reflexivity]. unfold blk. cbn. destruct (Nat.eqb j 0); reflexivity.
Qed.

Lemma blocks_length p : length (blocks p) = length (p_texts p).
Proof. unfold blocks. generalize (p_above p). induction (p_texts p); intro x; cbn; auto. Qed.

Lemma blocks_plain raws : blocks (Parts [] raws []) = map (fun r => Block [] r []) raws.
Proof. unfold blocks. cbn. induction raws as [|r rs IH]; cbn; [reflexivity|]. rewrite IH. destruct rs; reflexivity. Qed.

Lemma blocks_set p j t a' t' b' :
  nth_error (p_texts p) j = Some t ->
  (j <> 0%nat -> a' = p_above p) -> (S j <> length (p_texts p) -> b' = p_below p) ->
  blocks (Parts a' (set_nth j t' (p_texts p)) b') =
  set_nth j (blk a' b' (length (p_texts p)) j t') (blocks p).
Proof.
  intros Hn Ha Hb. assert (Hj : (j < length (p_texts p))%nat) by (apply nth_error_Some; congruence).
  apply nth_error_ext. intro i. rewrite blocks_nth. cbn [p_above p_texts p_below]. rewrite set_nth_length.
  destruct (Nat.eq_dec j i) as [<-|Ne].
  - rewrite !nth_error_set_nth by (rewrite ?blocks_length; exact Hj). reflexivity.
  - rewrite !nth_error_set_nth_other by exact Ne. rewrite blocks_nth.
    destruct (nth_error (p_texts p) i); [|reflexivity]. cbn [option_map]. unfold blk. do 2 f_equal.
    + destruct (Nat.eqb_spec i 0); [apply Ha; lia|reflexivity].
    + destruct (Nat.eqb_spec (S i) (length (p_texts p))); [apply Hb; lia|reflexivity].
Qed.

Lemma flat_blocks_from a b ts :
  ts <> [] -> flat_blocks (blocks_from a b ts) = concat a ++ concat ts ++ concat b.
Proof.
  unfold flat_blocks. revert a; induction ts as [|t ts IH]; intros a Hne; [congruence|].
  cbn [blocks_from map concat]. unfold flat_block at 1. cbn [b_above b_text b_below]. destruct ts as [|t2 ts].
  - cbn. rewrite !app_nil_r. reflexivity.
  - rewrite IH by discriminate. cbn [concat app]. rewrite app_nil_r, <- !app_assoc. reflexivity.
Qed.

Lemma flat_blocks_app x y : flat_blocks (x ++ y) = flat_blocks x ++ flat_blocks y.
Proof. unfold flat_blocks. rewrite map_app, concat_app. reflexivity. Qed.

(* [n] = the number of the first raw line, [m] = how many raw lines there are *)
Definition wf_parts (n : Z) (m : nat) (p : parts) : Prop :=
  1 <= n /\ m <> 0%nat /\ length (p_texts p) = m.

Definition wf_line (l : line) : Prop := wf_parts (l_lineno l) (length (l_raw l)) (cur l).

Definition preach (n : Z) (p p' : parts) (log : list entry) : Prop :=
  forall pre post, Z.of_nat (length pre) = n - 1 ->
    reach (pre ++ blocks p ++ post) log (pre ++ blocks p' ++ post).

(* what no action names by its line number is unchanged; the lines inserted above /
   below go with the first / last raw line *)
Definition quiet (n : Z) (m : nat) (p p' : parts) (acts : list (descr * Z)) : Prop :=
  (forall j, ~ In (n + Z.of_nat j) (map snd acts) -> nth_error (p_texts p') j = nth_error (p_texts p) j) /\
  (~ In n (map snd acts) -> p_above p' = p_above p) /\
  (~ In (n + Z.of_nat m - 1) (map snd acts) -> p_below p' = p_below p).

Lemma quiet_trans n m p1 p2 p3 a1 a2 : quiet n m p1 p2 a1 -> quiet n m p2 p3 a2 -> quiet n m p1 p3 (a1 ++ a2).
Proof.
  intros (T1 & A1 & B1) (T2 & A2 & B2). unfold quiet. rewrite map_app. setoid_rewrite in_app_iff.
  repeat split; intros; [rewrite T2, T1|rewrite A2, A1|rewrite B2, B1]; tauto.
Qed.

Lemma quiet_refl n m p acts : quiet n m p p acts.
Proof. repeat split; reflexivity. Qed.

Lemma quiet_nil n m p p' : quiet n m p p' [] -> p' = p.
Proof.
  intros (T & A & B). destruct p, p'. cbn in *. f_equal; [apply A|apply nth_error_ext; intro j; apply T|apply B]; auto.
Qed.

Lemma has_sort_app a b : has_sort (a ++ b) = has_sort a || has_sort b.
Proof. unfold has_sort. apply existsb_app. Qed.

Record follows (n : Z) (m : nat) (p p' : parts) (acts : list (descr * Z)) : Prop := {
  fo_len : length (p_texts p') = length (p_texts p);
  fo_nosort : has_sort (map entry_of acts) = false;
  fo_quiet : quiet n m p p' acts;
  fo_reach : preach n p p' (map entry_of acts)
}.

Lemma follows_refl n m p : follows n m p p [].
Proof. split; auto; [apply quiet_refl|intros pre post _; constructor]. Qed.

Lemma follows_trans n m p1 p2 p3 a1 a2 :
  follows n m p1 p2 a1 -> follows n m p2 p3 a2 -> follows n m p1 p3 (a1 ++ a2).
Proof.
  intros [L1 S1 Q1 R1] [L2 S2 Q2 R2]. split.
  - congruence.
  - rewrite map_app, has_sort_app, S1, S2. reflexivity.
  - eapply quiet_trans; eassumption.
  - rewrite map_app. intros pre post Hp. eapply reach_app; [apply R1|apply R2]; exact Hp.
Qed.

(* the simulation step: an action on raw line j that turns block j into its new form *)
Lemma follows_one n m p j t a' t' b' d :
  wf_parts n m p -> nth_error (p_texts p) j = Some t ->
  (j <> 0%nat -> a' = p_above p) -> (S j <> m -> b' = p_below p) ->
  needs_line (action_of d) = true ->
  In (blk a' b' m j t') (act_block (action_of d) (blk (p_above p) (p_below p) m j t)) ->
  follows n m p (Parts a' (set_nth j t' (p_texts p)) b') [(d, n + Z.of_nat j)].
Proof.
  intros (W1 & _ & <-) Hn Ha Hb Hl Hin. split; cbn [p_above p_texts p_below map snd].
  - apply set_nth_length.
  - destruct d; try reflexivity; discriminate Hl.
  - repeat split.
    + intros j0 Hj. apply nth_error_set_nth_other. intros ->. apply Hj. left. reflexivity.
    + intro H. apply Ha. intros ->. apply H. left. cbn. lia.
    + intro H. apply Hb. intro E. apply H. left. cbn. lia.
  - intros pre post Hp. apply reach_one. unfold entry_of, act_entry. cbn [fst snd]. rewrite Hl.
    destruct (Z.to_N (n + Z.of_nat j)) eqn:E; [lia|].
    replace (N.to_nat (N.pos p0 - 1)) with (length pre + j)%nat by lia.
    rewrite (blocks_set p j t) by assumption.
    refine (at_index_embedded pre post (blocks p) j _ _ _ _ Hin). rewrite blocks_nth, Hn. reflexivity.
Qed.

(* Delete: the first k texts are already empty *)
Lemma set_nth_repeat_skipn {A} (x : A) k ts :
  (k < length ts)%nat ->
  set_nth k x (repeat x k ++ skipn k ts) = repeat x (S k) ++ skipn (S k) ts.
Proof.
  revert ts; induction k as [|k IH]; intros ts H; destruct ts as [|t ts]; simpl in *; try lia.
  - reflexivity.
  - f_equal. apply IH. lia.
Qed.

Lemma follows_delete n a ts b k : forall i, (i + k = length ts)%nat -> 1 <= n ->
  follows n (length ts) (Parts a (repeat [] i ++ skipn i ts) b) (Parts a (repeat [] (length ts)) b)
          (delete_actions n k (Z.of_nat i)).
Proof.
  induction k as [|k IH]; intros i Hi Hn; cbn [delete_actions].
  - replace i with (length ts) by lia. rewrite skipn_all, app_nil_r. apply follows_refl.
  - assert (L : length (repeat (@nil N) i ++ skipn i ts) = length ts)
      by (rewrite app_length, repeat_length, skipn_length; lia).
    destruct (nth_error (repeat (@nil N) i ++ skipn i ts) i) as [t|] eqn:Ht;
      [|apply nth_error_None in Ht; lia].
    apply (follows_trans _ _ _ (Parts a (repeat [] (S i) ++ skipn (S i) ts) b) _ [_]).
    + rewrite <- set_nth_repeat_skipn by lia.
      apply (follows_one n (length ts) (Parts a _ b) i t a [] b DDelete); auto.
      * repeat split; [exact Hn|lia|exact L].
      * left. reflexivity.
    + replace (Z.of_nat i + 1) with (Z.of_nat (S i)) by lia. apply IH; [lia|exact Hn].
Qed.

Lemma skip_false o f : skip o f = Ok false -> shall_be_logged o (f_diag f) = true.
Proof.
  unfold skip. destruct (f_diag f); [discriminate|]. intro H. inversion H.
  destruct (shall_be_logged o (n :: s)); [reflexivity|discriminate].
Qed.

Lemma real_line_ok l u : real_line l = Ok u -> 1 <= l_lineno l.
Proof. unfold real_line. destruct (1 <=? l_lineno l) eqn:E; [lia|discriminate]. Qed.

Lemma prelude o l f (body : fixst -> result line) l' :
  l_fix l = Some f ->
  (do _ <- real_line l; do f <- the_fix l; do sk <- skip o f; if sk then Ok l else body f) = Ok l' ->
  l' = l \/ (shall_be_logged o (f_diag f) = true /\ body f = Ok l').
Proof.
  intro E. unfold bind, the_fix. rewrite E. destruct (real_line l); [|discriminate].
  destruct (skip o f) as [[|]|] eqn:K; [| |discriminate]; intro H.
  - inversion H. auto.
  - right. split; [apply skip_false; exact K|exact H].
Qed.

Lemma nl_eq : Autofix.nl = ApplyLog.nl.
Proof. reflexivity. Qed.

(* InsertBelow, in the words of the specification: the last text gets its terminator *)
Definition last_terminated (ts below : list str) : list str :=
  match rev ts with
  | [] => ts
  | tl :: _ => set_nth (length ts - 1) (terminate_for_insert (Block [] tl below)) ts
  end.

Lemma insert_below_texts (ts below : list str) :
  match rev ts, below with
  | last :: _, [] =>
    if negb (Autofix.is_nil last) && negb (has_suffix_nl last)
    then set_nth (length ts - 1) (last ++ Autofix.nl) ts
    else ts
  | _, _ => ts
  end = last_terminated ts below.
Proof.
  unfold last_terminated, terminate_for_insert. cbn [b_text b_below].
  destruct (rev ts) as [|tl r] eqn:Er; [destruct below; reflexivity|].
  apply rev_last_nth in Er. destruct below; cbn [ApplyLog.is_nil andb].
  - change (ends_nl tl) with (has_suffix_nl tl). change (ApplyLog.is_nil tl) with (Autofix.is_nil tl).
    destruct (negb (Autofix.is_nil tl) && negb (has_suffix_nl tl)); [reflexivity|].
    symmetry. apply set_nth_same. exact Er.
  - symmetry. apply set_nth_same. exact Er.
Qed.

(* an operation that is not skipped: the new parts and the described actions *)
Inductive edit (o : opts) (n : Z) (m : nat) (p : parts) : op -> parts -> list (descr * Z) -> Prop :=
| ed_replace_after pre from to j x y :
    is_autofix o = true -> nth_error (p_texts p) j = Some (x ++ (pre ++ from) ++ y) ->
    edit o n m p (OReplaceAfter pre from to)
         (Parts (p_above p) (set_nth j (x ++ (pre ++ to) ++ y) (p_texts p)) (p_below p))
         [(DRepl from to, n + Z.of_nat j)]
| ed_replace_described pre from to j :
    is_autofix o = false ->
    edit o n m p (OReplaceAfter pre from to) p [(DRepl from to, n + Z.of_nat j)]
| ed_replace_at j ti from to x y :
    nth_error (p_texts p) j = Some (x ++ from ++ y) -> from ++ y <> [] ->
    edit o n m p (OReplaceAt (Z.of_nat j) ti from to)
         (Parts (p_above p) (set_nth j (x ++ to ++ y) (p_texts p)) (p_below p))
         [(DRepl from to, n + Z.of_nat j)]
| ed_insert_above t :
    edit o n m p (OInsertAbove t) (Parts (p_above p ++ [t ++ Autofix.nl]) (p_texts p) (p_below p))
         [(DAbove t, n + 0)]
| ed_insert_below t :
    edit o n m p (OInsertBelow t)
         (Parts (p_above p) (last_terminated (p_texts p) (p_below p)) (p_below p ++ [t ++ Autofix.nl]))
         [(DBelow t, n + (Z.of_nat m - 1))]
| ed_delete :
    edit o n m p ODelete (Parts (p_above p) (repeat [] (length (p_texts p))) (p_below p))
         (delete_actions n (length (p_texts p)) 0)
| ed_custom ri : edit o n m p (OCustom ri) p [(DChmod, n + ri)].

Definition edited (l : line) (f : fixst) (text : str) (q : parts) (acts : list (descr * Z)) : line :=
  with_fix (with_text l text)
    (Fix (p_above q) (p_texts q) (p_below q) (f_modified f) (f_actions f ++ acts) (f_level f) (f_diag f)).

Lemma edited_self l f : l_fix l = Some f -> edited l f (l_text l) (parts_of f) [] = l.
Proof.
  destruct l as [fi n r t [f0|]]; cbn; intro E; inversion E; subst f0.
  destruct f. unfold edited. cbn. rewrite app_nil_r. reflexivity.
Qed.

Lemma do_op_edit o p l l' f :
  l_fix l = Some f -> do_op o p l = Ok l' ->
  l' = l \/ (shall_be_logged o (f_diag f) = true /\
             exists text q acts, edit o (l_lineno l) (length (l_raw l)) (parts_of f) p q acts /\
                                 l' = edited l f text q acts).
Proof.
  intros E H. destruct p as [pre from to|rawIndex textIndex from to|t|t| |ri]; cbn [do_op] in H.
  - unfold replace_after in H. apply (prelude _ _ _ _ _ E) in H as [->|[S H]]; [auto|]. cbv zeta in H.
    destruct (negb _) in H; [inversion H; auto|].
    destruct (first_replace _ _ _ _) as [[ri rep]|] eqn:FR in H; [|inversion H; auto].
    apply first_replace_spec in FR as (j & x & y & -> & Hn & ->). cbn [plus] in H.
    right. split; [exact S|]. destruct (is_autofix o) eqn:IA; inversion H; eexists _, _, _.
    + split; [apply (ed_replace_after o _ _ (parts_of f) pre from to j x y IA Hn)|reflexivity].
    + split; [apply (ed_replace_described o _ _ (parts_of f) pre from to j IA)|reflexivity].
  - unfold replace_at in H. destruct (str_eqb from to); [discriminate|].
    apply (prelude _ _ _ _ _ E) in H as [->|[S H]]; [auto|].
    destruct (_ || _) eqn:Rg in H; [discriminate|]. cbv zeta in H.
    destruct (negb _) eqn:Ti in H; [discriminate|]. destruct (textIndex <? 0) eqn:T0 in H; [discriminate|].
    destruct (strip_prefix _ _) as [rest|] eqn:SP in H; [|discriminate]. apply strip_prefix_some in SP.
    assert (exists j, rawIndex = Z.of_nat j) as [j ->] by (exists (Z.to_nat rawIndex); lia).
    rewrite Nat2Z.id in *. set (text := nth j (f_texts f) []) in *.
    assert (Hn : nth_error (f_texts f) j = Some (firstn (Z.to_nat textIndex) text ++ from ++ rest)).
    { rewrite <- SP, firstn_skipn. apply nth_error_nth'. lia. }
    assert (Hne : from ++ rest <> []).
    { rewrite <- SP. intro X. apply (f_equal (@length _)) in X. rewrite skipn_length in X. cbn in X. lia. }
    right. split; [exact S|]. inversion H. eexists _, _, _.
    split; [apply (ed_replace_at o _ _ (parts_of f) j textIndex from to _ rest Hn Hne)|reflexivity].
  - unfold insert_above in H. apply (prelude _ _ _ _ _ E) in H as [->|[S H]]; [auto|].
    right. split; [exact S|]. inversion H. eexists _, _, _. split; [apply ed_insert_above|reflexivity].
  - unfold insert_below in H. apply (prelude _ _ _ _ _ E) in H as [->|[S H]]; [auto|].
    cbv zeta in H. rewrite insert_below_texts in H.
    right. split; [exact S|]. inversion H. eexists _, _, _. split; [apply ed_insert_below|reflexivity].
  - unfold delete in H. apply (prelude _ _ _ _ _ E) in H as [->|[S H]]; [auto|].
    right. split; [exact S|]. inversion H. eexists _, _, _. split; [apply ed_delete|reflexivity].
  - unfold custom, bind, the_fix in H. rewrite E in H.
    destruct (skip o f) as [[|]|] eqn:K in H; inversion H; [auto|].
    right. split; [apply skip_false; exact K|]. eexists _, _, _. split; [apply ed_custom|reflexivity].
Qed.

Lemma edit_follows o n m p op q acts :
  is_autofix o = true -> wf_parts n m p -> edit o n m p op q acts -> follows n m p q acts.
Proof.
  intros Ha W Ed. pose proof W as (W1 & W2 & W3). destruct Ed as [pre from to j x y _ Hn|pre from to j IA|j ti from to x y Hn _|t|t| |ri].
  - apply (follows_one n m p j _ _ _ _ (DRepl from to) W Hn); auto.
    cbn [action_of act_block]. apply in_map with (f := fun x => Block _ x _).
    replace (x ++ (pre ++ from) ++ y) with ((x ++ pre) ++ from ++ y) by (rewrite <- !app_assoc; reflexivity).
    replace (x ++ (pre ++ to) ++ y) with ((x ++ pre) ++ to ++ y) by (rewrite <- !app_assoc; reflexivity).
    apply replace_each_in.
  - congruence.
  - apply (follows_one n m p j _ _ _ _ (DRepl from to) W Hn); auto.
    cbn [action_of act_block]. apply in_map with (f := fun x => Block _ x _). apply replace_each_in.
  - destruct p as [a [|t0 ts] b]; [cbn in W3; congruence|].
    apply (follows_one n m (Parts a (t0 :: ts) b) 0 t0 _ t0 b (DAbove t) W eq_refl); auto; [congruence|].
    left. reflexivity.
  - unfold last_terminated. destruct (rev (p_texts p)) as [|tl r] eqn:Er.
    { apply (f_equal (@length _)) in Er. rewrite rev_length in Er. cbn in Er. lia. }
    apply rev_last_nth in Er. rewrite W3 in Er.
    replace (Z.of_nat m - 1) with (Z.of_nat (m - 1)) by lia. rewrite W3.
    apply (follows_one n m p (m - 1) tl _ _ _ (DBelow t) W Er); auto; [lia|].
    unfold blk, act_block, action_of, terminate_for_insert. cbn [b_above b_text b_below].
    replace (Nat.eqb (S (m - 1)) m) with true by (symmetry; apply Nat.eqb_eq; lia). left. reflexivity.
  - rewrite <- W3. destruct p as [a ts b]. apply (follows_delete n a ts b (length ts) 0); [reflexivity|exact W1].
  - split; auto; [apply quiet_refl|]. intros pre post _. apply reach_one. left. reflexivity.
Qed.

(* the operations of one transaction, in order; those that changed nothing are left out *)
Inductive edits (o : opts) (n : Z) (m : nat) : parts -> list op -> parts -> list (descr * Z) -> Prop :=
| eds_nil p : edits o n m p [] p []
| eds_skip p op ops q acts : edits o n m p ops q acts -> edits o n m p (op :: ops) q acts
| eds_cons p op p1 a1 ops q acts :
    edit o n m p op p1 a1 -> edits o n m p1 ops q acts -> edits o n m p (op :: ops) q (a1 ++ acts).

Lemma edits_follows o n m p ops q acts :
  is_autofix o = true -> wf_parts n m p -> edits o n m p ops q acts -> follows n m p q acts.
Proof.
  intros Ha W Es. induction Es as [p|p op ops q acts _ IH|p op p1 a1 ops q acts Ed _ IH]; [apply follows_refl|exact (IH W)|].
  pose proof (edit_follows _ _ _ _ _ _ _ Ha W Ed) as F1. apply (follows_trans _ _ _ _ _ _ _ F1), IH.
  destruct W as (W1 & W2 & W3). repeat split; [exact W1|exact W2|]. exact (eq_trans (fo_len _ _ _ _ _ F1) W3).
Qed.

Lemma do_ops_edit o ps : forall l f l',
  l_fix l = Some f -> do_ops o ps l = Ok l' ->
  exists text q acts, l' = edited l f text q acts /\
    (acts <> [] -> shall_be_logged o (f_diag f) = true) /\
    edits o (l_lineno l) (length (l_raw l)) (parts_of f) ps q acts.
Proof.
  induction ps as [|p ps IH]; intros l f l' E; cbn [do_ops].
  - intro H. inversion H; subst l'. exists (l_text l), (parts_of f), [].
    split; [symmetry; apply edited_self; exact E|]. split; [congruence|constructor].
  - unfold bind at 1. destruct (do_op o p l) as [l1|] eqn:D; [|discriminate]. intro H.
    destruct (do_op_edit o p l l1 f E D) as [->|(S & t1 & [a1 ts1 b1] & c1 & Ed & ->)].
    + destruct (IH l f l' E H) as (t2 & q2 & c2 & -> & S2 & Es). exists t2, q2, c2. auto using eds_skip.
    + destruct (IH (edited l f t1 (Parts a1 ts1 b1) c1) _ l' eq_refl H) as (t2 & q2 & c2 & -> & _ & Es).
      exists t2, q2, (c1 ++ c2). split; [unfold edited; cbn; rewrite app_assoc; reflexivity|].
      split; [intros _; exact S|]. exact (eds_cons _ _ _ _ _ _ _ _ _ _ Ed Es).
Qed.

Definition idle (l : line) : Prop :=
  match l_fix l with
  | None => True
  | Some f => f_actions f = [] /\ f_diag f = [] /\ f_level f = false
  end.

(* fix := line.Autofix(); fix.Notef(diag) on an idle line *)
Definition opened (l : line) (d : str) : line :=
  with_fix l (Fix (cur_above l) (cur_texts l) (cur_below l) (line_modified l) [] true d).

Lemma open_fix l d : idle l -> exists l1 f1, autofix l = Ok (l1, f1) /\ set_diag d l1 = Ok (opened l d).
Proof.
  unfold idle, autofix, opened, cur_above, cur_texts, cur_below, line_modified.
  destruct (l_fix l) as [f|] eqn:E.
  - intros (A & D & L). rewrite D. eexists _, _. split; [reflexivity|].
    unfold set_diag, the_fix, bind. rewrite E, L, D, A. reflexivity.
  - intros _. eexists _, _. split; reflexivity.
Qed.

Lemma apply_spec o l f :
  l_fix l = Some f -> f_level f = true ->
  apply o l = Ok (with_fix l (reset f),
                  if shall_be_logged o (f_diag f) && is_autofix o then f_actions f else []).
Proof.
  intros E L. unfold apply, the_fix, bind. rewrite E, L. cbn [negb].
  destruct (shall_be_logged o (f_diag f)), (is_autofix o), (f_actions f); reflexivity.
Qed.

(* the line after Apply: idle again, marked as modified if an action was described *)
Definition settled (l : line) (text : str) (q : parts) (acts : list (descr * Z)) : line :=
  Line (l_file l) (l_lineno l) (l_raw l) text
       (Some (Fix (p_above q) (p_texts q) (p_below q)
                  (match acts with [] => line_modified l | _ => true end) [] false [])).

Lemma is_autofix_on o : o_autofix o = true -> is_autofix o = true.
Proof. intro H. unfold is_autofix. rewrite H. reflexivity. Qed.

Lemma do_txn_spec o t l0 l4 printed :
  o_autofix o = true -> idle l0 -> do_txn o t l0 = Ok (l4, printed) ->
  exists text q, l4 = settled l0 text q printed /\
    edits o (l_lineno l0) (length (l_raw l0)) (cur l0) (t_ops t) q printed.
Proof.
  intros Ha I. unfold do_txn. destruct (open_fix l0 (t_diag t) I) as (l1 & f1 & -> & SD). cbn [bind]. rewrite SD. cbn [bind].
  destruct (do_ops o (t_ops t) (opened l0 (t_diag t))) as [l3|] eqn:DO; [|discriminate]. cbn [bind].
  destruct (do_ops_edit o _ (opened l0 (t_diag t)) _ _ eq_refl DO) as (text & q & acts & -> & Sel & Es). cbn [f_diag] in Sel.
  erewrite apply_spec by reflexivity. rewrite (is_autofix_on o Ha). cbn [edited with_fix f_diag f_actions app].
  intro H. inversion H. exists text, q.
  assert (EA : (if shall_be_logged o (t_diag t) && true then acts else []) = acts).
  { destruct acts; [destruct (_ && _); reflexivity|]. rewrite Sel by discriminate. reflexivity. }
  rewrite EA. split; [reflexivity|exact Es].
Qed.

Fixpoint numbered (start : Z) (ls : list line) : Prop :=
  match ls with
  | [] => True
  | l :: ls' => l_lineno l = start /\ numbered (start + Z.of_nat (length (l_raw l))) ls'
  end.

Lemma blocks_of_store_app a b : blocks_of_store (a ++ b) = blocks_of_store a ++ blocks_of_store b.
Proof. unfold blocks_of_store. apply flat_map_app. Qed.

Lemma numbered_offset start s1 l s2 :
  numbered start (s1 ++ l :: s2) -> Forall wf_line s1 ->
  Z.of_nat (length (blocks_of_store s1)) = l_lineno l - start.
Proof.
  revert start; induction s1 as [|x s1 IH]; intros start H W; simpl in *.
  - destruct H as [H _]. lia.
  - destruct H as [Hx H]. inversion W as [|? ? (_ & _ & Wx) Ws]; subst.
    specialize (IH _ H Ws). unfold blocks_of_store in *. cbn [flat_map].
    unfold blocks_of_line at 1. rewrite app_length, blocks_length, Wx. lia.
Qed.

Lemma numbered_replace start s1 l l' s2 :
  numbered start (s1 ++ l :: s2) -> l_lineno l' = l_lineno l -> l_raw l' = l_raw l ->
  numbered start (s1 ++ l' :: s2).
Proof.
  revert start; induction s1 as [|x s1 IH]; intros start H E1 E2; simpl in *.
  - rewrite E1, E2. exact H.
  - destruct H as [Hx H]. split; [exact Hx|]. apply IH; assumption.
Qed.

Definition entries_of (file : str) (log : list logline) : list entry :=
  map (fun g => entry_of (g_descr g, g_lineno g)) (filter (fun g => str_eqb (g_file g) file) log).

Definition acts_of (file : str) (log : list logline) : list (descr * Z) :=
  map (fun g => (g_descr g, g_lineno g)) (filter (fun g => str_eqb (g_file g) file) log).

Lemma entries_of_acts file log : entries_of file log = map entry_of (acts_of file log).
Proof. unfold entries_of, acts_of. rewrite map_map. reflexivity. Qed.

Lemma acts_of_app file a b : acts_of file (a ++ b) = acts_of file a ++ acts_of file b.
Proof. unfold acts_of. rewrite filter_app, map_app. reflexivity. Qed.

Lemma acts_of_log_of file l printed : l_file l = file -> acts_of file (log_of l printed) = printed.
Proof.
  intros <-. unfold acts_of, log_of. induction printed as [|[d z] ps IH]; [reflexivity|].
  cbn [map filter g_file]. rewrite str_eqb_refl. cbn [map g_descr g_lineno fst snd]. f_equal. exact IH.
Qed.

Lemma entries_of_app file a b : entries_of file (a ++ b) = entries_of file a ++ entries_of file b.
Proof. rewrite !entries_of_acts, acts_of_app. apply map_app. Qed.

Lemma entries_of_log_of file l printed :
  l_file l = file -> entries_of file (log_of l printed) = map entry_of printed.
Proof. intro E. rewrite entries_of_acts, acts_of_log_of by exact E. reflexivity. Qed.

Lemma run_invariant o keys (Q : event -> Prop) (P : state -> Prop) :
  (forall e st st', Q e -> P st -> step o keys e st = Ok st' -> P st') ->
  forall evs st st', Forall Q evs -> P st -> run o keys evs st = Ok st' -> P st'.
Proof.
  intro Hs. induction evs as [|e evs IH]; intros st st' Hq HP; cbn [run].
  - intro H. inversion H; subst. exact HP.
  - unfold bind. destruct (step o keys e st) as [s1|] eqn:S; [|discriminate].
    inversion Hq; subst. eauto.
Qed.

Lemma run_app o keys a b st : run o keys (a ++ b) st = do s <- run o keys a st; run o keys b s.
Proof.
  revert st; induction a as [|e a IH]; intro st; cbn [app run bind]; [reflexivity|].
  unfold bind. destruct (step o keys e st); [apply IH|reflexivity].
Qed.

Lemma step_txn o keys t st st' :
  step o keys (ETxn t) st = Ok st' ->
  st' = st \/ exists l0 l1 printed,
    nth_error (s_store st) (t_line t) = Some l0 /\ do_txn o t l0 = Ok (l1, printed) /\
    st' = State (set_nth (t_line t) l1 (s_store st)) (s_log st ++ log_of l1 printed) (s_ops st).
Proof.
  cbn [step]. destruct (nth_error _ _) as [l0|]; [|intro H; inversion H; auto].
  unfold bind. destruct (do_txn o t l0) as [[l1 printed]|] eqn:DT; [|discriminate].
  intro H. inversion H. right. eauto 6.
Qed.

(* Autofix.Custom: the fixer passed to it has an effect outside the line
   (checkExecutable: chmod) *)

Lemma skip_diag o f : f_diag f <> [] -> skip o f = Ok (negb (shall_be_logged o (f_diag f))).
Proof. unfold skip. destruct (f_diag f); [contradiction|reflexivity]. Qed.

Lemma custom_spec o ri d l f :
  l_fix l = Some f -> f_diag f <> [] ->
  custom o ri d l =
  Ok (if shall_be_logged o (f_diag f) then (with_fix l (describe ri d l f), true) else (l, false)).
Proof.
  intros E D. unfold custom, the_fix, bind. rewrite E, (skip_diag o f D).
  destruct (shall_be_logged o (f_diag f)); reflexivity.
Qed.

(* Custom as coded: `if fix.skip() { return }; fixer(ShowAutofix, Autofix)` -- the fixer
   runs iff the diagnostic format is selected; otherwise nothing at all happens *)
Lemma custom_runs_iff_selected o ri d l l' ran f :
  l_fix l = Some f -> custom o ri d l = Ok (l', ran) ->
  ran = shall_be_logged o (f_diag f) /\ (ran = false -> l' = l).
Proof.
  intros Hf. destruct (f_diag f) as [|n s] eqn:D.
  - unfold custom, the_fix, bind, skip. rewrite Hf, D. discriminate.
  - rewrite (custom_spec o ri d l f Hf) by congruence. rewrite D.
    destruct (shall_be_logged o (n :: s)); intro H; inversion H; split; auto; discriminate.
Qed.

(* checkExecutable on an executable file that is not committed: one fix on the
   whole-file line, whose only operation is the Custom fixer *)
Lemma check_executable_eq o file x c :
  check_executable o file x c =
  Ok (if x && negb c && shall_be_logged o not_executable_format
      then (if is_autofix o then [(DChmod, 0)] else [], if o_autofix o then [OpChmod file] else [])
      else ([], [])).
Proof.
  unfold check_executable. destruct x; [|reflexivity]. destruct c; [reflexivity|]. cbn [negb andb].
  destruct (open_fix (Line file 0 [] [] None) not_executable_format I) as (l1 & f1 & AF & SD).
  rewrite AF. cbn [bind]. rewrite SD. cbn [bind].
  erewrite custom_spec by (reflexivity || discriminate). cbn [f_diag].
  destruct (shall_be_logged o not_executable_format) eqn:S; cbn [bind andb];
    (erewrite apply_spec by reflexivity); cbn [f_diag describe]; rewrite S; reflexivity.
Qed.

(* the executable-bit fix: if the chmod was done, then --autofix was given, the
   diagnostic "Should not be executable." is selected by --only, and exactly the line
   "Clearing executable bits" was printed for the file *)
Lemma custom_effect_implies_logged o file x c printed ops :
  check_executable o file x c = Ok (printed, ops) -> ops <> [] ->
  ops = [OpChmod file] /\ printed = [(DChmod, 0)] /\ o_autofix o = true /\
  shall_be_logged o not_executable_format = true.
Proof.
  rewrite check_executable_eq. unfold is_autofix.
  destruct (x && negb c), (shall_be_logged o not_executable_format), (o_autofix o);
    intros H N; inversion H; subst; [auto|contradiction..].
Qed.

Lemma custom_skipped_no_effect o file x c :
  shall_be_logged o not_executable_format = false ->
  check_executable o file x c = Ok ([], []).
Proof. intro S. rewrite check_executable_eq, S, andb_false_r. reflexivity. Qed.

Definition no_sort_event (e : event) : Prop := match e with ESort => False | _ => True end.

Inductive paired (file : str) : list fsop -> Prop :=
| paired_nil : paired file []
| paired_save c ops : paired file ops ->
    paired file (save_seq file c ++ ops)
| paired_chmod p ops : paired file ops -> paired file (OpChmod p :: ops).

Lemma paired_app file a b : paired file a -> paired file b -> paired file (a ++ b).
Proof. induction 1; intro; cbn; [assumption|constructor; auto|constructor; auto]. Qed.

Lemma disk_after_save_seq file c before rest :
  disk_after file before None (save_seq file c ++ rest) = disk_after file c None rest.
Proof. unfold save_seq. cbn [app disk_after]. rewrite !str_eqb_refl. reflexivity. Qed.

Lemma disk_after_paired file ops : paired file ops -> forall before rest,
  disk_after file before None (ops ++ rest) = disk_after file (disk_after file before None ops) None rest.
Proof.
  induction 1 as [|c ops P IH|p ops P IH]; intros before rest.
  - reflexivity.
  - rewrite <- app_assoc, !disk_after_save_seq. apply IH.
  - cbn [app disk_after]. apply IH.
Qed.

Lemma changed_files_single file ls : Forall (fun l => l_file l = file) ls ->
  forall seen, changed_files ls seen =
    if existsb line_modified ls && negb (existsb (str_eqb file) seen) then [file] else [].
Proof.
  induction ls as [|l ls IH]; intros F seen; [reflexivity|].
  inversion F as [|? ? Fl Fls]; subst. cbn [changed_files existsb].
  destruct (line_modified l); cbn [andb orb].
  - destruct (existsb (str_eqb (l_file l)) seen) eqn:S; cbn [negb].
    + rewrite IH by assumption. rewrite S. rewrite andb_false_r. reflexivity.
    + rewrite IH by assumption. cbn [existsb]. rewrite str_eqb_refl. cbn. rewrite andb_false_r. reflexivity.
  - apply IH. assumption.
Qed.

Lemma save_single o file ls :
  o_autofix o = true -> Forall (fun l => l_file l = file) ls ->
  save o ls = if existsb line_modified ls then (save_seq file (file_content file ls), true) else ([], false).
Proof.
  intros Ha F. unfold save. rewrite Ha. cbn [negb].
  rewrite (changed_files_single file ls F []). cbn [existsb negb]. rewrite andb_true_r.
  destruct (existsb line_modified ls); cbn; rewrite ?app_nil_r; reflexivity.
Qed.

Lemma flat_blocks_of_line l : wf_line l -> flat_blocks (blocks_of_line l) = concat (line_bytes l).
Proof.
  intros (_ & W2 & W3). rewrite line_bytes_cur, !concat_app. apply flat_blocks_from.
  intro E. cbn [cur p_texts] in W3. rewrite E in W3. exact (W2 (eq_sym W3)).
Qed.

Lemma file_content_blocks file ls :
  Forall wf_line ls -> Forall (fun l => l_file l = file) ls ->
  flat_blocks (blocks_of_store ls) = file_content file ls.
Proof.
  unfold file_content, blocks_of_store. induction ls as [|l ls IH]; intros W F; [reflexivity|].
  inversion W as [|? ? Wl Wls]; inversion F as [|? ? Fl Fls]; subst.
  cbn [flat_map]. rewrite flat_blocks_app, concat_app, IH by assumption.
  rewrite flat_blocks_of_line by assumption. rewrite str_eqb_refl. reflexivity.
Qed.

Lemma flat_init_blocks content : flat_blocks (init_blocks content) = content.
Proof.
  unfold init_blocks. rewrite <- (phys_lines_concat content) at 2.
  induction (phys_lines content) as [|l ls IH]; [reflexivity|].
  unfold flat_blocks in *. cbn [map concat]. rewrite IH. unfold flat_block. cbn. rewrite app_nil_r. reflexivity.
Qed.

Definition since_load (file : str) (log : list logline) (l : line) : Prop :=
  quiet (l_lineno l) (length (l_raw l)) (Parts [] (l_raw l) []) (cur l) (acts_of file log).

Lemma since_load_mono file log log' l : since_load file log l -> since_load file (log ++ log') l.
Proof.
  unfold since_load. intro Q. rewrite acts_of_app. exact (quiet_trans _ _ _ _ _ _ _ Q (quiet_refl _ _ _ _)).
Qed.

(* [inv_paired], [inv_clean]: the operations so far are complete save pairs for this
   file, or chmods; as long as no line is modified the lines and the disk hold the
   original content *)
Record inv (file content : str) (st : state) : Prop := {
  inv_wf : Forall wf_line (s_store st);
  inv_idle : Forall idle (s_store st);
  inv_num : numbered 1 (s_store st);
  inv_file : Forall (fun l => l_file l = file) (s_store st);
  inv_nosort : has_sort (entries_of file (s_log st)) = false;
  inv_reach : reach (init_blocks content) (entries_of file (s_log st)) (blocks_of_store (s_store st));
  inv_since : Forall (since_load file (s_log st)) (s_store st);
  inv_paired : paired file (s_ops st);
  inv_clean : existsb line_modified (s_store st) = false ->
              blocks_of_store (s_store st) = init_blocks content /\
              disk_after file content None (s_ops st) = content
}.

(* an event that leaves the lines alone *)
Lemma inv_frame file content st lg ops :
  inv file content st ->
  (forall bs, reach bs (entries_of file lg) bs) -> has_sort (entries_of file lg) = false ->
  paired file ops ->
  (existsb line_modified (s_store st) = false -> forall b, disk_after file b None ops = b) ->
  inv file content (State (s_store st) (s_log st ++ lg) (s_ops st ++ ops)).
Proof.
  intros [Wf Id Nu Fi Ns Re Si Pa Cl] Rl Sl Po Do. constructor; cbn [s_store s_log s_ops]; auto.
  - rewrite entries_of_app, has_sort_app, Ns, Sl. reflexivity.
  - rewrite entries_of_app. eapply reach_app; [exact Re|apply Rl].
  - exact (Forall_impl _ (since_load_mono file _ _) Si).
  - apply paired_app; assumption.
  - intro E. destruct (Cl E) as [B D]. split; [exact B|]. rewrite disk_after_paired, D by exact Pa. exact (Do E _).
Qed.

Lemma step_inv o keys file content e st st' :
  o_autofix o = true -> no_sort_event e -> inv file content st -> step o keys e st = Ok st' -> inv file content st'.
Proof.
  intros Ha Hn I H. destruct e as [t| | |f x c]; try contradiction.
  - apply step_txn in H as [->|(l0 & l1 & printed & En & DT & ->)]; [exact I|].
    destruct I as [Wf Id Nu Fi Ns Re Si Pa Cl].
    apply nth_error_split in En as (s1 & s2 & Es & <-). rewrite Es in *. rewrite set_nth_split.
    apply Forall_split_mid in Wf as (Wf1 & W0 & Wf2). apply Forall_split_mid in Id as (Id1 & I0 & Id2).
    apply Forall_split_mid in Fi as (Fi1 & F0 & Fi2). apply Forall_split_mid in Si as (Si1 & S0 & Si2).
    destruct (do_txn_spec o t l0 l1 printed Ha I0 DT) as (text & q & -> & Ed).
    destruct (edits_follows _ _ _ _ _ _ _ (is_autofix_on o Ha) W0 Ed) as [FL FS FQ FR].
    constructor; cbn [s_store s_log s_ops].
    + apply Forall_split_mid. repeat split; auto; try apply W0. exact (eq_trans FL (proj2 (proj2 W0))).
    + apply Forall_split_mid. repeat split; auto.
    + eapply numbered_replace; [exact Nu|reflexivity|reflexivity].
    + apply Forall_split_mid. auto.
    + rewrite entries_of_app, (entries_of_log_of file _ printed), has_sort_app, Ns by exact F0. exact FS.
    + rewrite entries_of_app, (entries_of_log_of file _ printed) by exact F0.
      eapply reach_app; [exact Re|]. rewrite !blocks_of_store_app. cbn [blocks_of_store flat_map].
      apply FR. pose proof (numbered_offset 1 s1 l0 s2 Nu Wf1). lia.
    + apply Forall_split_mid. split; [exact (Forall_impl _ (since_load_mono file _ _) Si1)|].
      split; [|exact (Forall_impl _ (since_load_mono file _ _) Si2)].
      unfold since_load. rewrite acts_of_app, (acts_of_log_of file _ printed) by exact F0.
      exact (quiet_trans _ _ _ _ _ _ _ S0 FQ).
    + exact Pa.
    + (* no line is modified: nothing was printed, so nothing has changed *)
      intro E. rewrite existsb_app in *. cbn [existsb] in *.
      destruct printed; [|destruct (existsb line_modified s1); discriminate E].
      apply quiet_nil in FQ as ->. rewrite blocks_of_store_app in *. exact (Cl E).
  - cbn [step] in H. rewrite (save_single o file _ Ha (inv_file _ _ _ I)) in H.
    rewrite <- (app_nil_r (s_log st)) in H.
    destruct (existsb line_modified (s_store st)) eqn:M; inversion H.
    + apply inv_frame; [exact I|intro bs; constructor|reflexivity| |rewrite M; discriminate].
      rewrite <- (app_nil_r (save_seq _ _)). repeat constructor.
    + apply inv_frame; [exact I|intro bs; constructor|reflexivity|constructor|reflexivity].
  - cbn [step] in H. rewrite check_executable_eq, (is_autofix_on o Ha), Ha in H.
    destruct (_ && _ && _); inversion H; cbn [map fst snd].
    + (* the line "Clearing executable bits" and the chmod *)
      apply inv_frame; [exact I| | |repeat constructor|reflexivity];
        unfold entries_of; cbn [map filter g_file]; destruct (str_eqb f file); try reflexivity; intro bs.
      * apply reach_one. left. reflexivity.
      * constructor.
    + apply inv_frame; [exact I|intro bs; constructor|reflexivity|constructor|reflexivity].
Qed.

Definition wf_groups (content : str) (groups : list (list str * str)) : Prop :=
  concat (map fst groups) = phys_lines content /\ Forall (fun g => fst g <> []) groups.

Lemma mk_lines_raws file groups : forall start,
  flat_map l_raw (mk_lines file start groups) = concat (map fst groups).
Proof. induction groups as [|[raws text] gs IH]; intro start; cbn; [reflexivity|]. rewrite IH. reflexivity. Qed.

Lemma mk_lines_props file groups : forall start, 1 <= start ->
  Forall (fun g : list str * str => fst g <> []) groups ->
  let ls := mk_lines file start groups in
  Forall wf_line ls /\ numbered start ls /\
  Forall (fun l => l_fix l = None /\ l_file l = file) ls /\
  blocks_of_store ls = map (fun r => Block [] r []) (concat (map fst groups)).
Proof.
  induction groups as [|[raws text] gs IH]; intros start H1 Hg; cbn.
  - repeat split; constructor.
  - inversion Hg as [|? ? Hr Hgs]; subst. cbn in Hr.
    destruct (IH (start + Z.of_nat (length raws)) ltac:(lia) Hgs) as (A & C & D & F).
    split; [constructor; [|exact A]|].
    { repeat split; cbn; [exact H1|destruct raws; [congruence|discriminate]]. }
    split; [split; [reflexivity|exact C]|]. split; [constructor; [split; reflexivity|exact D]|].
    unfold blocks_of_store in *. cbn [flat_map]. rewrite F, map_app. f_equal. apply blocks_plain.
Qed.

Lemma init_inv file content groups :
  wf_groups content groups -> inv file content (init_state file groups).
Proof.
  intros [Hc Hg]. destruct (mk_lines_props file groups 1 ltac:(lia) Hg) as (A & C & D & F).
  rewrite Hc in F. unfold init_state. constructor; cbn [s_store s_log s_ops]; try assumption; try constructor; auto.
  - eapply Forall_impl; [|exact D]. intros l [E _]. unfold idle. rewrite E. exact I.
  - eapply Forall_impl; [|exact D]. intros l [_ E]. exact E.
  - rewrite F. constructor.
  - eapply Forall_impl; [|exact D]. intros l [E _]. unfold since_load. rewrite (cur_none l E). apply quiet_refl.
Qed.

Lemma run_inv o keys file content groups evs st :
  o_autofix o = true -> wf_groups content groups -> Forall no_sort_event evs ->
  run o keys evs (init_state file groups) = Ok st -> inv file content st.
Proof.
  intros Ha Wg Hn. apply (run_invariant o keys no_sort_event (inv file content)); [|exact Hn|exact (init_inv _ _ _ Wg)].
  intros e s s'. apply step_inv. exact Ha.
Qed.

(* C03: what a save writes is the old file with the logged actions applied *)
Theorem save_consistent_with_log o keys file content groups evs st :
  o_autofix o = true -> wf_groups content groups -> Forall no_sort_event evs ->
  run o keys evs (init_state file groups) = Ok st ->
  consistent content (entries_of file (s_log st)) (file_content file (s_store st)) = true.
Proof.
  intros Ha Wg Hn R. pose proof (run_inv o keys file content groups evs st Ha Wg Hn R) as I.
  rewrite <- (file_content_blocks file) by apply I. apply reach_consistent; apply I.
Qed.

Lemma inv_save o file content st :
  o_autofix o = true -> inv file content st ->
  disk_after file content None (s_ops st ++ fst (save o (s_store st))) = flat_blocks (blocks_of_store (s_store st)).
Proof.
  intros Ha I. rewrite (save_single o file _ Ha (inv_file _ _ _ I)), disk_after_paired by apply I.
  destruct (existsb line_modified (s_store st)) eqn:M; cbn [fst].
  - rewrite <- (app_nil_r (save_seq _ _)), disk_after_save_seq. symmetry. apply file_content_blocks; apply I.
  - destruct (inv_clean _ _ _ I M) as [-> ->]. symmetry. apply flat_init_blocks.
Qed.

Lemma disk_reach o keys file content groups evs st :
  o_autofix o = true -> wf_groups content groups -> Forall no_sort_event evs ->
  run o keys (evs ++ [ESave]) (init_state file groups) = Ok st ->
  has_sort (entries_of file (s_log st)) = false /\
  exists blocks, reach (init_blocks content) (entries_of file (s_log st)) blocks /\
                 flat_blocks blocks = disk_after file content None (s_ops st).
Proof.
  intros Ha Wg Hn R. rewrite run_app in R. unfold bind in R.
  destruct (run o keys evs (init_state file groups)) as [s1|] eqn:R1; [|discriminate].
  pose proof (run_inv o keys file content groups evs s1 Ha Wg Hn R1) as I1.
  pose proof (inv_save o file content s1 Ha I1) as D. cbn [run step bind] in R.
  destruct (save o (s_store s1)) as [ops b]. inversion R. cbn [s_log s_ops].
  split; [apply I1|]. exists (blocks_of_store (s_store s1)). split; [apply I1|symmetry; exact D].
Qed.

(* after a history that ends with a save, the bytes on disk are the old bytes with
   the logged actions applied *)
Theorem disk_consistent_with_log o keys file content groups evs st :
  o_autofix o = true -> wf_groups content groups -> Forall no_sort_event evs ->
  run o keys (evs ++ [ESave]) (init_state file groups) = Ok st ->
  consistent content (entries_of file (s_log st)) (disk_after file content None (s_ops st)) = true.
Proof.
  intros Ha Wg Hn R.
  destruct (disk_reach o keys file content groups evs st Ha Wg Hn R) as (Hs & blocks & Re & <-).
  apply reach_consistent; assumption.
Qed.

Lemma acts_of_in file log z :
  In z (map snd (acts_of file log)) <-> exists g, In g log /\ g_file g = file /\ g_lineno g = z.
Proof.
  unfold acts_of. rewrite map_map. cbn [snd]. rewrite in_map_iff. split.
  - intros (g & E & H). apply filter_In in H as [H F]. apply str_eqb_spec in F. eauto.
  - intros (g & H & F & E). exists g. split; [exact E|]. apply filter_In. split; [exact H|].
    apply str_eqb_spec. exact F.
Qed.

Lemma run_since_load o keys file content groups evs st l :
  o_autofix o = true -> wf_groups content groups -> Forall no_sort_event evs ->
  run o keys evs (init_state file groups) = Ok st -> In l (s_store st) ->
  wf_line l /\ since_load file (s_log st) l.
Proof.
  intros Ha Wg Hn R Hl. pose proof (run_inv o keys file content groups evs st Ha Wg Hn R) as I.
  split; [exact (proj1 (Forall_forall _ _) (inv_wf _ _ _ I) l Hl)|exact (proj1 (Forall_forall _ _) (inv_since _ _ _ I) l Hl)].
Qed.

(* a raw line whose bytes changed has a logged action with its line number; lines
   were inserted above / below only with a logged action at the first / last raw line *)
Theorem nothing_unlogged o keys file content groups evs st :
  o_autofix o = true -> wf_groups content groups -> Forall no_sort_event evs ->
  run o keys evs (init_state file groups) = Ok st ->
  forall l, In l (s_store st) ->
    (forall j, nth_error (cur_texts l) j <> nth_error (l_raw l) j ->
       exists g, In g (s_log st) /\ g_file g = file /\ g_lineno g = l_lineno l + Z.of_nat j) /\
    (cur_above l <> [] -> exists g, In g (s_log st) /\ g_file g = file /\ g_lineno g = l_lineno l) /\
    (cur_below l <> [] -> exists g, In g (s_log st) /\ g_file g = file /\
                                     g_lineno g = l_lineno l + Z.of_nat (length (l_raw l)) - 1).
Proof.
  intros Ha Wg Hn R l Hl.
  destruct (run_since_load o keys file content groups evs st l Ha Wg Hn R Hl) as (_ & T & A & B).
  repeat split; [intros j Hne|intro Hne|intro Hne]; apply acts_of_in;
    match goal with |- In ?z ?s => destruct (in_dec Z.eq_dec z s) as [H|H]; [exact H|exfalso; apply Hne] end.
  - apply T. exact H.
  - apply A. exact H.
  - apply B. exact H.
Qed.

(* a logical line none of whose physical line numbers occurs in the log is written
   back byte for byte *)
Theorem untouched_preserved o keys file content groups evs st :
  o_autofix o = true -> wf_groups content groups -> Forall no_sort_event evs ->
  run o keys evs (init_state file groups) = Ok st ->
  forall l, In l (s_store st) ->
    (forall g, In g (s_log st) -> g_file g = file ->
       ~ (l_lineno l <= g_lineno g < l_lineno l + Z.of_nat (length (l_raw l)))) ->
    line_bytes l = l_raw l.
Proof.
  intros Ha Wg Hn R l Hl Hno.
  destruct (run_since_load o keys file content groups evs st l Ha Wg Hn R Hl) as ((W1 & W2 & W3) & T & A & B).
  cbn [cur p_above p_texts p_below] in *.
  assert (NE : forall z, l_lineno l <= z < l_lineno l + Z.of_nat (length (l_raw l)) ->
                         ~ In z (map snd (acts_of file (s_log st)))).
  { intros z Hz Hin. apply acts_of_in in Hin as (g & Hg & Fg & <-). exact (Hno g Hg Fg Hz). }
  rewrite line_bytes_cur, A, B by (apply NE; lia). cbn [app]. rewrite app_nil_r.
  apply nth_error_ext. intro j. destruct (le_lt_dec (length (l_raw l)) j) as [Hge|Hlt].
  - rewrite (proj2 (nth_error_None (l_raw l) j) Hge). apply nth_error_None. lia.
  - apply T. apply NE. lia.
Qed.
