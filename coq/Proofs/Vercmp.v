(* C12: Compare is a total preorder on all byte strings (the lexicographic order of the
   zero-padded vectors, then nb), and newVersion is dewey.c's mkversion with saturated numbers. *)
From PV Require Import Lib.Bytes Gen.VercmpTable Model.Vercmp Spec.Dewey.
From Coq Require Import ZifyBool ZifyN ZifyNat.
Open Scope Z_scope.

Lemma cmp_from_refl n i f : cmp_from n i f f = Eq.
Proof. revert i; induction n as [|n IH]; intro i; simpl; [reflexivity|]. rewrite Z.compare_refl. apply IH. Qed.

Lemma cmp_from_antisym n i f g : cmp_from n i f g = CompOpp (cmp_from n i g f).
Proof.
  revert i; induction n as [|n IH]; intro i; simpl; [reflexivity|].
  rewrite (Z.compare_antisym (f i) (g i)). destruct (f i ?= g i); simpl; auto.
Qed.

(* How the results of comparing a with b and b with c determine that of a with c:
   Eq is neutral, Lt;Lt = Lt, Gt;Gt = Gt.  Transitivity of every layer of Compare is read off this. *)
Definition comp_ok (x y z : comparison) : Prop :=
  match x, y with
  | Eq, c => z = c
  | c, Eq => z = c
  | Lt, Lt => z = Lt
  | Gt, Gt => z = Gt
  | _, _ => True
  end.

Lemma Zcompare_comp a b c : comp_ok (a ?= b) (b ?= c) (a ?= c).
Proof.
  destruct (Z.compare_spec a b), (Z.compare_spec b c), (Z.compare_spec a c); simpl; auto; lia.
Qed.

(* the lexicographic combination: one round of Compare's loop, and its final nb test *)
Definition lexc (c d : comparison) : comparison := match c with Eq => d | Lt => Lt | Gt => Gt end.

Lemma lexc_comp x1 y1 z1 x2 y2 z2 :
  comp_ok x1 y1 z1 -> comp_ok x2 y2 z2 -> comp_ok (lexc x1 x2) (lexc y1 y2) (lexc z1 z2).
Proof.
  destruct x1, y1; simpl; intros H1 H2; try subst z1; simpl; trivial;
    destruct x2, y2; simpl; trivial.
Qed.

Lemma cmp_from_comp n i f g h :
  comp_ok (cmp_from n i f g) (cmp_from n i g h) (cmp_from n i f h).
Proof.
  revert i; induction n as [|n IH]; intro i; [reflexivity|].
  exact (lexc_comp _ _ _ _ _ _ (Zcompare_comp (f i) (g i) (h i)) (IH (S i))).
Qed.

Lemma cmp_from_extend n k i f g :
  (forall j, (i + n <= j)%nat -> f j = g j) ->
  cmp_from (n + k) i f g = cmp_from n i f g.
Proof.
  revert i; induction n as [|n IH]; intros i H; simpl.
  - revert i H; induction k as [|k IHk]; intros i H; simpl; [reflexivity|].
    rewrite H by lia. rewrite Z.compare_refl. apply IHk. intros j Hj; apply H; lia.
  - destruct (f i ?= g i); auto. apply IH. intros j Hj; apply H; lia.
Qed.

Lemma field_beyond v j : (length v <= j)%nat -> field v j = 0.
Proof. intro H. unfold field. apply nth_overflow. exact H. Qed.

Lemma compare_versions_padded N a b :
  (Nat.max (length (fst a)) (length (fst b)) <= N)%nat ->
  compare_versions a b = lexc (cmp_from N 0 (field (fst a)) (field (fst b))) (snd a ?= snd b).
Proof.
  intro H. unfold compare_versions.
  replace N with (Nat.max (length (fst a)) (length (fst b)) + (N - Nat.max (length (fst a)) (length (fst b))))%nat by lia.
  rewrite cmp_from_extend; [reflexivity|].
  intros j Hj. rewrite !field_beyond by lia. reflexivity.
Qed.

Lemma compare_versions_refl a : compare_versions a a = Eq.
Proof. unfold compare_versions. rewrite cmp_from_refl. apply Z.compare_refl. Qed.

Lemma compare_versions_antisym a b : compare_versions a b = CompOpp (compare_versions b a).
Proof.
  unfold compare_versions. rewrite (Nat.max_comm (length (fst b))).
  rewrite (cmp_from_antisym _ _ (field (fst a))).
  destruct (cmp_from _ 0 (field (fst b)) (field (fst a))); simpl; auto.
  apply Z.compare_antisym.
Qed.

Lemma compare_versions_comp a b c :
  comp_ok (compare_versions a b) (compare_versions b c) (compare_versions a c).
Proof.
  set (N := Nat.max (length (fst a)) (Nat.max (length (fst b)) (length (fst c)))).
  rewrite !(compare_versions_padded N) by (subst N; lia).
  apply lexc_comp; [apply cmp_from_comp|apply Zcompare_comp].
Qed.

Lemma compare_versions_trans a b c :
  compare_versions a b <> Gt -> compare_versions b c <> Gt -> compare_versions a c <> Gt.
Proof.
  pose proof (compare_versions_comp a b c) as H.
  destruct (compare_versions a b), (compare_versions b c); simpl in H; intros H1 H2; try congruence; rewrite H; congruence.
Qed.

Definition shrinks (step : stepfn) : Prop :=
  forall s adds nbo r, step s = Some (adds, nbo, r) -> (length r < length s)%nat.

Lemma nv_loop_total step : shrinks step ->
  forall fuel s v nb, (length s < fuel)%nat -> nv_loop step fuel s v nb <> None.
Proof.
  intros Hs fuel; induction fuel as [|f IH]; intros s v nb Hl; [lia|]. simpl.
  destruct (step s) as [[[adds nbo] r]|] eqn:E; [|discriminate].
  apply IH. apply Hs in E. lia.
Qed.

Lemma span_snd_length f s : (length (snd (span f s)) <= length s)%nat.
Proof. pose proof (span_length f s). lia. Qed.

Lemma strip_prefix_length p s r : strip_prefix p s = Some r -> (length s = length p + length r)%nat.
Proof. intro H. apply strip_prefix_some in H. subst. apply app_length. Qed.

Lemma find_kw_length tbl s w r :
  Forall (fun e => fst e <> []) tbl -> find_kw tbl s = Some (w, r) -> (length r < length s)%nat.
Proof.
  induction tbl as [|[k w'] t IH]; simpl; intros HF H; [discriminate|].
  inversion HF as [|? ? Hk HF']; subst. simpl in Hk.
  destruct (strip_prefix k s) as [r'|] eqn:E.
  - inversion H; subst. apply strip_prefix_length in E. destruct k; [congruence|]. simpl in E. lia.
  - eauto.
Qed.

Lemma keyword_table_nonempty : Forall (fun e : str * Z => fst e <> []) keyword_table.
Proof. unfold keyword_table. repeat constructor; simpl; discriminate. Qed.

Lemma nv_step_rest_shorter s :
  match nv_step s with Some (_, _, r) => (length r < length s)%nat | None => True end.
Proof.
  unfold nv_step. destruct s as [|c s']; [exact I|]. destruct (is_digit c) eqn:Ed.
  - cbn [span]. rewrite Ed. pose proof (span_snd_length is_digit s').
    destruct (span is_digit s'). simpl in *. lia.
  - destruct (existsb (N.eqb c) sep_bytes); [apply Nat.lt_succ_diag_r|].
    destruct (find_kw keyword_table (c :: s')) as [[w r]|] eqn:Ek.
    { exact (find_kw_length _ _ _ _ keyword_table_nonempty Ek). }
    destruct (strip_prefix nb_keyword (c :: s')) as [r|] eqn:En.
    + apply strip_prefix_length in En. pose proof (span_snd_length is_digit r).
      destruct (span is_digit r). simpl in *. lia.
    + destruct (is_lower c); apply Nat.lt_succ_diag_r.
Qed.

Lemma nv_step_shrinks : shrinks nv_step.
Proof. intros s adds nbo r H. pose proof (nv_step_rest_shorter s) as L. rewrite H in L. exact L. Qed.

Lemma new_version_total s : new_version s <> None.
Proof.
  unfold new_version. apply nv_loop_total; [apply nv_step_shrinks|].
  unfold lower. rewrite map_length. lia.
Qed.

Lemma compare_defined a b : exists c, compare a b = Some c.
Proof.
  unfold compare. pose proof (new_version_total a). pose proof (new_version_total b).
  destruct (new_version a), (new_version b); try congruence. eauto.
Qed.

Lemma compare_refl a : compare a a = Some Eq.
Proof.
  unfold compare. pose proof (new_version_total a).
  destruct (new_version a); [|congruence]. rewrite compare_versions_refl. reflexivity.
Qed.

Lemma compare_antisym a b : compare a b = option_map CompOpp (compare b a).
Proof.
  unfold compare. destruct (new_version a), (new_version b); simpl; auto.
  rewrite compare_versions_antisym. reflexivity.
Qed.

Definition le_ver (a b : str) : Prop := exists c, compare a b = Some c /\ c <> Gt.

Lemma compare_trans a b c : le_ver a b -> le_ver b c -> le_ver a c.
Proof.
  unfold le_ver, compare. intros [x [H1 H1']] [y [H2 H2']].
  destruct (new_version a), (new_version b), (new_version c); try discriminate.
  inversion H1; inversion H2; subst. eexists; split; [reflexivity|].
  eapply compare_versions_trans; eauto.
Qed.

(* the model is dewey.c, up to Go's saturation of huge numbers *)

Definition clamp (z : Z) : Z := Z.min z max_int.
Definition clamp_step (x : list Z * option Z * str) : list Z * option Z * str :=
  match x with (adds, nbo, r) => (map clamp adds, option_map clamp nbo, lower r) end.

Lemma is_digit_lower c : is_digit (to_lower c) = is_digit c.
Proof. unfold to_lower, is_upper, is_digit. destruct ((65 <=? c)%N && (c <=? 90)%N) eqn:E; lia. Qed.

Lemma digit_lower_id c : is_digit c = true -> to_lower c = c.
Proof. unfold to_lower, is_upper, is_digit. intro. destruct ((65 <=? c)%N && (c <=? 90)%N) eqn:E; lia. Qed.

Lemma span_digit_lower s :
  span is_digit (lower s) = (fst (span is_digit s), lower (snd (span is_digit s))).
Proof.
  induction s as [|c s IH]; simpl; [reflexivity|].
  rewrite is_digit_lower. destruct (is_digit c) eqn:E; [|reflexivity].
  rewrite IH. destruct (span is_digit s) as [a b]. simpl. rewrite digit_lower_id by exact E. reflexivity.
Qed.

Lemma strip_prefix_lower k s :
  strip_prefix k (lower s) = option_map lower (strip_prefix_ci k s).
Proof.
  revert s; induction k as [|x k IH]; intros s; simpl; [reflexivity|].
  destruct s as [|y s]; simpl; [reflexivity|]. destruct (x =? to_lower y)%N; auto.
Qed.

Lemma find_kw_lower tbl s :
  find_kw tbl (lower s) = option_map (fun p => (fst p, lower (snd p))) (find_mod tbl s).
Proof.
  induction tbl as [|[k w] t IH]; simpl; [reflexivity|].
  rewrite strip_prefix_lower. destruct (strip_prefix_ci k s); simpl; auto.
Qed.

Lemma table_is_dewey :
  map (fun b => ([b], 0)) sep_bytes ++ keyword_table
  = [ ([95]%N, 0); ([46]%N, 0) ] ++ firstn 5 modifiers
  /\ skipn 5 modifiers = [ ([95]%N, 0); ([46]%N, 0) ] /\ nb_keyword = [110; 98]%N.
Proof. repeat split. Qed.

Lemma clamp_small z : z <= max_int -> clamp z = z.
Proof. unfold clamp. lia. Qed.

Lemma is_lower_to_lower c : is_lower (to_lower c) = is_alpha c.
Proof.
  unfold to_lower, is_alpha, is_lower, is_upper.
  destruct ((65 <=? c)%N && (c <=? 90)%N) eqn:E; lia.
Qed.

Lemma alpha_rank_small c : is_alpha c = true -> Z.of_N (to_lower c) - 97 + 1 <= max_int.
Proof.
  unfold to_lower, is_alpha, is_lower, is_upper, max_int.
  destruct ((65 <=? c)%N && (c <=? 90)%N) eqn:E; lia.
Qed.

(* dewey.c lists the separators after the keywords; no keyword starts with one, so testing them
   first, as Go does, finds the same entry *)
Lemma find_mod_sep c s' :
  find_mod modifiers (c :: s')
  = if existsb (N.eqb (to_lower c)) sep_bytes then Some (0, s') else find_mod keyword_table (c :: s').
Proof.
  unfold modifiers, keyword_table, sep_bytes. cbn [find_mod strip_prefix_ci existsb].
  rewrite (N.eqb_sym (to_lower c) 95), (N.eqb_sym (to_lower c) 46). destruct (N.eqb_spec 95 (to_lower c)) as [<-|_]; [reflexivity|].
  destruct (N.eqb_spec 46 (to_lower c)) as [<-|_]; reflexivity.
Qed.

Lemma keyword_weights_small tbl s w r :
  Forall (fun e : str * Z => snd e <= 0) tbl -> find_mod tbl s = Some (w, r) -> w <= 0.
Proof.
  induction tbl as [|[k w'] t IH]; simpl; intros HF H; [discriminate|].
  inversion HF; subst. destruct (strip_prefix_ci k s); [inversion H; subst; assumption|eauto].
Qed.

Lemma keyword_table_small : Forall (fun e : str * Z => snd e <= 0) keyword_table.
Proof. unfold keyword_table. repeat constructor; simpl; lia. Qed.

Lemma nv_step_is_mkcomponent s :
  nv_step (lower s) = option_map clamp_step (mkcomponent s).
Proof.
  destruct s as [|c s']; [reflexivity|].
  change (lower (c :: s')) with (to_lower c :: lower s'). unfold nv_step, mkcomponent.
  change (to_lower c :: lower s') with (lower (c :: s')).
  rewrite is_digit_lower, span_digit_lower, find_kw_lower, strip_prefix_lower, find_mod_sep.
  destruct (is_digit c).
  { destruct (span is_digit (c :: s')) as [ds r]. reflexivity. }
  destruct (existsb (N.eqb (to_lower c)) sep_bytes); [reflexivity|].
  destruct (find_mod keyword_table (c :: s')) as [[w r]|] eqn:Ek.
  { pose proof (keyword_weights_small _ _ _ _ keyword_table_small Ek).
    simpl. rewrite clamp_small; [reflexivity|unfold max_int; lia]. }
  cbn [option_map]. change [110%N; 98%N] with nb_keyword.
  destruct (strip_prefix_ci nb_keyword (c :: s')) as [r|]; cbn [option_map].
  - rewrite span_digit_lower. destruct (span is_digit r) as [ds r']. reflexivity.
  - rewrite is_lower_to_lower. destruct (is_alpha c) eqn:Ea; [|reflexivity].
    cbn [option_map clamp_step map]. rewrite !clamp_small; [reflexivity|apply alpha_rank_small, Ea|discriminate].
Qed.

Lemma nv_loop_is_mkversion fuel s v nb :
  nv_loop nv_step fuel (lower s) (map clamp v) (clamp nb)
  = option_map (fun p => (map clamp (fst p), clamp (snd p))) (mkversion_loop fuel s v nb).
Proof.
  revert s v nb; induction fuel as [|f IH]; intros s v nb; simpl; [reflexivity|].
  rewrite nv_step_is_mkcomponent.
  destruct (mkcomponent s) as [[[adds nbo] r]|]; simpl; [|reflexivity].
  rewrite <- map_app.
  replace (match option_map clamp nbo with Some n => n | None => clamp nb end)
    with (clamp (match nbo with Some n => n | None => nb end)) by (destruct nbo; reflexivity).
  apply IH.
Qed.

Theorem new_version_is_mkversion s :
  new_version s = option_map (fun p => (map clamp (fst p), clamp (snd p))) (mkversion s).
Proof.
  unfold new_version, mkversion.
  change (@nil Z) with (map clamp []). change 0 with (clamp 0) at 1.
  apply nv_loop_is_mkversion.
Qed.

(* sign of vtest = compare_versions: dewey.c's "first non-zero difference" is the same
   lexicographic combination, on differences instead of comparisons *)
Lemma lexc_sgn c d z w :
  sign_of c = Z.sgn z -> sign_of d = Z.sgn w -> sign_of (lexc c d) = Z.sgn (if z =? 0 then w else z).
Proof. destruct c; simpl; intros Hc Hd; destruct (Z.eqb_spec z 0); lia. Qed.

Lemma compare_sgn x y : sign_of (x ?= y) = Z.sgn (x - y).
Proof. destruct (Z.compare_spec x y); simpl; lia. Qed.

Lemma vtest_from_sign n i l r :
  sign_of (cmp_from n i (field l) (field r)) = Z.sgn (vtest_from n i l r).
Proof.
  revert i; induction n as [|n IH]; intro i; [reflexivity|].
  exact (lexc_sgn _ _ _ _ (compare_sgn (field l i) (field r i)) (IH (S i))).
Qed.

Lemma vtest_sign a b : sign_of (compare_versions a b) = Z.sgn (vtest a b).
Proof. exact (lexc_sgn _ _ _ _ (vtest_from_sign _ 0 (fst a) (fst b)) (compare_sgn (snd a) (snd b))). Qed.

Definition in_range (v : list Z * Z) : Prop := Forall (fun z => z <= max_int) (fst v) /\ snd v <= max_int.

Lemma clamp_version_id v : in_range v -> (map clamp (fst v), clamp (snd v)) = v.
Proof.
  intros [H1 H2]. destruct v as [l n]. simpl in *. f_equal; [|apply clamp_small; exact H2].
  induction H1 as [|x l Hx Hl IH]; simpl; [reflexivity|]. rewrite clamp_small by exact Hx. f_equal; exact IH.
Qed.

Theorem compare_is_dewey a b va vb :
  mkversion a = Some va -> mkversion b = Some vb -> in_range va -> in_range vb ->
  option_map sign_of (compare a b) = dewey_cmp a b.
Proof.
  intros Ha Hb Ra Rb. unfold compare, dewey_cmp.
  rewrite !new_version_is_mkversion, Ha, Hb. simpl.
  rewrite !clamp_version_id by assumption. rewrite vtest_sign. reflexivity.
Qed.

Lemma mkversion_total s : mkversion s <> None.
Proof.
  pose proof (new_version_total s) as H. rewrite new_version_is_mkversion in H.
  destruct (mkversion s); [discriminate|]. simpl in H. congruence.
Qed.
