(* C06 (Logger part): everything the Logger machine writes is XPrint-only; the
   counters are exactly the numbers of ERROR / WARN / NOTE lines written; "Looks
   fine." iff there are none of the first two; the exit status. *)
From PV Require Import Lib.Bytes Model.Escape Model.Logger Proofs.Escape Proofs.LoggerInv.
From Coq Require Import ZifyBool ZifyN ZifyNat.
Open Scope N_scope.

Lemma uint_digits_digits u : Forall (fun c => is_digit c = true) (uint_digits u).
Proof. induction u; cbn [uint_digits]; constructor; auto. Qed.

Lemma join_Forall (P : N -> Prop) sep l : Forall P sep -> Forall (Forall P) l -> Forall P (join sep l).
Proof.
  intros Hs Hl. induction Hl as [|a l Ha Hl IH]; [constructor|].
  cbn [join]. destruct l; [assumption|]. rewrite !Forall_app. auto.
Qed.

Lemma num_Forall (P : N -> Prop) n s p :
  (forall c, is_digit c = true -> P c) -> P 32 -> Forall P s -> Forall P p -> Forall P (num n s p).
Proof.
  intros Hd H32 Hs Hp. pose proof (Forall_impl P Hd (uint_digits_digits (N.to_uint n))) as Hn.
  unfold num. destruct (n =? 0), (n =? 1); rewrite ?Forall_app; auto.
Qed.

Lemma join_cambridge_Forall (P : N -> Prop) conn l :
  P 32 -> P 44 -> Forall P conn -> Forall (Forall P) l -> Forall P (join_cambridge conn l).
Proof.
  intros H32 H44 Hc Hl. unfold join_cambridge. apply (incl_Forall (incl_filter nonempty_list l)) in Hl.
  destruct (filter nonempty_list l) as [|a [|b r]]; [constructor|inversion Hl; assumption|].
  rewrite (app_removelast_last [] (l := a :: b :: r)) in Hl by discriminate.
  apply Forall_app in Hl as [H1 H2]. inversion H2. rewrite !Forall_app. auto 6 using join_Forall.
Qed.

(* the summary line before its newline: numbers, lower-case words, ' ' ',' '.' and the L of "Looks fine." *)
Definition summary_byte (c : N) : bool :=
  is_digit c || is_lower c || (c =? 32) || (c =? 44) || (c =? 46) || (c =? 76).

Lemma summary_line_ends e w n : ends_nl (summary_line e w n).
Proof. unfold summary_line, summary_counts. destruct (negb (e =? 0) || negb (w =? 0)); auto 13 with ends_nl. Qed.

Lemma summary_line_bytes e w n :
  exists x, summary_line e w n = x ++ [10] /\ Forall (fun c => summary_byte c = true) x.
Proof.
  destruct (summary_line_ends e w n) as [x Hx]. exists x. split; [exact Hx|].
  apply (f_equal (@removelast N)) in Hx. rewrite removelast_last in Hx. subst x.
  assert (forall c, is_digit c = true -> summary_byte c = true) as Hd
    by (intros c Hc; unfold summary_byte; rewrite Hc; reflexivity).
  unfold summary_line, summary_counts. destruct (negb (e =? 0) || negb (w =? 0)); [|repeat constructor].
  rewrite removelast_app by discriminate. apply Forall_app. split; [|repeat constructor].
  apply join_cambridge_Forall; [reflexivity|reflexivity|repeat constructor|].
  repeat constructor; apply num_Forall; auto; repeat constructor.
Qed.

Lemma format_diag_ends o lv f n m : ends_nl (format_diag o lv f n m).
Proof. unfold format_diag. destruct (lo_gcc o); auto 8 with ends_nl. Qed.

Definition GL0 (u : str) : Prop := safe u /\ ends_nl u.

Lemma has_suffix_nl_ends t : has_suffix_nl t = true -> ends_nl t.
Proof.
  induction t as [|c [|c' t] IH]; cbn [has_suffix_nl]; [discriminate| |auto with ends_nl].
  intros ->%N.eqb_eq. apply ends_nl_nl.
Qed.

Lemma src_unit_GL0 p t : In p src_prefixes -> GL0 (src_unit p t).
Proof.
  intro Hp. assert (safe p) as Hs by (destruct Hp as [<-|[<-|[<-|[<-|[]]]]]; auto with safe).
  unfold src_unit. destruct (has_suffix_nl t) eqn:E; split; auto with safe ends_nl.
  rewrite app_nil_r. apply ends_nl_app, escape_ends_nl, has_suffix_nl_ends, E.
Qed.

Lemma expl_unit_GL0 x : GL0 (expl_unit x).
Proof. split; unfold expl_unit; auto with safe ends_nl. Qed.

Lemma hint_unit_GL0 cl what : safe cl -> safe what -> GL0 (hint_unit cl what).
Proof. split; unfold hint_unit; auto 7 with safe ends_nl. Qed.

Lemma summary_line_GL0 e w n : GL0 (summary_line e w n).
Proof.
  destruct (summary_line_bytes e w n) as (x & -> & Hx). split; [|exists x; reflexivity].
  apply safe_app; [|auto with safe]. apply (Forall_impl _ (P := fun c => summary_byte c = true)); [|exact Hx].
  intro c. unfold summary_byte, xprint, is_digit, is_lower. lia.
Qed.

Lemma ev_ok_GL0 o (PanicOK : Prop) ev : PanicOK \/ wf_event ev -> ev_ok o PanicOK GL0 ev.
Proof.
  intro Hw. split; [assumption|].
  assert (forall ln fv, view_ok GL0 ln fv) as Hview by (intros; apply view_ok_all; intros; apply src_unit_GL0; assumption).
  assert (forall e, explanation_ok GL0 e) as Hexpl.
  { intro e. split; [split; auto with safe ends_nl|]. apply Forall_forall. intros x _. apply expl_unit_GL0. }
  assert (forall lv f n m, log_ok o GL0 lv f n m) as Hlog.
  { intros. split; [apply escape_printable_safe|apply escape_ends_nl, format_diag_ends]. }
  assert (forall args h, safe (snd h) -> hint_ok GL0 args h) as Hhint.
  { intros args h Hs cl Hcl. apply hint_unit_GL0; [|assumption].
    destruct args; [discriminate|]. inversion Hcl. apply escape_printable_safe. }
  destruct ev; auto.
  - split; [apply Hview|]. split; [apply Hlog|]. split; [apply Forall_forall; intros; apply Hlog|apply Hexpl].
  - split; [|split]; apply Hhint, safe_forallb; reflexivity.
Qed.

Definition safe_w (w : swriter) : Prop := safe (sw_out w) /\ safe (sw_line w).
Definition safe_l (l : logger) : Prop := safe_w (l_out l) /\ safe_w (l_err l).

Lemma sw_write_byte_safe w b : xprint b = true -> safe_w w -> safe_w (sw_write_byte w b).
Proof.
  intros Hb [Ho Hl]. unfold sw_write_byte.
  destruct (b =? 10); [|destruct (sw_state w =? 2)]; split; cbn [sw_out sw_line]; auto with safe.
Qed.

Lemma sw_write_safe w s : safe s -> safe_w w -> safe_w (sw_write w s).
Proof.
  unfold sw_write. intro Hs. revert w. induction Hs as [|b s Hb Hs IH]; intros w Hw; simpl; [assumption|].
  apply IH, sw_write_byte_safe; assumption.
Qed.

Lemma sw_separate_safe w : safe_w w -> safe_w (fst (sw_separate w)).
Proof. intros [Ho Hl]. unfold sw_separate. cbn [fst]. destruct (sw_state w <? 2); split; assumption. Qed.

Theorem logger_output_safe o evs :
  safe (sw_out (l_out (log_run o evs))) /\ safe (sw_out (l_err (log_run o evs))).
Proof.
  assert (safe_l (log_run o evs)) as [[H1 _] [H2 _]]; [|split; assumption].
  apply (inv_run o safe_l True GL0); auto using summary_line_GL0.
  - intros l u [Hu _] [Ho He]. split; [apply sw_write_safe|]; assumption.
  - intros l [Ho He]. split; [apply sw_separate_safe, Ho|exact He].
  - intros l s Hs [Ho He]. split; [exact Ho|apply sw_write_safe; assumption].
  - intros l lv f n m H. destruct lv; exact H.
  - apply Forall_forall. intros ev _. apply ev_ok_GL0. left. exact I.
  - repeat split; apply safe_nil.
Qed.

Definition tuple_level (t : diag_tuple) : level := fst (fst (fst t)).
Definition cnt (lv : level) (em : list diag_tuple) : N :=
  N.of_nat (length (filter (fun t => level_eqb (tuple_level t) lv) em)).

Definition counts_ok (l : logger) : Prop :=
  l_errors l = cnt LError (l_emitted l) /\ l_warnings l = cnt LWarn (l_emitted l) /\ l_notes l = cnt LNote (l_emitted l).

Lemma cnt_snoc lv em t : cnt lv (em ++ [t]) = cnt lv em + (if level_eqb (tuple_level t) lv then 1 else 0).
Proof.
  unfold cnt. rewrite filter_app, app_length. cbn [filter].
  destruct (level_eqb (tuple_level t) lv); cbn [length]; lia.
Qed.

(* the counters (which ShowSummary prints and the exit status is computed from) are the
   numbers of ERROR, WARN and NOTE lines that Logf wrote *)
Theorem counts_exact o evs :
  let l := log_run o evs in
  l_errors l = cnt LError (l_emitted l) /\
  l_warnings l = cnt LWarn (l_emitted l) /\
  l_notes l = cnt LNote (l_emitted l).
Proof.
  apply (inv_run o counts_ok True GL0); auto using summary_line_GL0.
  - intros l lv f n m (He & Hw & Hn). unfold counts_ok.
    destruct lv; cbn [l_errors l_warnings l_notes l_emitted set_emitted bump set_errors set_warnings set_notes];
      rewrite !cnt_snoc; cbn [tuple_level fst level_eqb]; repeat split; lia.
  - apply Forall_forall. intros ev _. apply ev_ok_GL0. left. exact I.
  - repeat split.
Qed.

Definition looks_fine : str := [76; 111; 111; 107; 115; 32; 102; 105; 110; 101; 46; 10].

Lemma summary_counts_not_looks_fine e w n : summary_counts e w n <> looks_fine.
Proof.
  unfold summary_counts, looks_fine. intro H. apply (f_equal (@rev N)) in H.
  rewrite rev_app_distr in H. cbn [rev app] in H. inversion H.
Qed.

Theorem looks_fine_iff_counters e w n : summary_line e w n = looks_fine <-> e = 0 /\ w = 0.
Proof.
  unfold summary_line. split.
  - intro H. destruct (negb (e =? 0) || negb (w =? 0)) eqn:E; [exfalso; eapply summary_counts_not_looks_fine; eassumption|].
    lia.
  - intros [-> ->]. reflexivity.
Qed.

(* the first line of the summary is "Looks fine." exactly when no ERROR and no WARN line was written *)
Theorem looks_fine_iff o evs :
  let l := log_run o evs in
  summary_line (l_errors l) (l_warnings l) (l_notes l) = looks_fine <->
  cnt LError (l_emitted l) = 0 /\ cnt LWarn (l_emitted l) = 0.
Proof.
  cbv zeta. destruct (counts_exact o evs) as (He & Hw & _). rewrite looks_fine_iff_counters, He, Hw. reflexivity.
Qed.

Theorem exit_status_exact o evs werror :
  let l := log_run o evs in
  exit_status werror l =
  if negb (cnt LError (l_emitted l) =? 0) || (werror && negb (cnt LWarn (l_emitted l) =? 0)) then 1 else 0.
Proof.
  cbv zeta. destruct (counts_exact o evs) as (He & Hw & _). unfold exit_status. rewrite He, Hw.
  destruct werror, (cnt LWarn _ =? 0), (cnt LError _ =? 0); reflexivity.
Qed.

(* between events the writer is never in the middle of a line, so the assertion in
   SeparatorWriter.Separate holds; with well-formed events the two index expressions
   are in range *)
Definition ok (l : logger) : Prop := l_panicked l = false /\ sw_state (l_out l) <> 1.

Lemma sw_write_nl_state w s : ends_nl s -> sw_state (sw_write w s) <> 1.
Proof.
  intros [p ->]. rewrite sw_write_app.
  change (sw_write (sw_write w p) [10]) with (sw_write_byte (sw_write w p) 10).
  unfold sw_write_byte. rewrite N.eqb_refl. cbn [sw_state].
  destruct (sw_state (sw_write w p) =? 1); discriminate.
Qed.

Lemma panicked_fold_write_unused ws l : l_panicked (fold_left out_write ws l) = l_panicked l.
Proof. revert l. induction ws as [|w ws IH]; intro l; simpl; [reflexivity|]. rewrite IH. reflexivity. Qed.

Lemma ok_run o evs : Forall wf_event evs -> ok (log_run o evs).
Proof.
  intro Hwf. apply (inv_run o ok False GL0); auto using summary_line_GL0.
  - intros l [].
  - intros l u [_ Hu] [Hp Hs]. split; [exact Hp|apply sw_write_nl_state, Hu].
  - intros l [Hp Hs]. unfold out_separate, sw_separate. cbn. split.
    + rewrite Hp. apply N.eqb_neq. assumption.
    + destruct (sw_state (l_out l) <? 2); [discriminate|assumption].
  - intros l lv f n m H. destruct lv; exact H.
  - eapply Forall_impl; [|exact Hwf]. intros ev Hev. apply ev_ok_GL0. right. exact Hev.
  - split; [reflexivity|discriminate].
Qed.

(* for well-formed events (line.fix.texts covers line.raw; ShowSummary gets argv[0]) no
   panic site of logging.go is reached: not the assert in Separate, not an index *)
Theorem logger_never_panics o evs : Forall wf_event evs -> l_panicked (log_run o evs) = false.
Proof. intro H. apply (ok_run o evs H). Qed.
