(* The lexer of pkglint reads the text of a supported tree as the terminal
   string the tree is meant to be: by induction on the tree, with the lexer
   state after each construct. *)
From Coq Require Import NArith ZArith List Bool Lia.
From PV Require Import Lib.Bytes Gen.ShellGrammar Model.ShellLex Spec.PosixSh
  Proofs.ShellLex Proofs.PosixGrammar.
Import ListNotations.
Open Scope Z_scope.

Definition toks (l : list ptok) : list tok := map ptok_tok l.

Lemma toks_app a b : toks (a ++ b) = toks a ++ toks b.
Proof. apply map_app. Qed.

(* a state is (a, f, c, i, g) = (atCommandStart, sinceFor, sinceCase, inCasePattern,
   afterAssign), with no pending io operator *)
Definition run (l : list ptok) (a : bool) (f c : Z) (i g : bool) (a' : bool) (f' c' : Z) (i' g' : bool) : Prop :=
  forall rest, steps (mkLx [] (toks l ++ rest) a f c i g) (tm l) (mkLx [] rest a' f' c' i' g').

Lemma run_nil a f c i g : run [] a f c i g a f c i g.
Proof. intro rest. apply steps_nil. Qed.

Lemma run_app l1 l2 a f c i g a1 f1 c1 i1 g1 a2 f2 c2 i2 g2 :
  run l1 a f c i g a1 f1 c1 i1 g1 -> run l2 a1 f1 c1 i1 g1 a2 f2 c2 i2 g2 ->
  run (l1 ++ l2) a f c i g a2 f2 c2 i2 g2.
Proof.
  intros H1 H2 rest. rewrite toks_app, <- app_assoc, tm_app.
  eapply steps_app; [apply H1 | apply H2].
Qed.

Lemma run_one t x a f c i g a' f' c' i' g' :
  (forall rest, Lex (mkLx [] (t :: rest) a f c i g) = LexTok x (mkLx [] rest a' f' c' i' g')) ->
  run [P1 t x] a f c i g a' f' c' i' g'.
Proof. intros H rest. apply steps_one. apply H. Qed.

Definition states : Type := bool -> Z -> Z -> bool -> bool -> Prop.

Definition wp (l : list ptok) (Q : states) : states := fun a f c i g =>
  exists a' f' c' i' g', Q a' f' c' i' g' /\ run l a f c i g a' f' c' i' g'.

Lemma wp_nil {Q : states} {a f c i g} : Q a f c i g -> wp [] Q a f c i g.
Proof. intro H. exists a, f, c, i, g. split; [exact H | apply run_nil]. Qed.

Lemma wp_app {l1 l2 Q a f c i g} : wp l1 (wp l2 Q) a f c i g -> wp (l1 ++ l2) Q a f c i g.
Proof.
  intros (a1 & f1 & c1 & i1 & g1 & (a2 & f2 & c2 & i2 & g2 & HQ & H2) & H1).
  exists a2, f2, c2, i2, g2. split; [exact HQ | eapply run_app; eassumption].
Qed.

Lemma wp_mono {l} {P Q : states} {a f c i g} :
  wp l P a f c i g -> (forall a' f' c' i' g', P a' f' c' i' g' -> Q a' f' c' i' g') -> wp l Q a f c i g.
Proof. intros (a' & f' & c' & i' & g' & HP & H) HPQ. exists a', f', c', i', g'. auto. Qed.

Lemma wp_seq {l1 l2} {P Q : states} {a f c i g} :
  wp l1 P a f c i g -> (forall a' f' c' i' g', P a' f' c' i' g' -> wp l2 Q a' f' c' i' g') ->
  wp (l1 ++ l2) Q a f c i g.
Proof. intros H1 H2. apply wp_app. exact (wp_mono H1 H2). Qed.

Lemma wp_tok {t x l Q a f c i g a1 f1 c1 i1 g1} :
  (forall rest, Lex (mkLx [] (t :: rest) a f c i g) = LexTok x (mkLx [] rest a1 f1 c1 i1 g1)) ->
  wp l Q a1 f1 c1 i1 g1 -> wp (P1 t x :: l) Q a f c i g.
Proof.
  intros Ht Hl. apply (wp_app (l1 := [P1 t x])). exists a1, f1, c1, i1, g1. split; [exact Hl | apply run_one, Ht].
Qed.

(* one token, read as lem of Proofs/ShellLex.v says; where lem is an entry of a table
   of the lexer, the cbv carries out the assignments of the entry *)
Ltac tok lem :=
  eapply wp_tok;
  [ intro; etransitivity;
    [ now apply lem
    | cbv [set_acs set_icp set_for set_case ioRedirect remaining atCommandStart sinceFor sinceCase
           inCasePattern afterAssign negb]; reflexivity ]
  | ].

Definition argpos (i0 : bool) : states := fun a f c i g => a = false /\ safe f c /\ i = i0 /\ g = false.

Definition args (l : list ptok) (i : bool) : Prop :=
  forall f c, safe f c -> wp l (argpos i) false f c i false.

Lemma wp_args {l1 i l2 Q f c} :
  args l1 i -> safe f c -> (forall f' c', safe f' c' -> wp l2 Q false f' c' i false) ->
  wp (l1 ++ l2) Q false f c i false.
Proof.
  intros H1 Hs H2. apply (wp_seq (H1 f c Hs)).
  intros a' f' c' i' g' (-> & Hs' & -> & ->). exact (H2 f' c' Hs').
Qed.

Lemma args_nil i : args [] i.
Proof. intros f c Hs. apply wp_nil. unfold argpos. auto. Qed.

Lemma args_app l1 l2 i : args l1 i -> args l2 i -> args (l1 ++ l2) i.
Proof. intros H1 H2 f c Hs. exact (wp_args H1 Hs H2). Qed.

Lemma args_list {A} (ok : A -> bool) (one : A -> list ptok) (pr : list A -> list ptok) i :
  pr [] = [] -> (forall x xs, pr (x :: xs) = one x ++ pr xs) -> (forall x, ok x = true -> args (one x) i) ->
  forall xs, forallb ok xs = true -> args (pr xs) i.
Proof.
  intros Hnil Hcons Hone. induction xs as [| x xs IH]; cbn [forallb]; intro H.
  - rewrite Hnil. apply args_nil.
  - apply andb_true_iff in H as [Hx Hxs]. rewrite Hcons. apply args_app; auto.
Qed.

Lemma args_word w i : arg_ok w = true -> args [P1 w tkWORD] i.
Proof. intros Hw f c Hs. tok lex_arg. apply args_nil, safe_bump, Hs. Qed.

Lemma args_words ws i : forallb arg_ok ws = true -> args (print_words ws) i.
Proof.
  exact (args_list arg_ok (fun w => [P1 w tkWORD]) print_words i eq_refl (fun _ _ => eq_refl)
           (fun w => args_word w i) ws).
Qed.

Lemma redir_ok_inv r : redir_ok r = true ->
  arg_ok (r_target r) = true /\
  match r_fd r with None => True | Some ds => ds <> [] /\ forallb is_digit ds = true end.
Proof.
  unfold redir_ok, fd_ok. intro H. apply andb_true_iff in H. destruct H as [Hfd Ht]. split; [exact Ht |].
  destruct (r_fd r) as [[| d ds] |]; [discriminate | split; [discriminate | exact Hfd] | exact I].
Qed.

Lemma run_redir r a f c i g :
  redir_ok r = true -> safe f c -> run (print_redir r) a f c i g false (bumpv f) (bumpv c) i false.
Proof.
  intros Hr Hs rest. destruct (redir_ok_inv r Hr) as [Ht Hfd].
  destruct r as [fd o t]. unfold print_redir. cbn [r_fd r_op r_target] in *.
  destruct fd as [ds |]; cbn [tm flat_map ptok_terms toks map ptok_tok app kw].
  - destruct Hfd as [Hne Hd].
    eapply steps_cons; [apply (lex_io_number ds o _ a f c i g Hne Hd) |].
    eapply steps_cons; [apply lex_pending_rop |].
    apply steps_one. apply lex_arg; assumption.
  - eapply steps_cons; [apply lex_rop |].
    apply steps_one. apply lex_arg; assumption.
Qed.

Lemma wp_redir r l Q a f c i g :
  redir_ok r = true -> safe f c -> wp l Q false (bumpv f) (bumpv c) i false ->
  wp (print_redir r ++ l) Q a f c i g.
Proof.
  intros Hr Hs Hl. apply wp_app. exists false, (bumpv f), (bumpv c), i, false.
  split; [exact Hl | apply run_redir; assumption].
Qed.

Lemma args_redir r i : redir_ok r = true -> args (print_redir r) i.
Proof.
  intros Hr f c Hs. rewrite <- (app_nil_r (print_redir r)).
  apply wp_redir; [exact Hr | exact Hs | apply args_nil, safe_bump, Hs].
Qed.

Lemma args_redirs rs i : forallb redir_ok rs = true -> args (print_redirs rs) i.
Proof.
  exact (args_list redir_ok print_redir print_redirs i eq_refl (fun _ _ => eq_refl)
           (fun r => args_redir r i) rs).
Qed.

Lemma args_sitems items i : forallb sitem_ok items = true -> args (flat_map print_sitem items) i.
Proof.
  apply (args_list sitem_ok print_sitem (flat_map print_sitem) i eq_refl (fun _ _ => eq_refl)).
  intros [w | r]; [apply args_word | apply args_redir].
Qed.

Lemma pattern_arg_ok p : pattern_ok p = true -> arg_ok p = true.
Proof. intro H. apply pattern_ok_inv in H. tauto. Qed.

Lemma args_pats ps : forallb pattern_ok ps = true -> args (print_pats ps) true.
Proof.
  apply (args_list pattern_ok (fun p => [kw s_pipe tkPIPE; P1 p tkWORD]) print_pats true eq_refl
           (fun _ _ => eq_refl)).
  intros p Hp f c Hs. apply pattern_arg_ok in Hp. tok (lex_operator s_pipe eq_refl). exact (args_word p true Hp f c Hs).
Qed.

(* At every command position the lexer is at command start, the counters are safe
   and inCasePattern and afterAssign are false; the same holds after every construct,
   except that atCommandStart is true (and afterAssign false) only where the construct
   closes: ends in a separator, a closing reserved word or `)`. *)
Definition ended (closes : bool) : states := fun a f c i g =>
  safe f c /\ i = false /\ (closes = true -> a = true /\ g = false).

Definition reads (l : list ptok) (closes : bool) : Prop :=
  forall f c, safe f c -> wp l (ended closes) true f c false false.

Lemma ended_cmd closes f c : safe f c -> ended closes true f c false false.
Proof. unfold ended. auto. Qed.

Lemma wp_reads {l1 closes l2 Q f c} :
  reads l1 closes -> safe f c ->
  (forall a' f' c' g', safe f' c' -> (closes = true -> a' = true /\ g' = false) -> wp l2 Q a' f' c' false g') ->
  wp (l1 ++ l2) Q true f c false false.
Proof.
  intros H1 Hs H2. apply (wp_seq (H1 f c Hs)).
  intros a' f' c' i' g' (Hs' & -> & Ha). exact (H2 a' f' c' g' Hs' Ha).
Qed.

Lemma wp_closed {l1 closes l2 Q f c} :
  reads l1 closes -> closes = true -> safe f c ->
  (forall f' c', safe f' c' -> wp l2 Q true f' c' false false) ->
  wp (l1 ++ l2) Q true f c false false.
Proof.
  intros H1 Hcl Hs H2. apply (wp_reads H1 Hs).
  intros a' f' c' g' Hs' Ha. destruct (Ha Hcl) as [-> ->]. exact (H2 f' c' Hs').
Qed.

Definition opens (t : tok) (x : term) : Prop := forall rest f c,
  Lex (mkLx [] (t :: rest) true f c false false) = LexTok x (mkLx [] rest true (-1) (-1) false false).
Definition joins (t : tok) (x : term) : Prop := forall rest a f c g,
  Lex (mkLx [] (t :: rest) a f c false g) = LexTok x (mkLx [] rest true f c false false).

Lemma reads_nil : reads [] true.
Proof. intros f c Hs. apply wp_nil, ended_cmd, Hs. Qed.

Lemma reads_kw {t x l closes} : opens t x -> reads l closes -> reads (P1 t x :: l) closes.
Proof. intros Ht Hl f c Hs. exact (wp_tok (fun r => Ht r f c) (Hl _ _ safe_m1)). Qed.

Lemma reads_seq {l1 closes1 l2 closes} :
  reads l1 closes1 -> closes1 = true -> reads l2 closes -> reads (l1 ++ l2) closes.
Proof. intros H1 Hcl H2 f c Hs. exact (wp_closed H1 Hcl Hs H2). Qed.

Lemma reads_sep {t x l1 closes1 l2 closes} :
  joins t x -> reads l1 closes1 -> reads l2 closes -> reads (l1 ++ P1 t x :: l2) closes.
Proof.
  intros Ht H1 H2 f c Hs. apply (wp_reads H1 Hs). intros a' f' c' g' Hs' _.
  exact (wp_tok (fun r => Ht r a' f' c' g') (H2 _ _ Hs')).
Qed.

Lemma reads_sepop s {l1 closes1 l2 closes} :
  reads l1 closes1 -> reads l2 closes -> reads (l1 ++ print_sep s :: l2) closes.
Proof.
  destruct s.
  - exact (reads_sep (lex_operator s_semi eq_refl WkPlain false)).
  - exact (reads_sep (lex_operator s_amp eq_refl WkPlain false)).
Qed.

Lemma reads_bang bang {l closes} : reads l closes -> reads (print_bang bang ++ l) closes.
Proof. intro H. destruct bang; [exact (reads_kw (lex_reserved s_bang eq_refl WkPlain) H) | exact H]. Qed.

Lemma reads_block {t x t' x' l closes} :
  opens t x -> opens t' x' -> reads l closes -> closes = true -> reads (P1 t x :: l ++ [P1 t' x']) true.
Proof. intros Ht Ht' Hl Hcl. exact (reads_kw Ht (reads_seq Hl Hcl (reads_kw Ht' reads_nil))). Qed.

Lemma reads_loop {t x l1 closes1 l2 closes2} :
  opens t x -> reads l1 closes1 -> closes1 = true -> reads l2 closes2 -> closes2 = true ->
  reads (P1 t x :: l1 ++ kw s_do tkDO :: l2 ++ [kw s_done tkDONE]) true.
Proof.
  intros Ht H1 Hc1 H2 Hc2. exact (reads_kw Ht (reads_seq H1 Hc1 (reads_block (lex_reserved s_do eq_refl WkPlain) (lex_reserved s_done eq_refl WkPlain) H2 Hc2))).
Qed.

Lemma reads_cond {t x l1 closes1 l2 closes2 l3} :
  opens t x -> reads l1 closes1 -> closes1 = true -> reads l2 closes2 -> closes2 = true -> reads l3 true ->
  reads (P1 t x :: l1 ++ kw s_then tkTHEN :: l2 ++ l3) true.
Proof.
  intros Ht H1 Hc1 H2 Hc2 H3.
  exact (reads_kw Ht (reads_seq H1 Hc1 (reads_kw (lex_reserved s_then eq_refl WkPlain) (reads_seq H2 Hc2 H3)))).
Qed.

Lemma args_ended {l f c} : args l false -> safe f c -> wp l (ended false) false f c false false.
Proof. intros Hl Hs. apply (wp_mono (Hl f c Hs)). unfold argpos, ended. intuition discriminate. Qed.

Lemma reads_redirs l rs :
  reads l true -> forallb redir_ok rs = true -> reads (l ++ print_redirs rs) (no_redirs rs).
Proof.
  intros Hl Hrs. destruct rs as [| r rs]; [rewrite app_nil_r; exact Hl |].
  cbn [forallb] in Hrs. apply andb_true_iff in Hrs as [Hr Hrs].
  intros f c Hs. apply (wp_closed Hl eq_refl Hs). intros f1 c1 Hs1.
  apply wp_redir; [exact Hr | exact Hs1 |].
  exact (args_ended (args_redirs rs false Hrs) (safe_bump _ _ Hs1)).
Qed.

Lemma wp_assigns vs l Q : forall v f c g,
  forallb assign_ok (v :: vs) = true -> wp l Q true (-1) (-1) false true ->
  wp (map (fun w => P1 w tkASSIGNMENT_WORD) (v :: vs) ++ l) Q true f c false g.
Proof.
  induction vs as [| v' vs IH]; intros v f c g Hok Hl;
    cbn [forallb] in Hok; apply andb_true_iff in Hok as [Hv Hok]; cbn [map app]; tok lex_assign.
  - exact Hl.
  - exact (IH v' _ _ _ Hok Hl).
Qed.

Lemma wp_items_cmdstart items (f c : Z) (g : bool) :
  match items with
  | SWord w :: r => (if g then later_name_ok w else name_ok w) && forallb sitem_ok r
  | _ => forallb sitem_ok items
  end = true ->
  safe f c -> wp (flat_map print_sitem items) (ended false) true f c false g.
Proof.
  intros Hok Hs. destruct items as [| [w | r] items]; cbn [flat_map print_sitem app].
  - apply wp_nil. unfold ended. intuition discriminate.
  - apply andb_true_iff in Hok as [Hw Hitems].
    destruct g; [tok lex_name_after_assign | tok lex_name]; exact (args_ended (args_sitems items false Hitems) safe_m1).
  - cbn [forallb sitem_ok] in Hok. apply andb_true_iff in Hok as [Hr Hitems].
    apply wp_redir; [exact Hr | exact Hs | exact (args_ended (args_sitems items false Hitems) (safe_bump _ _ Hs))].
Qed.

Lemma reads_simple assigns items :
  simple_ok assigns items = true -> reads (print_cmd (CSimple assigns items)) false.
Proof.
  unfold simple_ok. intros Hok f c Hs.
  apply andb_true_iff in Hok as [Hok _]. apply andb_true_iff in Hok as [Hassigns Hitems].
  cbn [print_cmd]. destruct assigns as [| v vs].
  - exact (wp_items_cmdstart items f c false Hitems Hs).
  - apply wp_assigns; [exact Hassigns |]. exact (wp_items_cmdstart items _ _ true Hitems safe_m1).
Qed.

(* the two states in which a case item can start: directly after `in`, or after `;;` *)
Definition item_entry (a : bool) (f c : Z) : Prop :=
  (a = false /\ f = -1 /\ c = 2) \/ (a = true /\ safe f c).

Lemma safe_m1_3 : safe (-1) 3.
Proof. unfold safe. lia. Qed.

Lemma safe_2_m1 : safe 2 (-1).
Proof. unfold safe. lia. Qed.

Lemma wp_selector lp p ps l Q a f c :
  pattern_ok p = true -> forallb pattern_ok ps = true -> item_entry a f c ->
  (forall f' c', safe f' c' -> wp l Q true f' c' false false) ->
  wp (print_selector lp p ps ++ l) Q a f c true false.
Proof.
  intros Hp Hps Hentry Hl. pose proof (pattern_arg_ok p Hp) as Hw.
  assert (Hpats : forall f1 c1, safe f1 c1 ->
            wp ((print_pats ps ++ [kw s_rparen tkRPAREN]) ++ l) Q false f1 c1 true false).
  { intros f1 c1 Hs1. rewrite <- app_assoc. apply (wp_args (args_pats ps Hps) Hs1).
    intros f2 c2 Hs2. cbn [app]. tok (lex_operator s_rparen eq_refl). exact (Hl f2 c2 Hs2). }
  unfold print_selector. rewrite <- app_assoc.
  destruct Hentry as [(-> & -> & ->) | (-> & Hs)]; destruct lp; cbn [print_lp app].
  - tok (lex_operator s_lparen eq_refl). tok lex_first_pattern. apply Hpats, safe_m1_3.
  - tok lex_first_pattern. apply Hpats, safe_m1_3.
  - tok (lex_operator s_lparen eq_refl). tok lex_arg. apply Hpats, safe_bump, Hs.
  - tok lex_pattern_after_dsemi. apply Hpats, safe_m1.
Qed.

Definition reads_items (l : list ptok) : Prop :=
  forall a f c, item_entry a f c -> wp l (ended true) a f c true false.

Theorem lexer_reads_tree :
  (forall c, wf_cmd c = true -> faithful_cmd c = true -> reads (print_cmd c) (ends_cmd c)) /\
  (forall k, wf_compound k = true -> faithful_compound k = true -> reads (print_compound k) true) /\
  (forall e, wf_else e = true -> faithful_else e = true -> reads (print_else e) true) /\
  (forall it, wf_items it = true -> faithful_items it = true -> reads_items (print_items it)) /\
  (forall b, match b with
             | BNone => True
             | BSome l => wf_clist l = true -> faithful_clist l = true -> reads (print_clist l) (closed_clist l)
             end) /\
  (forall p, wf_pipe p = true -> faithful_pipe p = true -> reads (print_pipe p) (ends_pipe p)) /\
  (forall a, wf_andor a = true -> faithful_andor a = true -> reads (print_andor a) (ends_andor a)) /\
  (forall q, wf_seq q = true -> faithful_seq q = true -> reads (print_seq q) (ends_seq q)) /\
  (forall l, wf_clist l = true -> faithful_clist l = true -> reads (print_clist l) (closed_clist l)).
Proof.
  apply posix_mutind.
  - (* CSimple *)
    intros assigns items Hwf _. exact (reads_simple assigns items Hwf).
  - (* CCompound *)
    intros k IHk rs Hwf Hfa. parts. apply reads_redirs; auto.
  - (* CFuncDef *)
    intros name body IHk rs Hwf Hfa. parts. intros f c Hs. cbn [print_cmd].
    tok lex_name. tok (lex_operator s_lparen eq_refl). tok (lex_operator s_rparen eq_refl). apply reads_redirs; auto using safe_m1.
  - (* KBrace *)
    intros l IH Hwf Hfa. parts. eapply (reads_block (lex_reserved s_lbrace eq_refl WkPlain) (lex_reserved s_rbrace eq_refl WkPlain)); eauto.
  - (* KSubshell *)
    intros l IH Hwf Hfa.
    exact (reads_sep (l1 := []) (lex_operator s_lparen eq_refl WkPlain false) reads_nil
             (reads_sep (lex_operator s_rparen eq_refl WkPlain false) (IH Hwf Hfa) reads_nil)).
  - (* KFor *)
    intros name m body IH Hwf Hfa. parts. intros f c Hs. cbn [print_compound].
    assert (Hdone : reads (print_clist body ++ [kw s_done tkDONE]) true)
      by (eapply reads_seq; [eauto | assumption | exact (reads_kw (lex_reserved s_done eq_refl WkPlain) reads_nil)]).
    tok (lex_reserved s_for eq_refl). tok lex_arg_for_name. destruct m as [| | ws]; cbn [app].
    + tok lex_for_do. exact (Hdone _ _ safe_2_m1).
    + tok (lex_operator s_semi eq_refl). tok (lex_reserved s_do eq_refl). exact (Hdone _ _ safe_m1).
    + tok lex_for_in. rewrite <- app_assoc.
      eapply wp_args; [apply args_words; assumption | exact safe_2_m1 |].
      intros f1 c1 Hs1. cbn [app]. tok (lex_operator s_semi eq_refl). tok (lex_reserved s_do eq_refl). exact (Hdone _ _ safe_m1).
  - (* KCase *)
    intros w items IH Hwf Hfa. parts. intros f c Hs. cbn [print_compound].
    tok (lex_reserved s_case eq_refl). tok lex_arg_case_subject. tok lex_case_in. apply IH; auto. left. auto.
  - (* KIf *)
    intros c IHc t IHt e IHe Hwf Hfa. parts. eapply (reads_cond (lex_reserved s_if eq_refl WkPlain)); eauto.
  - (* KWhile *)
    intros c IHc b IHb Hwf Hfa. parts. eapply (reads_loop (lex_reserved s_while eq_refl WkPlain)); eauto.
  - (* KUntil *)
    intros c IHc b IHb Hwf Hfa. parts. eapply (reads_loop (lex_reserved s_until eq_refl WkPlain)); eauto.
  - (* ENone *)
    intros _ _. exact (reads_kw (lex_reserved s_fi eq_refl WkPlain) reads_nil).
  - (* EElse *)
    intros l IH Hwf Hfa. parts. eapply (reads_block (lex_reserved s_else eq_refl WkPlain) (lex_reserved s_fi eq_refl WkPlain)); eauto.
  - (* EElif *)
    intros c IHc t IHt e IHe Hwf Hfa. parts. eapply (reads_cond (lex_reserved s_elif eq_refl WkPlain)); eauto.
  - (* CINil *)
    intros _ _ a f c [(-> & -> & ->) | (-> & Hs)]; cbn [print_items].
    + tok lex_case_in_esac. apply wp_nil, ended_cmd, safe_m1_3.
    + tok lex_esac_cmdstart. apply wp_nil, ended_cmd, safe_m1.
  - (* CILast *)
    intros lp p ps body IHb Hwf Hfa a f c Hentry. cbn [print_items].
    assert (Hesac : reads [kw s_esac tkESAC] true).
    { intros f1 c1 _. tok lex_esac_cmdstart. apply wp_nil, ended_cmd, safe_m1. }
    destruct body as [| l]; parts; apply wp_selector; auto.
    intros f1 c1 Hs1. cbn [print_body]. eapply wp_closed; eauto.
  - (* CICons *)
    intros lp p ps body IHb rest IHr Hwf Hfa a f c Hentry. cbn [print_items].
    assert (Hrest : wf_items rest = true -> faithful_items rest = true -> forall a1 f1 c1 g1, safe f1 c1 ->
              wp (kw s_semisemi tkSEMISEMI :: print_items rest) (ended true) a1 f1 c1 false g1).
    { intros Hw Hf a1 f1 c1 g1 Hs1. tok (lex_operator s_semisemi eq_refl). apply IHr; auto. right. auto. }
    destruct body as [| l]; parts; apply wp_selector; auto.
    intros f1 c1 Hs1. cbn [print_body]. eapply wp_reads; eauto.
  - (* BNone *)
    exact I.
  - (* BSome *)
    intros l IH. exact IH.
  - (* PCmd *)
    intros c IH. exact IH.
  - (* PPipe *)
    intros p IHp c IHc Hwf Hfa. parts. eapply (reads_sep (lex_operator s_pipe eq_refl WkPlain false)); eauto.
  - (* AOne *)
    intros bang p IH Hwf Hfa. exact (reads_bang bang (IH Hwf Hfa)).
  - (* AAnd *)
    intros a IHa bang p IHp Hwf Hfa. parts.
    eapply (reads_sep (lex_operator s_andand eq_refl WkPlain false)); [| apply reads_bang]; eauto.
  - (* AOr *)
    intros a IHa bang p IHp Hwf Hfa. parts.
    eapply (reads_sep (lex_operator s_oror eq_refl WkPlain false)); [| apply reads_bang]; eauto.
  - (* QOne *)
    intros a IH. exact IH.
  - (* QSeq *)
    intros q IHq s a IHa Hwf Hfa. parts. eapply (reads_sepop s); eauto.
  - (* CL *)
    intros q IH [s |] Hwf Hfa; cbn [print_clist closed_clist].
    + exact (reads_sepop s (IH Hwf Hfa) reads_nil).
    + exact (IH Hwf Hfa).
Qed.
