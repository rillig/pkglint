(* C02: which file operations the model performs. *)
From PV Require Import Lib.Bytes Model.Autofix Proofs.Autofix Proofs.AutofixSort.
Open Scope Z_scope.

Lemma save_no_autofix o ls : o_autofix o = false -> save o ls = ([], false).
Proof. intro H. unfold save. rewrite H. reflexivity. Qed.

Lemma plist_sort_no_autofix o keys store store' printed ops af :
  o_autofix o = false -> plist_sort o keys store = Ok (store', printed, ops, af) -> ops = [] /\ af = false.
Proof.
  intros Ha PS. apply plist_sort_cases in PS as [H|(first & l0 & idx & l4 & pr & _ & _ & _ & _ & H)];
    cbv zeta in H; inversion H; [auto|].
  rewrite save_no_autofix by exact Ha. auto.
Qed.

Lemma step_no_autofix o keys e st st' :
  o_autofix o = false -> step o keys e st = Ok st' -> s_ops st' = s_ops st.
Proof.
  intros Ha H. destruct e as [t| | |file x c].
  - apply step_txn in H as [->|(l0 & l1 & pr & _ & _ & ->)]; reflexivity.
  - cbn [step] in H. rewrite save_no_autofix in H by exact Ha. inversion H. apply app_nil_r.
  - cbn [step] in H. unfold bind in H.
    destruct (plist_sort o keys (s_store st)) as [[[[store' pr] ops] af]|] eqn:PS; [|discriminate].
    apply plist_sort_no_autofix in PS as [-> ->]; [|exact Ha].
    rewrite save_no_autofix in H by exact Ha. inversion H. apply app_nil_r.
  - cbn [step] in H. rewrite check_executable_eq, Ha in H.
    destruct (_ && _ && _); inversion H; apply app_nil_r.
Qed.

Theorem no_autofix_no_ops o keys evs : forall st st',
  o_autofix o = false -> run o keys evs st = Ok st' -> s_ops st' = s_ops st.
Proof.
  intros st st' Ha.
  apply (run_invariant o keys (fun _ => True) (fun s => s_ops s = s_ops st)); [|apply Forall_forall|]; auto.
  intros e s s' _ E S. rewrite <- E. eapply step_no_autofix; eassumption.
Qed.

Definition logged (log : list logline) (f : str) : Prop := exists g, In g log /\ g_file g = f.

Definition op_justified (log : list logline) (op : fsop) : Prop :=
  match op with
  | OpCreateExcl p => exists f, p = f ++ tmp_suffix /\ logged log f
  | OpWrite p _ => exists f, p = f ++ tmp_suffix /\ logged log f
  | OpChmodLike p like => exists f, p = f ++ tmp_suffix /\ like = f /\ logged log f
  | OpRename a b => exists f, a = f ++ tmp_suffix /\ b = f /\ logged log f
  | OpRemove p => exists f, p = f ++ tmp_suffix /\ logged log f
  | OpChmod p => exists g, In g log /\ g_file g = p /\ g_descr g = DChmod
  end.

(* every temporary file is renamed onto its target right after it was written *)
Inductive wpaired : list fsop -> Prop :=
| wp_nil : wpaired []
| wp_save f c ops : wpaired ops -> wpaired (save_seq f c ++ ops)
| wp_chmod p ops : wpaired ops -> wpaired (OpChmod p :: ops).

Lemma wpaired_app a b : wpaired a -> wpaired b -> wpaired (a ++ b).
Proof. induction 1; intro; cbn; [assumption|constructor; auto|constructor; auto]. Qed.

Definition justified (log : list logline) (ops : list fsop) : Prop :=
  Forall (op_justified log) ops /\ wpaired ops.

Lemma justified_nil log : justified log [].
Proof. split; constructor. Qed.

Lemma justified_app log a b : justified log a -> justified log b -> justified log (a ++ b).
Proof. intros [Ja Wa] [Jb Wb]. split; [apply Forall_app; auto|apply wpaired_app; assumption]. Qed.

Lemma logged_mono log log' f : logged log f -> logged (log ++ log') f.
Proof. intros (g & H & E). exists g. auto using in_or_app. Qed.

Lemma op_justified_mono log log' op : op_justified log op -> op_justified (log ++ log') op.
Proof. destruct op; cbn; intros (y & H); exists y; intuition auto using logged_mono, in_or_app. Qed.

Lemma justified_mono log log' ops : justified log ops -> justified (log ++ log') ops.
Proof. intros [J W]. split; [|exact W]. eapply Forall_impl; [|exact J]. apply op_justified_mono. Qed.

Definition modified_logged (ls : list line) (log : list logline) : Prop :=
  Forall (fun l => line_modified l = true -> logged log (l_file l)) ls.

Lemma modified_logged_mono ls log log' : modified_logged ls log -> modified_logged ls (log ++ log').
Proof. apply Forall_impl. intros l H Hm. apply logged_mono. exact (H Hm). Qed.

Lemma changed_files_in ls : forall seen f,
  In f (changed_files ls seen) -> exists l, In l ls /\ line_modified l = true /\ l_file l = f.
Proof.
  induction ls as [|l ls IH]; intros seen f H; cbn [changed_files] in H; [contradiction|].
  destruct (line_modified l) eqn:C; cbn [andb] in H; [destruct (negb _); [destruct H as [<-|H]|]|].
  1: exists l; repeat split; [left; reflexivity|exact C].
  all: destruct (IH _ _ H) as (x & Hx & R); exists x; split; [right; exact Hx|exact R].
Qed.

Lemma save_seq_justified log f c : logged log f -> Forall (op_justified log) (save_seq f c).
Proof. intro L. repeat apply Forall_cons; [exists f; auto ..|apply Forall_nil]. Qed.

Lemma save_justified o ls log : modified_logged ls log -> justified log (fst (save o ls)).
Proof.
  intro ML. unfold save. destruct (negb (o_autofix o)); cbn [fst]; [apply justified_nil|].
  assert (Hf : Forall (logged log) (changed_files ls [])).
  { apply Forall_forall. intros f Hin. apply changed_files_in in Hin as (l & Hl & Hm & <-).
    exact (proj1 (Forall_forall _ _) ML l Hl Hm). }
  induction Hf as [|f fs Lf _ [IH1 IH2]]; cbn [flat_map]; [apply justified_nil|].
  split; [apply Forall_app; split; [apply save_seq_justified; exact Lf|exact IH1]|constructor; exact IH2].
Qed.

(* Apply on line i: if an action was described, the line counts as modified and its
   AUTOFIX lines are in the log *)
Lemma settled_logged ls log i l0 text q acts :
  nth_error ls i = Some l0 -> Forall idle ls -> modified_logged ls log ->
  let l1 := settled l0 text q acts in
  Forall idle (set_nth i l1 ls) /\ modified_logged (set_nth i l1 ls) (log ++ log_of l1 acts).
Proof.
  intros En Id ML l1. split; [eapply Forall_set_nth; [exact En|exact Id|]; unfold idle; cbn; auto|].
  eapply Forall_set_nth; [exact En|exact (modified_logged_mono _ _ _ ML)|].
  destruct acts as [|a acts]; intro Hm.
  - apply logged_mono. exact (proj1 (Forall_forall _ _) ML l0 (nth_error_In _ _ En) Hm).
  - exists (Log (l_file l0) (fst a) (snd a)). split; [apply in_or_app; right; left; reflexivity|reflexivity].
Qed.

(* plistLineSorter.Sort with --autofix: the line that is marked as modified got its AUTOFIX line *)
Lemma plist_sort_fs o keys store store' printed ops af log :
  o_autofix o = true -> Forall idle store -> modified_logged store log ->
  plist_sort o keys store = Ok (store', printed, ops, af) ->
  Forall idle store' /\ modified_logged store' (log ++ printed) /\ justified (log ++ printed) ops.
Proof.
  intros Ha Id ML PS.
  apply plist_sort_cases in PS as [H|(first & l0 & idx & l4 & pr & _ & _ & En & SF & H)];
    cbv zeta in H; inversion H.
  { rewrite app_nil_r. repeat split; try assumption; constructor. }
  destruct (SF Id) as [-> ->]. rewrite (is_autofix_on o Ha).
  destruct (settled_logged _ log _ _ (l_text l0) (cur l0) (sort_action l0) En Id ML) as [Id' ML'].
  split; [exact Id'|]. split; [exact ML'|]. apply save_justified.
  (* the sorted view consists of lines of the store *)
  apply Forall_forall. intros x Hx. apply in_map_iff in Hx as (p & <- & _).
  destruct (nth_in_or_default (fst p) (set_nth first (sorted_line l0) store) dummy_line) as [Hin| ->];
    [|discriminate]. exact (proj1 (Forall_forall _ _) ML' _ Hin).
Qed.

(* checkExecutable with --autofix: the mode is changed under a printed line *)
Lemma chmod_justified o file x c printed ops log :
  o_autofix o = true -> check_executable o file x c = Ok (printed, ops) ->
  justified (log ++ map (fun p => Log file (fst p) (snd p)) printed) ops.
Proof.
  intro Ha. rewrite check_executable_eq, (is_autofix_on o Ha), Ha.
  destruct (_ && _ && _); intro H; inversion H; [|apply justified_nil].
  split; [|repeat constructor]. constructor; [|constructor].
  exists (Log file DChmod 0). split; [apply in_or_app; right; left; reflexivity|split; reflexivity].
Qed.

Record fs_inv (st : state) : Prop := {
  fi_idle : Forall idle (s_store st);
  fi_logged : modified_logged (s_store st) (s_log st);
  fi_just : justified (s_log st) (s_ops st)
}.

Lemma step_fs_inv o keys e st st' :
  o_autofix o = true -> fs_inv st -> step o keys e st = Ok st' -> fs_inv st'.
Proof.
  intros Ha [Id ML Ju] H. destruct e as [t| | |file x c].
  - apply step_txn in H as [->|(l0 & l1 & pr & En & DT & ->)]; [constructor; assumption|].
    pose proof (proj1 (Forall_forall _ _) Id _ (nth_error_In _ _ En)) as I0.
    destruct (do_txn_spec o t l0 l1 pr Ha I0 DT) as (text & q & -> & _).
    destruct (settled_logged _ (s_log st) _ _ text q pr En Id ML) as [Id' ML'].
    constructor; [exact Id'|exact ML'|apply justified_mono; exact Ju].
  - cbn [step] in H. pose proof (save_justified o _ _ ML) as J.
    destruct (save o (s_store st)) as [ops b]. inversion H.
    constructor; [exact Id|exact ML|apply justified_app; assumption].
  - cbn [step] in H. unfold bind in H.
    destruct (plist_sort o keys (s_store st)) as [[[[store' pr] ops] af]|] eqn:PS; [|discriminate].
    destruct (plist_sort_fs o keys _ _ _ _ _ _ Ha Id ML PS) as (Id' & ML' & J').
    inversion H. constructor; [exact Id'|exact ML'|]. cbn [s_log s_ops].
    apply justified_app; [apply justified_mono; exact Ju|]. apply justified_app; [exact J'|].
    destruct af; [apply justified_nil|apply save_justified; exact ML'].
  - cbn [step] in H. unfold bind in H.
    destruct (check_executable o file x c) as [[pr ops]|] eqn:CE; [|discriminate]. inversion H.
    constructor; cbn [s_store s_log s_ops]; [exact Id|apply modified_logged_mono; exact ML|].
    apply justified_app; [apply justified_mono; exact Ju|exact (chmod_justified o file x c pr ops _ Ha CE)].
Qed.

Definition fresh (st : state) : Prop :=
  Forall (fun l => l_fix l = None) (s_store st) /\ s_log st = [] /\ s_ops st = [].

Lemma fresh_fs_inv st : fresh st -> fs_inv st.
Proof.
  intros (F & L & O). constructor; rewrite ?L, ?O; [| |apply justified_nil].
  - eapply Forall_impl; [|exact F]. intros l E. unfold idle. rewrite E. exact I.
  - eapply Forall_impl; [|exact F]. intros l E. unfold line_modified. rewrite E. discriminate.
Qed.

Lemma run_fs_inv o keys evs st st' :
  o_autofix o = true -> fresh st -> run o keys evs st = Ok st' -> fs_inv st'.
Proof.
  intros Ha F. apply (run_invariant o keys (fun _ => True) fs_inv); [|apply Forall_forall; auto|apply fresh_fs_inv; exact F].
  intros e s s' _. apply step_fs_inv. exact Ha.
Qed.

Theorem autofix_touches_only_changed o keys evs st st' :
  o_autofix o = true -> fresh st -> run o keys evs st = Ok st' ->
  Forall (op_justified (s_log st')) (s_ops st').
Proof. intros Ha F R. exact (proj1 (fi_just _ (run_fs_inv o keys evs st st' Ha F R))). Qed.

Theorem no_tmp_left o keys evs st st' :
  o_autofix o = true -> fresh st -> run o keys evs st = Ok st' -> wpaired (s_ops st').
Proof. intros Ha F R. exact (proj2 (fi_just _ (run_fs_inv o keys evs st st' Ha F R))). Qed.

Theorem changed_implies_logged o keys evs st st' :
  o_autofix o = true -> fresh st -> run o keys evs st = Ok st' ->
  forall l, In l (s_store st') -> line_modified l = true -> logged (s_log st') (l_file l).
Proof.
  intros Ha F R. exact (proj1 (Forall_forall _ _) (fi_logged _ (run_fs_inv o keys evs st st' Ha F R))).
Qed.

Lemma mode_change_implies_logged o keys evs st st' :
  o_autofix o = true -> fresh st -> run o keys evs st = Ok st' ->
  forall p, In (OpChmod p) (s_ops st') ->
    exists g, In g (s_log st') /\ g_file g = p /\ g_descr g = DChmod.
Proof.
  intros A F R p. exact (proj1 (Forall_forall _ _) (autofix_touches_only_changed o keys evs st st' A F R) _).
Qed.

Fixpoint remove_one (p : str) (l : list str) : list str :=
  match l with
  | [] => []
  | x :: l' => if str_eqb p x then l' else x :: remove_one p l'
  end.

Fixpoint tmp_left (existing : list str) (ops : list fsop) : list str :=
  match ops with
  | [] => existing
  | OpCreateExcl p :: r => tmp_left (p :: existing) r
  | OpRename a _ :: r => tmp_left (remove_one a existing) r
  | OpRemove p :: r => tmp_left (remove_one p existing) r
  | _ :: r => tmp_left existing r
  end.

Lemma save_file_shape e f c :
  let tmp := f ++ tmp_suffix in
  save_file e f c = ([], false) \/
  exists mid (ok : bool),
    save_file e f c = (OpCreateExcl tmp :: mid ++ [if ok then OpRename tmp f else OpRemove tmp], ok) /\
    Forall (fun op => op = OpWrite tmp c \/ op = OpChmodLike tmp f) mid.
Proof.
  intro tmp. unfold save_file. fold tmp. destruct (e_tmp_exists e tmp); [left; reflexivity|right]. cbv zeta.
  set (written := if e_write_fails e tmp then [] else [OpWrite tmp c]).
  match goal with |- context [written ++ ?x ++ _] => set (chmodded := x) end.
  exists (written ++ chmodded).
  assert (M : Forall (fun op => op = OpWrite tmp c \/ op = OpChmodLike tmp f) (written ++ chmodded)).
  { apply Forall_app. split; [subst written; destruct (e_write_fails e tmp)|subst chmodded; destruct (_ && _)];
      repeat (constructor; auto). }
  destruct (_ || _); [exists false|destruct (e_rename_fails e tmp); [exists false|exists true]];
    (split; [rewrite <- app_assoc; reflexivity|exact M]).
Qed.

Lemma tmp_left_mid tmp f c mid : Forall (fun op => op = OpWrite tmp c \/ op = OpChmodLike tmp f) mid ->
  forall ex rest, tmp_left ex (mid ++ rest) = tmp_left ex rest.
Proof.
  induction 1 as [|op mid [->| ->] _ IH]; intros ex rest; cbn [app tmp_left]; auto.
Qed.

Lemma save_file_balanced e f c ex rest :
  tmp_left ex (fst (save_file e f c) ++ rest) = tmp_left ex rest.
Proof.
  destruct (save_file_shape e f c) as [E|(mid & ok & E & M)]; rewrite E; [reflexivity|].
  cbn [fst app tmp_left]. rewrite <- app_assoc, (tmp_left_mid _ _ _ _ M).
  destruct ok; cbn [app tmp_left remove_one]; rewrite str_eqb_refl; reflexivity.
Qed.

(* whatever fails: no temporary file is left behind by SaveAutofixChanges *)
Theorem no_tmp_left_faults e o ls : tmp_left [] (fst (save_env e o ls)) = [].
Proof.
  unfold save_env. destruct (negb (o_autofix o)); [reflexivity|]. cbn [fst].
  induction (changed_files ls []) as [|f fs IH]; [reflexivity|].
  cbn [map flat_map]. rewrite save_file_balanced. exact IH.
Qed.

Theorem create_fails_untouched e f c :
  e_tmp_exists e (f ++ tmp_suffix) = true -> save_file e f c = ([], false).
Proof. intro H. unfold save_file. rewrite H. reflexivity. Qed.

(* a file is only replaced by a temporary file that carries its bytes and, if the
   original could be examined, its mode *)
Theorem saved_with_mode e f c :
  snd (save_file e f c) = true -> e_stat_fails e f = false -> fst (save_file e f c) = save_seq f c.
Proof.
  unfold save_file, save_seq. destruct (e_tmp_exists e (f ++ tmp_suffix)); [discriminate|].
  destruct (e_write_fails e (f ++ tmp_suffix)), (e_stat_fails e f), (e_chmod_fails e (f ++ tmp_suffix)),
    (e_rename_fails e (f ++ tmp_suffix)); cbn; intros; try discriminate; reflexivity.
Qed.

(* every operation of a save concerns f.pkglint.tmp of a changed file f; only the
   rename touches f itself *)
Definition op_on_changed (fs : list str) (op : fsop) : Prop :=
  match op with
  | OpCreateExcl p | OpWrite p _ | OpRemove p => exists f, In f fs /\ p = f ++ tmp_suffix
  | OpChmodLike p like => exists f, In f fs /\ p = f ++ tmp_suffix /\ like = f
  | OpRename a b => exists f, In f fs /\ a = f ++ tmp_suffix /\ b = f
  | OpChmod _ => False
  end.

Lemma save_file_on_changed e f c fs : In f fs -> Forall (op_on_changed fs) (fst (save_file e f c)).
Proof.
  intro Hf. destruct (save_file_shape e f c) as [E|(mid & ok & E & M)]; rewrite E; [constructor|].
  constructor; [exists f; auto|]. apply Forall_app. split.
  - eapply Forall_impl; [|exact M]. intros op [->| ->]; exists f; auto.
  - constructor; [|constructor]. destruct ok; exists f; auto.
Qed.

Theorem save_env_touches_only_changed e o ls :
  Forall (op_on_changed (changed_files ls [])) (fst (save_env e o ls)).
Proof.
  unfold save_env. destruct (negb (o_autofix o)); [constructor|]. cbn [fst].
  apply Forall_flat_map, Forall_map, Forall_forall. intros f. apply save_file_on_changed.
Qed.

Lemma save_env_no_faults o ls : save_env no_faults o ls = save o ls.
Proof.
  unfold save_env, save. destruct (negb (o_autofix o)); [reflexivity|].
  induction (changed_files ls []) as [|f fs IH]; [reflexivity|].
  cbn [map flat_map existsb]. inversion IH as [[H1 H2]]. rewrite H1.
  unfold save_file at 1 3. cbn. reflexivity.
Qed.
