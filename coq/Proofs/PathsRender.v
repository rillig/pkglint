(* C19: which bytes a cleaned path contains, and that cleaning it again changes nothing. *)
From PV Require Import Lib.Bytes Model.Paths Spec.PathDenote Proofs.PathsBase Proofs.PathsClean.
Open Scope N_scope.

Definition nocolon (s : str) : Prop := ~ In colon s.

Lemma nocolon_app a b : nocolon a -> nocolon b -> nocolon (a ++ b).
Proof. intros Ha Hb H. apply in_app_or in H as [H|H]; auto. Qed.

Lemma nocolon_cons c s : colon <> c -> nocolon s -> nocolon (c :: s).
Proof. intros Hc Hs. apply not_in_cons. auto. Qed.

Lemma nocolon_dotdot : nocolon dotdot.
Proof. intros [H|[H|[]]]; discriminate. Qed.
Lemma nocolon_dot : nocolon dotstr.
Proof. intros [H|[]]; discriminate. Qed.

Lemma nocolon_join l : Forall nocolon l -> nocolon (join_slash l).
Proof.
  induction 1 as [|x l Hx _ IH]; [apply in_nil|]. destruct l as [|y l]; [exact Hx|].
  rewrite join_cons. apply nocolon_app; [exact Hx|]. apply nocolon_cons; [discriminate|exact IH].
Qed.

Lemma nocolon_split p : nocolon p -> Forall nocolon (split_slash p).
Proof.
  induction p as [|c p IH]; intro H; simpl; [repeat constructor; exact H|].
  apply not_in_cons in H as [Hc Hp]. specialize (IH Hp).
  destruct (split_cons p) as (h & t & E). rewrite E in *. apply Forall_cons_iff in IH as [Hh Ht].
  destruct (c =? slash); repeat constructor; try assumption; [apply in_nil|apply nocolon_cons; assumption].
Qed.

Lemma nocolon_names p : nocolon p -> Forall nocolon (names p).
Proof. intro H. apply (incl_Forall (incl_filter _ _)). rewrite segs_split. apply nocolon_split, H. Qed.

Lemma nocolon_is_abs p : nocolon p -> is_abs p = rooted p.
Proof.
  intro H. destruct p as [|c0 [|c1 [|c2 r]]]; try reflexivity; simpl; try (rewrite orb_false_r; reflexivity).
  destruct (N.eqb_spec c1 colon) as [->|Hne].
  - exfalso. apply H. right. left. reflexivity.
  - simpl. rewrite orb_false_r. reflexivity.
Qed.

Lemma nocolon_render rt e : Forall nocolon e -> nocolon (render rt e).
Proof.
  intro H. unfold render. destruct rt.
  - apply nocolon_cons; [discriminate|apply nocolon_join; exact H].
  - destruct e; [apply nocolon_dot|apply nocolon_join; exact H].
Qed.

Lemma nocolon_clean_elems p e :
  nocolon p -> (forall P : str -> Prop, P dotdot -> Forall P (split_slash p) -> Forall P e) -> Forall nocolon e.
Proof. intros H HP. apply HP; [apply nocolon_dotdot|apply nocolon_split; exact H]. Qed.

Lemma nocolon_clean p : nocolon p -> nocolon (clean p).
Proof.
  intro H. destruct (clean_render p) as (e & _ & -> & _ & HP).
  apply nocolon_render, (nocolon_clean_elems p e H HP).
Qed.

Lemma clean_nonempty p : clean p <> [].
Proof. destruct (clean_render p) as (e & Hs & -> & _). apply render_nonempty, (shape_elems _ _ Hs). Qed.

Lemma fold_good rt l : Forall good l -> forall dd real,
  fold_left (clean_step rt) l (dd, real) = (dd, rev l ++ real).
Proof.
  induction 1 as [|c l Hc _ IH]; intros dd real; [reflexivity|].
  cbn [fold_left]. rewrite clean_step_name by apply Hc. rewrite IH. simpl. rewrite <- app_assoc. reflexivity.
Qed.

Lemma fold_dotdots n : forall dd,
  fold_left (clean_step false) (repeat dotdot n) (dd, []) = ((n + dd)%nat, []).
Proof.
  induction n as [|n IH]; intro dd; [reflexivity|].
  cbn [repeat fold_left]. rewrite clean_step_dotdot, IH. f_equal. lia.
Qed.

(* the "" in front of a rooted path and the "." that stands for no element are skipped *)
Lemma fold_render rt e st :
  Forall elem e -> fold_left (clean_step rt) (split_slash (render rt e)) st = fold_left (clean_step rt) e st.
Proof. intro H. rewrite split_render by exact H. destruct st, rt, e; reflexivity. Qed.

Lemma clean_of_render rt e : shape rt e -> clean (render rt e) = render rt e.
Proof.
  intros Hs. pose proof (shape_elems rt e Hs) as He.
  rewrite clean_unfold by (apply render_nonempty; exact He). unfold clean_state.
  rewrite rooted_render, fold_render by exact He.
  destruct Hs as (dd & ns & -> & Hns & Hdd).
  assert (Hdots : fold_left (clean_step rt) (repeat dotdot dd) (O, []) = (dd, [])).
  { destruct rt; [rewrite (Hdd eq_refl); reflexivity|]. rewrite fold_dotdots. f_equal. lia. }
  rewrite fold_left_app, Hdots, fold_good, app_nil_r, rev_involutive by exact Hns. reflexivity.
Qed.

Lemma clean_idempotent p : clean (clean p) = clean p.
Proof. destruct (clean_render p) as (e & Hs & -> & _). apply clean_of_render. exact Hs. Qed.
