(* Proofs about the Logger/Autofix mode machine (Model/Modes.v): what each
   Logger helper does to the output, a fix transaction in two halves (the
   operations up to Apply, which do not look at the Logger, and Apply), the
   step, then the run. *)
From PV Require Import Lib.Bytes Model.Modes.
Open Scope N_scope.

Definition fixes (g : lg) : list item := filter is_fix_item (g_out g).
Definition nonempty {A} (l : list A) : bool := match l with [] => false | _ => true end.
Definition modified (s : state) : bool := existsb l_modified (s_lines s).
Definition fresh (l : lstate) : Prop := l_modified l = false.

Lemma nonempty_app {A} (a b : list A) : nonempty (a ++ b) = nonempty a || nonempty b.
Proof. destruct a; reflexivity. Qed.
Lemma nonempty_true {A} (l : list A) : nonempty l = true <-> l <> [].
Proof. destruct l; cbn; split; congruence. Qed.
Lemma nonempty_map {A B} (f : A -> B) l : nonempty (map f l) = nonempty l.
Proof. destruct l; reflexivity. Qed.

(* of the Logger's helpers only SaveAutofixChanges touches autofixAvailable, and it prints nothing *)
Definition prints (g : lg) (items : list item) (g' : lg) : Prop :=
  g_out g' = g_out g ++ items /\ g_autofixAvail g' = g_autofixAvail g.

Lemma prints_nil g g' : g_out g' = g_out g -> g_autofixAvail g' = g_autofixAvail g -> prints g [] g'.
Proof. intros Ho Ha. split; [rewrite app_nil_r|]; assumption. Qed.
Lemma prints_trans g1 g2 g3 a b : prints g1 a g2 -> prints g2 b g3 -> prints g1 (a ++ b) g3.
Proof. intros [Ho1 Ha1] [Ho2 Ha2]. split; [rewrite Ho2, Ho1; symmetry; apply app_assoc|congruence]. Qed.
Lemma prints_fixes g items g' : prints g items g' -> fixes g' = fixes g ++ filter is_fix_item items.
Proof. intros [Ho _]. unfold fixes. rewrite Ho. apply filter_app. Qed.

Lemma relevant_fst only f g : fst (relevant only f g) = shall_be_logged only f.
Proof. reflexivity. Qed.
Lemma relevant_sd only f g : g_suppressDiag (snd (relevant only f g)) = negb (shall_be_logged only f).
Proof. reflexivity. Qed.

Definition logged (g : lg) (k : key) : bool := existsb (key_eqb k) (g_logged g).

Lemma logf_diag_prints g lv f ln msg :
  prints g (if g_suppressDiag g then [] else [IDiag lv f ln msg]) (logf_diag g lv f ln msg).
Proof. unfold logf_diag. destruct (g_suppressDiag g); [apply prints_nil|split]; reflexivity. Qed.
Lemma logf_diag_sd g lv f ln msg : g_suppressDiag (logf_diag g lv f ln msg) = false.
Proof. unfold logf_diag. destruct (g_suppressDiag g); reflexivity. Qed.

Lemma first_time_logf_prints g f ln msg lv : g_suppressDiag g = false ->
  prints g (if negb (logged g (f, ln, msg)) then [IDiag lv f ln msg] else [])
         (logf_diag (snd (first_time g (f, ln, msg))) lv f ln msg).
Proof.
  intros Hs. unfold first_time, logged. destruct (existsb _ _); cbn [snd negb]; [apply prints_nil; reflexivity|].
  unfold logf_diag. cbn. rewrite Hs. split; reflexivity.
Qed.

Lemma logf_fix_prints g f a :
  prints g (if g_suppressDiag g then [] else [IFix f (snd a) (fst a)]) (logf_fix g f a).
Proof. unfold logf_fix. destruct (g_suppressDiag g); [apply prints_nil|split]; reflexivity. Qed.
Lemma logf_fix_sd g f a : g_suppressDiag (logf_fix g f a) = false.
Proof. unfold logf_fix. destruct (g_suppressDiag g); reflexivity. Qed.

Lemma explain_prints g : prints g [] (explain g).
Proof. unfold explain. destruct (g_suppressExpl g); apply prints_nil; reflexivity. Qed.
Lemma explain_sd g : g_suppressDiag (explain g) = g_suppressDiag g.
Proof. unfold explain. destruct (g_suppressExpl g); reflexivity. Qed.

Definition fix_items (file : str) (acts : list action) : list item :=
  map (fun a => IFix file (snd a) (fst a)) acts.

Lemma fixes_fix_items file acts : filter is_fix_item (fix_items file acts) = fix_items file acts.
Proof. induction acts as [|a acts IH]; simpl; [reflexivity|]. rewrite IH. reflexivity. Qed.

Lemma fold_logf_fix file acts : forall g, g_suppressDiag g = false ->
  prints g (fix_items file acts) (fold_left (fun g a => logf_fix g file a) acts g)
  /\ g_suppressDiag (fold_left (fun g a => logf_fix g file a) acts g) = false.
Proof.
  induction acts as [|a acts IH]; intros g Hs; cbn [fold_left].
  - split; [apply prints_nil; reflexivity|exact Hs].
  - pose proof (logf_fix_prints g file a) as P. rewrite Hs in P.
    destruct (IH _ (logf_fix_sd g file a)) as [Q Hd]. split; [exact (prints_trans _ _ _ _ _ P Q)|exact Hd].
Qed.

Definition diag_items (m : mode) (only : list str) (g : lg) (l : lstate) (lv : level) (fmt msg : str) : list item :=
  if negb (is_autofix m) && shall_be_logged only fmt && negb (logged g (l_file l, line_linenos l, msg))
  then [IDiag lv (l_file l) (line_linenos l) msg] else [].

Lemma diag_prints m only g l lv fmt msg : prints g (diag_items m only g l lv fmt msg) (diag m only g l lv fmt msg).
Proof.
  unfold diag, diag_items, relevant, first_time, logged. destruct (is_autofix m); [apply prints_nil; reflexivity|].
  destruct (shall_be_logged only fmt); cbn; [|apply prints_nil; reflexivity].
  destruct (existsb _ (g_logged g)); [apply prints_nil|split]; reflexivity.
Qed.

Lemma save_out m g ls : g_out (save m g ls) = g_out g.
Proof. unfold save. destruct (m_fix m); [reflexivity|]. destruct (existsb _ _); reflexivity. Qed.
Lemma save_unmodified m g ls : existsb l_modified ls = false -> save m g ls = g.
Proof. intros H. unfold save. rewrite H. destruct (m_fix m); reflexivity. Qed.

Lemma summary_prints m g : exists items, prints g items (summary m g)
  /\ filter is_fix_item items = [] /\ filter is_diag_item items = [].
Proof.
  unfold summary. destruct (m_fix m); [exists []; split; [apply prints_nil|split]; reflexivity|].
  eexists. split; [split; reflexivity|].
  destruct (g_explAvail g), (g_autofixAvail g), (m_show m); split; reflexivity.
Qed.

(* reset(): the line as Apply leaves it, whatever the mode and the Logger *)
Definition close_fix (f : fx) : lstate :=
  if nonempty (f_acts f) then set_modified (f_line f) true else f_line f.

Lemma apply_fix_snd m only g f lv fmt msg expl : snd (apply_fix m only g f lv fmt msg expl) = close_fix f.
Proof. unfold apply_fix, close_fix, relevant. destruct (f_acts f); destruct (negb _); reflexivity. Qed.

Definition own_key (f : fx) (msg : str) : key := (l_file (f_line f), affected_linenos (f_line f) (f_acts f), msg).
Definition own_diag (f : fx) (lv : level) (msg : str) : item :=
  IDiag lv (l_file (f_line f)) (affected_linenos (f_line f) (f_acts f)) msg.

Definition apply_items (m : mode) (only : list str) (g : lg) (f : fx) (lv : level) (fmt msg : str) : list item :=
  if shall_be_logged only fmt && (nonempty (f_acts f) || negb (is_autofix m)) then
    (if negb (str_eqb fmt silent_format) && negb (m_fix m && negb (m_show m))
     then (if is_autofix m || negb (logged g (own_key f msg)) then [own_diag f lv msg] else [])
     else [])
    ++ (if is_autofix m then fix_items (l_file (f_line f)) (f_acts f) else [])
  else [].

Lemma apply_fix_prints m only g f lv fmt msg expl :
  prints g (apply_items m only g f lv fmt msg) (fst (apply_fix m only g f lv fmt msg expl)).
Proof.
  unfold apply_fix, apply_items, relevant.
  replace (negb match f_acts f with [] => true | _ => false end) with (nonempty (f_acts f))
    by (destruct (f_acts f); reflexivity).
  destruct (shall_be_logged only fmt && _) eqn:Er; cbn [negb fst]; [|apply prints_nil; reflexivity].
  apply andb_prop in Er as [-> _]. cbn [negb].
  set (g1 := set_suppress g false false).
  set (ld := negb (str_eqb fmt silent_format) && negb (m_fix m && negb (m_show m))).
  assert (Pe : forall g', prints g' [] (if ld && expl then explain g' else g'))
    by (intros g'; destruct (ld && expl); [apply explain_prints|apply prints_nil; reflexivity]).
  rewrite <- (app_nil_r (_ ++ _)). eapply prints_trans; [|apply Pe].
  destruct (is_autofix m); cbn [negb orb].
  - eapply prints_trans; [|apply fold_logf_fix]; destruct ld;
      [apply (logf_diag_prints g1)|apply prints_nil; reflexivity|apply logf_diag_sd|reflexivity].
  - rewrite app_nil_r. destruct ld; [exact (first_time_logf_prints g1 _ _ msg lv eq_refl)|apply prints_nil; reflexivity].
Qed.

Ltac break_some H :=
  repeat match type of H with
  | (if ?c then _ else _) = Some _ => destruct c eqn:?
  | match ?x with _ => _ end = Some _ => destruct x eqn:?
  | (let (_, _) := ?x in _) = Some _ => destruct x eqn:?
  | None = Some _ => discriminate H
  end.

Lemma do_ops_ind m skip (R : fx -> fx -> Prop) :
  (forall f, R f f) -> (forall f g h, R f g -> R g h -> R f h) ->
  (forall f o f', do_op m skip f o = Some f' -> R f f') ->
  forall ops f f', do_ops m skip f ops = Some f' -> R f f'.
Proof.
  intros Hr Ht Ho. induction ops as [|o ops IH]; intros f f' H; cbn [do_ops] in H.
  - inversion H. apply Hr.
  - destruct (do_op m skip f o) as [f1|] eqn:E; [|discriminate].
    eapply Ht; [apply (Ho _ _ _ E)|apply (IH _ _ H)].
Qed.

Lemma do_op_mode m1 m2 skip f o : is_autofix m1 = is_autofix m2 -> do_op m1 skip f o = do_op m2 skip f o.
Proof. intros H. destruct o; simpl; try reflexivity. rewrite H. reflexivity. Qed.

Lemma do_ops_ext m1 m2 skip ops :
  (forall o, In o ops -> forall f, do_op m1 skip f o = do_op m2 skip f o) ->
  forall f, do_ops m1 skip f ops = do_ops m2 skip f ops.
Proof.
  induction ops as [|o ops IH]; intros H f; cbn [do_ops]; [reflexivity|].
  rewrite (H o (or_introl eq_refl)). destruct (do_op m2 skip f o); [|reflexivity].
  apply IH. intros o' Ho'. apply H. right. exact Ho'.
Qed.

Lemma do_ops_acts_app m skip ops f f' :
  do_ops m skip f ops = Some f' -> exists x, f_acts f' = f_acts f ++ x.
Proof.
  apply (do_ops_ind m skip (fun f f' => exists x, f_acts f' = f_acts f ++ x)); clear.
  - intros f. exists []. symmetry. apply app_nil_r.
  - intros f g h [x Hx] [y Hy]. exists (x ++ y). rewrite Hy, Hx, app_assoc. reflexivity.
  - intros f o f' H. destruct o; cbn [do_op] in H; break_some H; inversion H; subst; cbn [f_acts describe];
      try (exists []; rewrite app_nil_r; reflexivity); eexists; reflexivity.
Qed.

Lemma do_ops_modified m skip ops f f' :
  do_ops m skip f ops = Some f' -> l_modified (f_line f') = l_modified (f_line f).
Proof.
  apply (do_ops_ind m skip (fun f f' => l_modified (f_line f') = l_modified (f_line f))); clear; [congruence..|].
  intros f o f' H. destruct o; cbn [do_op] in H; break_some H; inversion H; subst; try reflexivity;
    cbn [f_line describe]; try destruct (is_autofix m); try destruct (l_below (f_line f)); reflexivity.
Qed.

Lemma do_ops_skip m ops f f' : do_ops m true f ops = Some f' -> f' = f.
Proof.
  apply (do_ops_ind m true (fun f f' => f' = f)); clear; [congruence..|].
  intros f o f' H. destruct o; cbn [do_op] in H; break_some H; inversion H; reflexivity.
Qed.

Definition acted (r : option fx) : bool :=
  match r with None => true | Some f => nonempty (f_acts f) end.

Lemma acted_do_ops m skip ops f : nonempty (f_acts f) = true -> acted (do_ops m skip f ops) = true.
Proof.
  intros Hf. destruct (do_ops m skip f ops) as [f'|] eqn:E; [|reflexivity].
  destruct (do_ops_acts_app _ _ _ _ _ E) as [x Hx]. cbn. rewrite Hx, nonempty_app, Hf. reflexivity.
Qed.

(* only ReplaceAfter looks at the mode, and it has described its action by then *)
Lemma do_op_sim m1 m2 skip f o :
  do_op m1 skip f o = do_op m2 skip f o
  \/ (acted (do_op m1 skip f o) = true /\ acted (do_op m2 skip f o) = true).
Proof.
  destruct o; try (left; reflexivity).
  cbn [do_op].
  destruct (negb (real_line (f_line f))); [left; reflexivity|].
  destruct skip; [left; reflexivity|].
  destruct (negb (_ =? 1)); [left; reflexivity|].
  destruct (find_replace _ _ _ _) as [[ri texts']|]; [|left; reflexivity].
  right. split; cbn; rewrite nonempty_app; apply orb_true_r.
Qed.

Lemma do_ops_sim m1 m2 skip ops : forall f,
  do_ops m1 skip f ops = do_ops m2 skip f ops
  \/ (acted (do_ops m1 skip f ops) = true /\ acted (do_ops m2 skip f ops) = true).
Proof.
  induction ops as [|o ops IH]; intros f; cbn [do_ops]; [left; reflexivity|].
  destruct (do_op_sim m1 m2 skip f o) as [E|[H1 H2]].
  - rewrite E. destruct (do_op m2 skip f o) as [f1|]; [apply IH|left; reflexivity].
  - right. split.
    + destruct (do_op m1 skip f o); [apply acted_do_ops; exact H1|reflexivity].
    + destruct (do_op m2 skip f o); [apply acted_do_ops; exact H2|reflexivity].
Qed.

(* setDiag, Explain and the operations on line i; None = an assertion fails *)
Definition open_fix (m : mode) (only : list str) (ls : list lstate) (i : nat)
                    (fmt : str) (expl : bool) (ops : list op) : option fx :=
  match nth_error ls i with
  | None => None
  | Some l =>
    if expl && str_eqb fmt silent_format then None
    else if match ops with [] => false | _ => str_eqb fmt [] end then None
    else do_ops m (negb (shall_be_logged only fmt)) {| f_line := l; f_acts := [] |} ops
  end.

Lemma panic_sticky m only s e : s_panic s = true -> step m only s e = s.
Proof. intros H. unfold step. rewrite H. reflexivity. Qed.

Lemma step_fix m only s i lv fmt msg expl ops : s_panic s = false ->
  step m only s (EFix i lv fmt msg expl ops) =
  match open_fix m only (s_lines s) i fmt expl ops with
  | None => panic s
  | Some f => {| s_lines := set_line (s_lines s) i (close_fix f);
                 s_lg := fst (apply_fix m only (s_lg s) f lv fmt msg expl); s_panic := false |}
  end.
Proof.
  intros Hp. unfold step, open_fix. rewrite Hp.
  destruct (nth_error _ i); [|reflexivity]. destruct (expl && _); [reflexivity|].
  destruct (match ops with [] => false | _ => _ end); [reflexivity|].
  destruct (do_ops _ _ _ ops) as [f|]; [|reflexivity].
  rewrite <- (apply_fix_snd m only (s_lg s) f lv fmt msg expl). destruct (apply_fix _ _ _ _ _ _ _ _). reflexivity.
Qed.

Lemma open_fix_some m only ls i fmt expl ops f : open_fix m only ls i fmt expl ops = Some f ->
  exists l, nth_error ls i = Some l
    /\ do_ops m (negb (shall_be_logged only fmt)) {| f_line := l; f_acts := [] |} ops = Some f.
Proof. unfold open_fix. intros H. break_some H. eauto. Qed.

Lemma open_fix_ext m1 m2 only ls i fmt expl ops :
  (forall o, In o ops -> forall skip f, do_op m1 skip f o = do_op m2 skip f o) ->
  open_fix m1 only ls i fmt expl ops = open_fix m2 only ls i fmt expl ops.
Proof.
  intros H. unfold open_fix. destruct (nth_error ls i); [|reflexivity].
  rewrite (do_ops_ext m1 m2 _ ops) by (intros o Ho; apply H, Ho). reflexivity.
Qed.

Lemma open_fix_sim m1 m2 only ls i fmt expl ops :
  open_fix m1 only ls i fmt expl ops = open_fix m2 only ls i fmt expl ops
  \/ (acted (open_fix m1 only ls i fmt expl ops) = true /\ acted (open_fix m2 only ls i fmt expl ops) = true).
Proof.
  unfold open_fix. destruct (nth_error ls i); [|left; reflexivity].
  destruct (expl && _); [left; reflexivity|].
  destruct (match ops with [] => false | _ => _ end); [left; reflexivity|]. apply do_ops_sim.
Qed.

Lemma open_fix_shall m only ls i fmt expl ops f : open_fix m only ls i fmt expl ops = Some f ->
  nonempty (f_acts f) = true -> shall_be_logged only fmt = true.
Proof.
  intros H Ha. apply open_fix_some in H as (l & _ & H).
  destruct (shall_be_logged only fmt); [reflexivity|]. apply do_ops_skip in H. subst f. discriminate Ha.
Qed.

Lemma nth_error_set_line_len ls : forall i l l', nth_error ls i = Some l -> length (set_line ls i l') = length ls.
Proof. induction ls; intros [|i] l l' E; cbn in *; try discriminate; auto. f_equal. eapply IHls; eauto. Qed.

Lemma existsb_set_line ls : forall i l l' b, nth_error ls i = Some l -> l_modified l' = l_modified l || b ->
  existsb l_modified (set_line ls i l') = existsb l_modified ls || b.
Proof.
  induction ls as [|x ls IH]; intros [|i] l l' b E H; cbn in *; try discriminate.
  - inversion E; subst. rewrite H. destruct (l_modified l), b, (existsb l_modified ls); reflexivity.
  - rewrite (IH _ _ _ _ E H). apply orb_assoc.
Qed.

Lemma open_fix_modified m only ls i fmt expl ops f : open_fix m only ls i fmt expl ops = Some f ->
  existsb l_modified (set_line ls i (close_fix f)) = existsb l_modified ls || nonempty (f_acts f).
Proof.
  intros H. apply open_fix_some in H as (l & En & H). apply do_ops_modified in H. cbn in H.
  apply (existsb_set_line _ _ l); [exact En|]. rewrite <- H. unfold close_fix.
  destruct (nonempty (f_acts f)); cbn; [rewrite orb_true_r|rewrite orb_false_r]; reflexivity.
Qed.

Lemma open_fix_fixes m only ls i fmt expl ops f g lv msg : is_autofix m = true ->
  open_fix m only ls i fmt expl ops = Some f ->
  fixes (fst (apply_fix m only g f lv fmt msg expl)) = fixes g ++ fix_items (l_file (f_line f)) (f_acts f).
Proof.
  intros Hm H. rewrite (prints_fixes _ _ _ (apply_fix_prints _ _ _ _ _ _ _ _)). f_equal.
  unfold apply_items. rewrite Hm, orb_false_r. destruct (nonempty (f_acts f)) eqn:Ea.
  - rewrite (open_fix_shall _ _ _ _ _ _ _ _ H Ea). cbn [andb]. rewrite filter_app, fixes_fix_items.
    destruct (_ && _); reflexivity.
  - rewrite andb_false_r. destruct (f_acts f); [reflexivity|discriminate].
Qed.

Definition no_fix (e : event) : Prop := match e with EFix _ _ _ _ _ _ => False | _ => True end.

Inductive logs (m : mode) (only : list str) (ls : list lstate) (g : lg) : event -> lg -> Prop :=
| logs_diag i l lv fmt msg : logs m only ls g (EDiag i lv fmt msg) (diag m only g l lv fmt msg)
| logs_explain : logs m only ls g EExplain (explain g)
| logs_save : logs m only ls g ESave (save m g ls)
| logs_summary : logs m only ls g ESummary (summary m g).

Definition new_fixes (m : mode) (only : list str) (s : state) (e : event) : list item :=
  match e with
  | EFix i _ fmt _ expl ops =>
    if s_panic s then [] else
    match open_fix m only (s_lines s) i fmt expl ops with
    | Some f => fix_items (l_file (f_line f)) (f_acts f)
    | None => []
    end
  | _ => []
  end.

Lemma step_fix_cases m only s e (P : list item -> state -> Prop) :
  P [] s -> P [] (panic s) ->
  (forall i lv fmt msg expl ops f, e = EFix i lv fmt msg expl ops ->
     open_fix m only (s_lines s) i fmt expl ops = Some f ->
     P (fix_items (l_file (f_line f)) (f_acts f))
       {| s_lines := set_line (s_lines s) i (close_fix f);
          s_lg := fst (apply_fix m only (s_lg s) f lv fmt msg expl); s_panic := false |}) ->
  (forall g', logs m only (s_lines s) (s_lg s) e g' -> P [] {| s_lines := s_lines s; s_lg := g'; s_panic := false |}) ->
  P (new_fixes m only s e) (step m only s e).
Proof.
  intros H0 Hp Hf Hl. destruct (s_panic s) eqn:Ep.
  { rewrite panic_sticky by exact Ep. destruct e; cbn [new_fixes]; rewrite ?Ep; exact H0. }
  destruct e as [i lv fmt msg| |i lv fmt msg expl ops| |]; cbn [new_fixes].
  3:{ rewrite step_fix, Ep by exact Ep.
      destruct (open_fix _ _ _ _ _ _ _) as [f|] eqn:Eo; [exact (Hf _ _ _ _ _ _ _ eq_refl Eo)|exact Hp]. }
  all: unfold step; rewrite Ep; try (apply Hl; constructor).
  destruct (nth_error (s_lines s) i); [apply Hl; constructor|exact Hp].
Qed.

Lemma step_cases m only s e (P : state -> Prop) :
  P s -> P (panic s) ->
  (forall i lv fmt msg expl ops f, e = EFix i lv fmt msg expl ops ->
     open_fix m only (s_lines s) i fmt expl ops = Some f ->
     P {| s_lines := set_line (s_lines s) i (close_fix f);
          s_lg := fst (apply_fix m only (s_lg s) f lv fmt msg expl); s_panic := false |}) ->
  (forall g', logs m only (s_lines s) (s_lg s) e g' -> P {| s_lines := s_lines s; s_lg := g'; s_panic := false |}) ->
  P (step m only s e).
Proof. apply (step_fix_cases m only s e (fun _ => P)). Qed.

Definition quiet (m : mode) (items : list item) : Prop :=
  filter is_fix_item items = [] /\ (is_autofix m = true -> filter is_diag_item items = []).

Lemma logs_out m only ls g e g' : logs m only ls g e g' -> exists items, g_out g' = g_out g ++ items /\ quiet m items.
Proof.
  intros [i l lv fmt msg| | |].
  - exists (diag_items m only g l lv fmt msg). split; [apply diag_prints|]. unfold diag_items, quiet.
    destruct (is_autofix m); cbn [negb andb]; [split; reflexivity|]. destruct (_ && _); split; easy.
  - exists []. split; [apply explain_prints|split; reflexivity].
  - exists []. split; [rewrite app_nil_r; apply save_out|split; reflexivity].
  - destruct (summary_prints m g) as (items & P & F & D). exists items. split; [apply P|split; auto].
Qed.

Lemma logs_avail m only ls g e g' : logs m only ls g e g' -> existsb l_modified ls = false ->
  g_autofixAvail g' = g_autofixAvail g.
Proof.
  intros [i l lv fmt msg| | |] Hm; [apply diag_prints|apply explain_prints|rewrite save_unmodified by exact Hm; reflexivity|].
  destruct (summary_prints m g) as (items & P & _). apply P.
Qed.

Lemma step_no_fix m only s e : no_fix e -> s_lines (step m only s e) = s_lines s.
Proof. intros He. apply step_cases; try reflexivity. intros i lv fmt msg expl ops f ->. destruct He. Qed.

Definition together (s1 s2 : state) : Prop := s_lines s1 = s_lines s2 /\ s_panic s1 = s_panic s2.

Lemma step_together m1 m2 only s1 s2 e : together s1 s2 ->
  (forall i lv fmt msg expl ops, e = EFix i lv fmt msg expl ops ->
     open_fix m1 only (s_lines s1) i fmt expl ops = open_fix m2 only (s_lines s1) i fmt expl ops) ->
  together (step m1 only s1 e) (step m2 only s2 e).
Proof.
  intros [Hl Hp] Hf. destruct (s_panic s1) eqn:Ep.
  { rewrite !panic_sticky by congruence. split; congruence. }
  destruct e as [i lv fmt msg| |i lv fmt msg expl ops| |].
  3:{ rewrite !step_fix by congruence. rewrite <- Hl, (Hf _ _ _ _ _ _ eq_refl).
      destruct (open_fix m2 _ _ _ _ _ _); split; cbn; congruence. }
  all: unfold step; rewrite <- Hp, <- Hl, Ep; try destruct (nth_error (s_lines s1) i); split; cbn; congruence.
Qed.

Lemma step_fixes m only s e : is_autofix m = true ->
  fixes (s_lg (step m only s e)) = fixes (s_lg s) ++ new_fixes m only s e.
Proof.
  intros Hm. apply (step_fix_cases m only s e (fun x s' => fixes (s_lg s') = fixes (s_lg s) ++ x));
    try (symmetry; apply app_nil_r).
  - intros i lv fmt msg expl ops f _. apply open_fix_fixes, Hm.
  - intros g' (items & Ho & F & _)%logs_out. unfold fixes. cbn [s_lg]. rewrite Ho, filter_app, F. reflexivity.
Qed.

Lemma step_modified_eq m only s e : modified (step m only s e) = modified s || nonempty (new_fixes m only s e).
Proof.
  apply (step_fix_cases m only s e (fun x s' => modified s' = modified s || nonempty x)); try (symmetry; apply orb_false_r).
  intros i lv fmt msg expl ops f _ Eo. unfold modified, fix_items. cbn [s_lines]. rewrite nonempty_map.
  apply (open_fix_modified _ _ _ _ _ _ _ _ Eo).
Qed.

Definition events_ok (E : event -> Prop) (cs : list check) : Prop :=
  forall c ls e, In c cs -> In e (c ls) -> E e.

Lemma events_any cs : events_ok (fun _ => True) cs.
Proof. intros c ls e _ _. exact I. Qed.

Section Lifting.
  Variables (only : list str) (E : event -> Prop).

  Lemma run_events_inv m (P : state -> Prop) :
    (forall s e, E e -> P s -> P (step m only s e)) ->
    forall evs s, Forall E evs -> P s -> P (run_events m only s evs).
  Proof.
    intros St. induction evs as [|e evs IH]; intros s He H; [exact H|].
    inversion He; subst. apply IH; auto.
  Qed.

  Lemma checks_inv m (P : state -> Prop) :
    (forall s e, E e -> P s -> P (step m only s e)) ->
    forall cs s, events_ok E cs -> P s -> P (fold_left (run_check m only) cs s).
  Proof.
    intros St. induction cs as [|c cs IH]; intros s Hok H; [exact H|]. cbn [fold_left]. apply IH.
    - intros c' ls e Hc. apply Hok. right. exact Hc.
    - unfold run_check. apply run_events_inv; [exact St| |exact H].
      apply Forall_forall. intros e He. apply (Hok c (s_lines s)); [left; reflexivity|exact He].
  Qed.

  Lemma run_events_lockstep m1 m2 (R : state -> state -> Prop) :
    (forall s1 s2 e, E e -> R s1 s2 -> R (step m1 only s1 e) (step m2 only s2 e)) ->
    forall evs s1 s2, Forall E evs -> R s1 s2 -> R (run_events m1 only s1 evs) (run_events m2 only s2 evs).
  Proof.
    intros St. induction evs as [|e evs IH]; intros s1 s2 He H; [exact H|].
    inversion He; subst. apply IH; auto.
  Qed.

  (* two runs in different modes that stay in the same line state see the same events *)
  Lemma checks_lockstep m1 m2 (R : state -> state -> Prop) :
    (forall s1 s2, R s1 s2 -> s_lines s1 = s_lines s2) ->
    (forall s1 s2 e, E e -> R s1 s2 -> R (step m1 only s1 e) (step m2 only s2 e)) ->
    forall cs s1 s2, events_ok E cs -> R s1 s2 ->
    R (fold_left (run_check m1 only) cs s1) (fold_left (run_check m2 only) cs s2).
  Proof.
    intros Hl St. induction cs as [|c cs IH]; intros s1 s2 Hok H; [exact H|]. cbn [fold_left]. apply IH.
    - intros c' ls e Hc. apply Hok. right. exact Hc.
    - unfold run_check. rewrite <- (Hl _ _ H). apply run_events_lockstep; [exact St| |exact H].
      apply Forall_forall. intros e He. apply (Hok c (s_lines s1)); [left; reflexivity|exact He].
  Qed.
End Lifting.

Section Invariant.
  Variables (m : mode) (only : list str) (P : state -> Prop).
  Hypothesis St : forall s e, P s -> P (step m only s e).

  Lemma run_events_invariant evs s : P s -> P (run_events m only s evs).
  Proof. apply (run_events_inv only (fun _ => True)); [auto|]. apply Forall_forall. auto. Qed.
  Lemma checks_invariant (cs : list check) s : P s -> P (fold_left (run_check m only) cs s).
  Proof. apply (checks_inv only (fun _ => True)); [auto|apply events_any]. Qed.
  Lemma run_invariant ls cs : P (init ls) -> P (run m only ls cs).
  Proof. intros H. apply St, checks_invariant, H. Qed.
End Invariant.

Lemma run_events_cons m only s e evs : run_events m only s (e :: evs) = run_events m only (step m only s e) evs.
Proof. reflexivity. Qed.

Definition same_actions (s1 s2 : state) : Prop := together s1 s2 /\ fixes (s_lg s1) = fixes (s_lg s2).

Lemma step_same_actions m1 m2 only s1 s2 e :
  is_autofix m1 = true -> is_autofix m2 = true ->
  same_actions s1 s2 -> same_actions (step m1 only s1 e) (step m2 only s2 e).
Proof.
  intros H1 H2 [Ht Hf].
  assert (Em : forall i fmt expl ops,
            open_fix m1 only (s_lines s1) i fmt expl ops = open_fix m2 only (s_lines s1) i fmt expl ops)
    by (intros; apply open_fix_ext; intros; apply do_op_mode; congruence).
  split; [apply step_together; [exact Ht|intros; apply Em]|].
  rewrite !step_fixes, Hf by assumption. f_equal.
  destruct Ht as [Hl Hp]. destruct e; try reflexivity. cbn [new_fixes]. rewrite <- Hl, <- Hp, Em. reflexivity.
Qed.

(* C04: any two of the modes -f, -F, -f -F log the same actions and leave the same line states *)
Theorem autofix_modes_agree m1 m2 only ls cs :
  is_autofix m1 = true -> is_autofix m2 = true ->
  actions (run m1 only ls cs) = actions (run m2 only ls cs)
  /\ s_lines (run m1 only ls cs) = s_lines (run m2 only ls cs)
  /\ s_panic (run m1 only ls cs) = s_panic (run m2 only ls cs).
Proof.
  intros H1 H2.
  assert (H : same_actions (run m1 only ls cs) (run m2 only ls cs)).
  { apply step_same_actions; [assumption..|].
    apply (checks_lockstep only (fun _ => True)).
    - intros s1 s2 H. apply H.
    - intros s1 s2 e _. apply step_same_actions; assumption.
    - apply events_any.
    - repeat split. }
  destruct H as [[Hl Hp] Hf]. auto.
Qed.

Theorem show_equals_do only ls cs :
  actions (run ShowAutofix only ls cs) = actions (run Autofix only ls cs).
Proof. apply (autofix_modes_agree ShowAutofix Autofix); reflexivity. Qed.

Lemma step_modified m only s e : modified s = true -> modified (step m only s e) = true.
Proof. intros H. rewrite step_modified_eq, H. reflexivity. Qed.

Definition visible (s : state) : Prop := s_panic s = true \/ modified s = true.

Lemma step_visible m only s e : visible s -> visible (step m only s e).
Proof.
  intros [H|H]; [rewrite panic_sticky by exact H; left; exact H|right; apply step_modified, H].
Qed.

Lemma fix_visible m only s i lv fmt msg expl ops :
  acted (open_fix m only (s_lines s) i fmt expl ops) = true -> visible (step m only s (EFix i lv fmt msg expl ops)).
Proof.
  intros A. destruct (s_panic s) eqn:Ep; [left; rewrite panic_sticky; assumption|].
  rewrite step_fix by exact Ep. destruct (open_fix _ _ _ _ _ _ _) as [f|] eqn:Eo; [right|left; reflexivity].
  unfold modified. cbn [s_lines]. rewrite (open_fix_modified _ _ _ _ _ _ _ _ Eo). cbn in A. rewrite A. apply orb_true_r.
Qed.

Definition advertised_ok (s : state) : Prop := autofix_available s = true -> modified s = true.

Lemma step_advertised_ok m only s e : advertised_ok s -> advertised_ok (step m only s e).
Proof.
  intros H. destruct (modified s) eqn:Em; [intros _; apply step_modified, Em|].
  assert (H0 : g_autofixAvail (s_lg s) = false)
    by (destruct (g_autofixAvail (s_lg s)) eqn:E; [pose proof (H E); congruence|reflexivity]).
  unfold advertised_ok, autofix_available. apply step_cases; cbn [s_lg panic]; try congruence.
  - intros i lv fmt msg expl ops f _ _. rewrite (proj2 (apply_fix_prints _ _ _ _ _ _ _ _)). congruence.
  - intros g' L. rewrite (logs_avail _ _ _ _ _ _ L Em). congruence.
Qed.

Definition fixes_ok (s : state) : Prop := nonempty (fixes (s_lg s)) = modified s.

Lemma step_fixes_ok m only s e : is_autofix m = true -> fixes_ok s -> fixes_ok (step m only s e).
Proof.
  intros Hm H. unfold fixes_ok in *. rewrite step_fixes, step_modified_eq, nonempty_app, H by exact Hm. reflexivity.
Qed.

Lemma fresh_unmodified ls : Forall fresh ls -> existsb l_modified ls = false.
Proof. induction 1 as [|l ls Hl _ IH]; cbn; [reflexivity|]. rewrite Hl. exact IH. Qed.

Lemma run_fixes_ok m only ls cs : is_autofix m = true -> Forall fresh ls ->
  nonempty (actions (run m only ls cs)) = modified (run m only ls cs).
Proof.
  intros Hm Hf. apply (run_invariant m only fixes_ok).
  - intros s e. apply step_fixes_ok, Hm.
  - symmetry. apply fresh_unmodified, Hf.
Qed.

(* the default run and the -f run are in step as long as no transaction has had
   a visible outcome; from then on both are `visible` for good *)
Definition in_step (sD sS : state) : Prop := together sD sS /\ modified sD = false.
Definition paired (sD sS : state) : Prop := in_step sD sS \/ (visible sD /\ visible sS).

Lemma step_in_step only sD sS e : in_step sD sS -> paired (step Default only sD e) (step ShowAutofix only sS e).
Proof.
  intros [Ht Hu]. pose proof (proj1 Ht) as Hl.
  destruct e as [i lv fmt msg| |i lv fmt msg expl ops| |];
    try (left; split; [apply step_together; [exact Ht|intros; discriminate]|rewrite step_modified_eq, Hu; reflexivity]).
  destruct (open_fix_sim Default ShowAutofix only (s_lines sD) i fmt expl ops) as [E|[AD AS]].
  2:{ right. split; apply fix_visible; [|rewrite <- Hl]; assumption. }
  destruct (acted (open_fix ShowAutofix only (s_lines sD) i fmt expl ops)) eqn:A.
  { right. split; apply fix_visible; [rewrite E|rewrite <- Hl]; exact A. }
  left. split; [apply step_together; [exact Ht|intros ? ? ? ? ? ? [= <- _ <- _ <- <-]; exact E]|].
  rewrite step_modified_eq, Hu. cbn [new_fixes]. rewrite E.
  destruct (s_panic sD), (open_fix ShowAutofix _ _ _ _ _ _) as [f|]; try reflexivity.
  unfold fix_items. rewrite nonempty_map. exact A.
Qed.

Lemma run_events_in_step only evs : forall sD sS, in_step sD sS ->
  paired (run_events Default only sD evs) (run_events ShowAutofix only sS evs).
Proof.
  induction evs as [|e evs IH]; intros sD sS H; [left; exact H|]. rewrite !run_events_cons.
  destruct (step_in_step only sD sS e H) as [H1|[HD HS]]; [apply IH; exact H1|].
  right. split; apply run_events_invariant; auto using step_visible.
Qed.

Lemma checks_in_step only (cs : list check) : forall sD sS, in_step sD sS ->
  paired (fold_left (run_check Default only) cs sD) (fold_left (run_check ShowAutofix only) cs sS).
Proof.
  induction cs as [|c cs IH]; intros sD sS H; cbn [fold_left]; [left; exact H|].
  unfold run_check at 2 4. rewrite <- (proj1 (proj1 H)).
  destruct (run_events_in_step only (c (s_lines sD)) sD sS H) as [H1|[HD HS]]; [apply IH; exact H1|].
  right. split; apply checks_invariant; auto using step_visible.
Qed.

Lemma run_in_step only ls cs : Forall fresh ls -> paired (run Default only ls cs) (run ShowAutofix only ls cs).
Proof.
  intros H. unfold run.
  destruct (checks_in_step only cs (init ls) (init ls)) as [H1|[HD HS]].
  - repeat split. apply fresh_unmodified, H.
  - apply step_in_step, H1.
  - right. split; apply step_visible; assumption.
Qed.

(* C04: a default run advertises automatic fixing only when -f has an action to
   show (unless the -f run dies of an assertion) *)
Theorem advertise_implies_show only ls cs :
  Forall (fun l => l_modified l = false) ls ->
  s_panic (run ShowAutofix only ls cs) = false ->
  autofix_available (run Default only ls cs) = true ->
  actions (run ShowAutofix only ls cs) <> [].
Proof.
  intros Hfresh Hnp Hadv. apply nonempty_true. rewrite run_fixes_ok by auto.
  apply (run_invariant Default only advertised_ok) in Hadv; [|apply step_advertised_ok|discriminate].
  destruct (run_in_step only ls cs Hfresh) as [[_ Hu]|[_ [HS|HS]]]; congruence.
Qed.

(* the converse, which C04 does not demand, also holds in the model when every
   line is saved at the end of the run *)
Theorem show_implies_advertise only ls cs :
  Forall (fun l => l_modified l = false) ls ->
  s_panic (run Default only ls cs) = false ->
  actions (run ShowAutofix only ls cs) <> [] ->
  autofix_available (run Default only ls cs) = true.
Proof.
  intros Hfresh Hnp Hact. apply nonempty_true in Hact. rewrite run_fixes_ok in Hact by auto.
  assert (HD : modified (run Default only ls cs) = true).
  { destruct (run_in_step only ls cs Hfresh) as [[[Hl _] Hu]|[[HD|HD] _]]; [|congruence|exact HD].
    unfold modified in *. congruence. }
  revert Hnp HD. unfold run, step, autofix_available, modified.
  destruct (s_panic (fold_left _ cs _)) eqn:Ep; cbn; [congruence|]. intros _ ->. reflexivity.
Qed.

Theorem advertise_iff_show only ls cs :
  Forall (fun l => l_modified l = false) ls ->
  s_panic (run Default only ls cs) = false ->
  s_panic (run ShowAutofix only ls cs) = false ->
  (autofix_available (run Default only ls cs) = true <-> actions (run ShowAutofix only ls cs) <> []).
Proof.
  intros Hf HD HS. split.
  - apply advertise_implies_show; assumption.
  - apply show_implies_advertise; assumption.
Qed.

(* C04, second clause in full generality: false of the model *)
Definition show_diags_subset_default_full : Prop :=
  forall only ls cs, Forall fresh ls ->
  s_panic (run Default only ls cs) = false -> s_panic (run ShowAutofix only ls cs) = false ->
  forall it, In it (diags (run ShowAutofix only ls cs)) -> In it (diags (run Default only ls cs)).

(* witness: the line `X = v`; the first check removes the space after the
   variable name with Replace (= ReplaceAfter); the second check looks at
   Line.Text and re-aligns the value only when it sees `X=`.  Neither check
   looks at the mode. *)
Definition wit_line : lstate := mk_line [102] 1 [88;32;61;32;118] [[88;32;61;32;118;10]].
Definition wit_check1 : check :=
  fun _ => [EFix 0 Note [49] [49] false [OReplaceAfter [] [88;32;61] [88;61]]].
Definition wit_check2 : check :=
  fun ls => match ls with
            | l :: _ => if has_prefix [88;61] (l_text l)
                        then [EFix 0 Note [50] [50] false [OReplaceAt 0 2 [32] [9]]]
                        else []
            | [] => []
            end.
Definition wit_item : item := IDiag Note [102] (1, 1) [50].

Lemma wit_show : In wit_item (diags (run ShowAutofix [] [wit_line] [wit_check1; wit_check2])).
Proof. vm_compute. right. left. reflexivity. Qed.
Lemma wit_default : ~ In wit_item (diags (run Default [] [wit_line] [wit_check1; wit_check2])).
Proof. vm_compute. intros [H|[]]. discriminate H. Qed.
Lemma wit_no_panic :
  s_panic (run Default [] [wit_line] [wit_check1; wit_check2]) = false
  /\ s_panic (run ShowAutofix [] [wit_line] [wit_check1; wit_check2]) = false.
Proof. split; vm_compute; reflexivity. Qed.

Theorem show_diags_subset_default_refuted : ~ show_diags_subset_default_full.
Proof.
  intros H. apply wit_default. apply H.
  - repeat constructor.
  - apply wit_no_panic.
  - apply wit_no_panic.
  - apply wit_show.
Qed.

(* C16: if --autofix marks no line as modified (the model's fixed point: nothing is
   written), then --show-autofix logs no action and the default run does not
   advertise automatic fixing *)
Theorem fixed_point_quiet only ls cs :
  Forall fresh ls ->
  existsb l_modified (s_lines (run Autofix only ls cs)) = false ->
  actions (run ShowAutofix only ls cs) = []
  /\ (s_panic (run ShowAutofix only ls cs) = false -> autofix_available (run Default only ls cs) = false).
Proof.
  intros Hfresh Hnm.
  assert (Ha : actions (run ShowAutofix only ls cs) = []).
  { rewrite show_equals_do. pose proof (run_fixes_ok Autofix only ls cs eq_refl Hfresh) as H.
    unfold modified in H. rewrite Hnm in H. destruct (actions _); [reflexivity|discriminate]. }
  split; [exact Ha|]. intros Hnp.
  destruct (autofix_available (run Default only ls cs)) eqn:Ea; [|reflexivity].
  exfalso. apply (advertise_implies_show only ls cs Hfresh Hnp Ea). exact Ha.
Qed.
