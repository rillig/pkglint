(* number_exact: the automaton literal of makepat.Number() (regenerated into
   Gen/NumberAutomaton.v) accepts exactly the words of Spec/CNumber.v.

   A finite set R of pairs (regular expression, set of active automaton states)
   is computed; a boolean check, evaluated by vm_compute on the regenerated
   table, says that R contains the initial pair and is closed under one
   representative of every class of numbers that neither the grammar nor the
   table can tell apart, with matching acceptance.  The check is then lifted to all words by induction. *)
From PV Require Import Lib.Bytes Model.Makepat Spec.CNumber Proofs.CNumberRe.
From Coq Require Import ZifyBool ZifyN ZifyNat.
Open Scope N_scope.

Fixpoint re_eqb (a b : re) : bool :=
  match a, b with
  | Empty, Empty => true
  | Eps, Eps => true
  | Chr l1 h1, Chr l2 h2 => (l1 =? l2) && (h1 =? h2)
  | Alt a1 a2, Alt b1 b2 => re_eqb a1 b1 && re_eqb a2 b2
  | Cat a1 a2, Cat b1 b2 => re_eqb a1 b1 && re_eqb a2 b2
  | Star a1, Star b1 => re_eqb a1 b1
  | _, _ => false
  end.

Lemma re_eqb_eq a b : re_eqb a b = true -> a = b.
Proof.
  revert b; induction a; intros [] H; simpl in H; try discriminate; try reflexivity.
  - apply andb_true_iff in H as [H1 H2]. apply N.eqb_eq in H1, H2. congruence.
  - apply andb_true_iff in H as [H1 H2]. f_equal; auto.
  - apply andb_true_iff in H as [H1 H2]. f_equal; auto.
  - f_equal; auto.
Qed.

Fixpoint lb_eqb (a b : list bool) : bool :=
  match a, b with
  | [], [] => true
  | x :: a', y :: b' => Bool.eqb x y && lb_eqb a' b'
  | _, _ => false
  end.

Lemma lb_eqb_eq a b : lb_eqb a b = true -> a = b.
Proof.
  revert b; induction a as [|x a IH]; intros [|y b] H; simpl in H; try discriminate; try reflexivity.
  apply andb_true_iff in H as [H1 H2]. apply Bool.eqb_prop in H1. f_equal; auto.
Qed.

Definition pair_eqb (p q : re * list bool) : bool := re_eqb (fst p) (fst q) && lb_eqb (snd p) (snd q).

Lemma pair_eqb_eq p q : pair_eqb p q = true -> p = q.
Proof.
  destruct p, q. unfold pair_eqb; simpl. intro H. apply andb_true_iff in H as [H1 H2].
  apply re_eqb_eq in H1. apply lb_eqb_eq in H2. congruence.
Qed.

Definition mem (p : re * list bool) (l : list (re * list bool)) : bool := existsb (pair_eqb p) l.

Lemma mem_In p l : mem p l = true -> In p l.
Proof.
  unfold mem. intro H. apply existsb_exists in H as (q & Hq & E). apply pair_eqb_eq in E. subst. exact Hq.
Qed.

(* Cut points.  A range lo..hi tells two numbers apart only if lo or hi + 1
   lies between them.  So when [cuts] holds lo and hi + 1 of every range that
   the grammar and the automaton mention ([re_small], [trans_small] check it),
   the largest cut <= c, or 0 if there is none, stands for c: one
   representative per class of bytes, and one for all the "bytes" >= 256. *)
Definition clip (cuts : list N) (c : N) : N :=
  fold_right (fun k m => if (m <? k) && (k <=? c) then k else m) 0 cuts.

Lemma clip_spec cuts c :
  clip cuts c <= c /\ In (clip cuts c) (0 :: cuts) /\ forall k, In k cuts -> k <= c -> k <= clip cuts c.
Proof.
  induction cuts as [|k' cs (Hle & Hin & Hmax)]; cbn [clip fold_right].
  - split; [lia|]. split; [left; reflexivity|intros k []].
  - fold (clip cs c). destruct ((clip cs c <? k') && (k' <=? c)) eqn:E.
    + split; [lia|]. split; [right; left; reflexivity|].
      intros k [->|Hk] Hkc; [lia|]. specialize (Hmax k Hk Hkc). lia.
    + split; [exact Hle|]. split; [cbn [In] in *; tauto|].
      intros k [->|Hk] Hkc; [lia|auto].
Qed.

Fixpoint re_cuts (r : re) : list N :=
  match r with
  | Chr lo hi => [lo; hi + 1]
  | Alt a b | Cat a b => re_cuts a ++ re_cuts b
  | Star a => re_cuts a
  | _ => []
  end.

Definition pattern_cuts (a : pattern) : list N :=
  flat_map (fun st => flat_map (fun t => [tmin t; tmax t + 1]) (trans st)) a.

Section Closure.
Variable cuts : list N.
Variable a : pattern.

Definition cut_range (lo hi : N) : bool := existsb (N.eqb lo) cuts && existsb (N.eqb (hi + 1)) cuts.

Lemma cut_range_clip lo hi c : cut_range lo hi = true ->
  (lo <=? c) && (c <=? hi) = (lo <=? clip cuts c) && (clip cuts c <=? hi).
Proof.
  unfold cut_range. rewrite andb_true_iff, !existsb_exists. intros [(k1 & I1 & E1) (k2 & I2 & E2)].
  apply N.eqb_eq in E1, E2. subst k1 k2.
  destruct (clip_spec cuts c) as (Hle & _ & Hmax). pose proof (Hmax _ I1). pose proof (Hmax _ I2). lia.
Qed.

Fixpoint re_small (r : re) : bool :=
  match r with
  | Chr lo hi => cut_range lo hi
  | Alt a b | Cat a b => re_small a && re_small b
  | Star a => re_small a
  | _ => true
  end.

Lemma deriv_clip c r : re_small r = true -> deriv c r = deriv (clip cuts c) r.
Proof.
  induction r; simpl; intro Hs; try reflexivity.
  - rewrite (cut_range_clip lo hi c Hs). reflexivity.
  - apply andb_true_iff in Hs as [H1 H2]. rewrite IHr1, IHr2 by assumption. reflexivity.
  - apply andb_true_iff in Hs as [H1 H2]. rewrite IHr1, IHr2 by assumption. reflexivity.
  - rewrite IHr by assumption. reflexivity.
Qed.

Definition edge_small (t : transition) : bool := cut_range (tmin t) (tmax t).
Definition trans_small (sts : pattern) : bool := forallb (fun st => forallb edge_small (trans st)) sts.

Lemma fires_clip c t : edge_small t = true -> fires c t = fires (clip cuts c) t.
Proof. apply cut_range_clip. Qed.

Lemma step_trans_clip c ts : forallb edge_small ts = true ->
  forall next ok, step_trans ts c next ok = step_trans ts (clip cuts c) next ok.
Proof.
  induction ts as [|t ts IH]; intros Hs next ok; simpl; [reflexivity|].
  simpl in Hs. apply andb_true_iff in Hs as [H1 H2].
  rewrite (fires_clip c t H1). destruct (fires (clip cuts c) t).
  - destruct (set_true next (tto t)); [apply IH; exact H2|reflexivity].
  - apply IH; exact H2.
Qed.

Lemma step_all_clip c sts : trans_small sts = true ->
  forall curr next ok, step_all sts curr c next ok = step_all sts curr (clip cuts c) next ok.
Proof.
  induction sts as [|st sts IH]; intros Hs curr next ok; simpl; [reflexivity|].
  unfold trans_small in Hs. simpl in Hs. apply andb_true_iff in Hs as [H1 H2].
  destruct curr as [|b curr]; [reflexivity|]. destruct b.
  - rewrite (step_trans_clip c _ H1). destruct (step_trans (trans st) (clip cuts c) next ok) as [[n o]|]; [|reflexivity].
    apply IH; exact H2.
  - apply IH; exact H2.
Qed.

Definition sweep : list N := 0 :: cuts.

Definition nstep (curr : list bool) (c : N) : option (list bool * bool) :=
  step_all a curr c (zeros_like false a) false.

Definition succs (p : re * list bool) : list (re * list bool) :=
  flat_map (fun c => match nstep (snd p) c with
                     | Some (next, _) => [(deriv c (fst p), next)]
                     | None => []
                     end) sweep.

Fixpoint add_new (ps seen : list (re * list bool)) : list (re * list bool) :=
  match ps with
  | [] => seen
  | p :: ps' => if mem p seen then add_new ps' seen else add_new ps' (seen ++ [p])
  end.

(* a work list: the pairs before index [done] have had their successors added *)
Fixpoint explore (fuel done : nat) (seen : list (re * list bool)) : list (re * list bool) :=
  match fuel with
  | O => seen
  | S f => match nth_error seen done with
           | Some p => explore f (S done) (add_new (succs p) seen)
           | None => seen
           end
  end.

Definition closed_at (R : list (re * list bool)) (p : re * list bool) : bool :=
  re_small (fst p)
  && Bool.eqb (nullable (fst p)) (any_end a (snd p))
  && forallb (fun c => match nstep (snd p) c with
                       | Some (next, ok) => mem (deriv c (fst p), next) R
                                            && (ok || re_eqb (deriv c (fst p)) Empty)
                       | None => false
                       end) sweep.

Definition closed (R : list (re * list bool)) : bool :=
  forallb (closed_at R) R && trans_small a.

Lemma closed_at_elim R r curr : closed_at R (r, curr) = true ->
  re_small r = true /\ nullable r = any_end a curr /\
  forall c, In c sweep ->
    match nstep curr c with
    | Some (next, ok) => In (deriv c r, next) R /\ (ok = true \/ deriv c r = Empty)
    | None => False
    end.
Proof.
  unfold closed_at. cbn [fst snd]. intro H.
  apply andb_true_iff in H as [H Hsw]. apply andb_true_iff in H as [Hrs Hn].
  split; [exact Hrs|]. split; [apply Bool.eqb_prop; exact Hn|].
  intros c Hc. rewrite forallb_forall in Hsw. specialize (Hsw c Hc).
  destruct (nstep curr c) as [[next ok]|]; [|discriminate].
  apply andb_true_iff in Hsw as [Hm Hok]. split; [apply mem_In; exact Hm|].
  destruct ok; [left; reflexivity|right; apply re_eqb_eq; exact Hok].
Qed.

Lemma closed_invariant R : closed R = true ->
  forall s p, In p R -> match_loop a (snd p) s = Ok (re_match (fst p) s).
Proof.
  unfold closed. intro HC. apply andb_true_iff in HC as [HC Hsmall]. rewrite forallb_forall in HC.
  induction s as [|c s IH]; intros [r curr] Hin; cbn [fst snd match_loop re_match];
    destruct (closed_at_elim R r curr (HC _ Hin)) as (Hrs & Hn & Hsw).
  - rewrite Hn. reflexivity.
  - rewrite (step_all_clip c a Hsmall), (deriv_clip c r Hrs).
    specialize (Hsw _ (proj1 (proj2 (clip_spec cuts c)))). unfold nstep in Hsw.
    destruct (step_all a curr (clip cuts c) (zeros_like false a) false) as [[next ok]|]; [|contradiction].
    destruct Hsw as [Hm [->|Hok]].
    + exact (IH _ Hm).
    + destruct ok; [exact (IH _ Hm)|]. rewrite Hok, re_match_empty. reflexivity.
Qed.

End Closure.

Definition init_pair : re * list bool := (c_number, true :: zeros_like false (tl number)).

Definition cuts : list N := nodup N.eq_dec (re_cuts c_number ++ pattern_cuts number).

Definition R : list (re * list bool) := explore cuts number 40 0 [init_pair].

Lemma closed_true : mem init_pair R && closed cuts number R = true.
Proof. vm_compute. reflexivity. Qed.

Theorem number_exact : forall s : str, matchp number s = Ok (is_c_number s).
Proof.
  intro s. pose proof closed_true as H. apply andb_true_iff in H as [Hin HC].
  exact (closed_invariant cuts number R HC s init_pair (mem_In _ _ Hin)).
Qed.

Corollary number_lang : forall s : str, matchp number s = Ok true <-> lang c_number s.
Proof.
  intro s. rewrite number_exact. unfold is_c_number. rewrite <- re_match_spec.
  split; [intro H; injection H; auto|intros ->; reflexivity].
Qed.

Lemma c_number_is_grammar : forall s : str, is_c_number s = true <-> lang c_number s.
Proof. intro s. apply re_match_spec. Qed.
