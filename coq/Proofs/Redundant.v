(* RedundantScope line by line, for the soundness of its verdicts
   (Proofs/RedundantSound3.v) and the other C17 theorems.

   What one line does to the Var of each variable: handle_varassign changes only
   the assigned variable, by var_write; handle_expr only applies var_read.
   The invariant relating the Var of x after a prefix to the reference store
   after the same prefix (inv_var): writeLocations = the assignments to x so far;
   "constant" => the store holds constantValue; the remembered value text is the
   stored text (up to the leading space of a first '+=') as long as it is [known].
   Which verdicts a line can emit and under which conditions (verdict_cases);
   every verdict of a run comes from one line, met in a state satisfying whatever
   the lines before it preserve (check_origin). *)
From PV Require Import Lib.Bytes Model.Redundant Model.RedundantCond Spec.MakeEval Spec.VerdictSound
  Proofs.MakeEvalLemmas.

Lemma existsb_str_eqb_In w l : existsb (str_eqb w) l = true <-> In w l.
Proof.
  rewrite existsb_exists. split.
  - intros (y & Hy & E). apply str_eqb_spec in E. subst y. exact Hy.
  - intro H. exists w. split; [exact H|apply str_eqb_refl].
Qed.

Lemma set_add_spec l w : forall y, In y (set_add l w) <-> In y l \/ y = w.
Proof.
  intro y. unfold set_add. destruct (existsb (str_eqb w) l) eqn:E.
  - apply existsb_str_eqb_In in E. split; [auto|]. intros [H|H]; [exact H|subst; exact E].
  - rewrite in_app_iff. simpl. intuition.
Qed.

Lemma set_add_all_spec ws : forall l y, In y (set_add_all l ws) <-> In y l \/ In y ws.
Proof.
  induction ws as [|w ws IH]; intros l y; simpl; [intuition|].
  unfold set_add_all in *. simpl. rewrite IH, set_add_spec. intuition.
Qed.

Lemma var_update_constant_keeps v a :
  v_value (var_update_constant v a) = v_value v /\ v_writes (var_update_constant v a) = v_writes v /\
  v_cond (var_update_constant v a) = v_cond v /\ v_refs (var_update_constant v a) = v_refs v.
Proof.
  unfold var_update_constant. destruct (cstate_eqb (v_state v) C3); [auto|].
  destruct (v_cond v) eqn:E; [auto|].
  destruct (a_op a); simpl; auto.
  - destruct (has_make_vars (a_val a)); auto.
  - destruct (cstate_eqb (v_state v) C0); auto.
Qed.

Lemma var_write_writes v idx a d : v_writes (var_write v idx a d) = v_writes v ++ [(idx, a)].
Proof. unfold var_write. apply var_update_constant_keeps. Qed.

Lemma var_write_cond v idx a d : v_cond (var_write v idx a d) = v_cond v || d.
Proof. unfold var_write. apply var_update_constant_keeps. Qed.

Lemma var_write_refs v idx a d :
  v_refs (var_write v idx a d) = set_add_all (v_refs v) (uses (a_val a)).
Proof. unfold var_write. apply var_update_constant_keeps. Qed.

Lemma upd_keeps {A B} (f : A -> B) (m : var -> A) k v : f v = f (m k) -> forall x, f (upd m k v x) = f (m x).
Proof.
  intros H x. unfold upd. destruct (str_eqb k x) eqn:E; [|reflexivity].
  apply str_eqb_spec in E. subst x. exact H.
Qed.

Lemma refs_read_one s w z : refs_of (read_one s w) z = refs_of s z.
Proof. apply (upd_keeps (fun i => v_refs (vi_var i))). reflexivity. Qed.

Lemma fold_read_refs : forall us s z, refs_of (fold_left read_one us s) z = refs_of s z.
Proof.
  induction us as [|w us IH]; intros s z; simpl; [reflexivity|]. rewrite IH. apply refs_read_one.
Qed.

Definition closed_refs (s : scope) (c : list var) : Prop :=
  forall a b, In a c -> In b (refs_of s a) -> In b c.

(* the test that ends the closure *)
Lemma closed_refs_check s c :
  forallb (fun w => existsb (str_eqb w) c) (flat_map (refs_of s) c) = true <-> closed_refs s c.
Proof.
  rewrite forallb_forall. split.
  - intros H a b Ha Hb. apply existsb_str_eqb_In, H, in_flat_map. eauto.
  - intros H b Hb. apply in_flat_map in Hb as (a & Ha & Hb). apply existsb_str_eqb_In. eauto.
Qed.

Definition last_of (s : scope) (x : var) : action := vi_last (s_vars s x).

Lemma last_of_read_one s w x : last_of (read_one s w) x = if str_eqb w x then ARead else last_of s x.
Proof. unfold last_of, read_one. simpl. unfold upd. destruct (str_eqb w x); reflexivity. Qed.

Lemma fold_read_one_last x : forall us s,
  last_of (fold_left read_one us s) x = if existsb (str_eqb x) us then ARead else last_of s x.
Proof.
  induction us as [|w us IH]; intro s; simpl; [reflexivity|].
  rewrite IH, last_of_read_one.
  destruct (existsb (str_eqb x) us); [rewrite orb_true_r; reflexivity|]. rewrite orb_false_r.
  destruct (str_eqb w x) eqn:E.
  - apply str_eqb_spec in E. subst w. rewrite str_eqb_refl. reflexivity.
  - rewrite str_eqb_neq; [reflexivity|]. intro E'. subst w. rewrite str_eqb_refl in E. discriminate.
Qed.

Lemma nth_error_mid {A} (a : list A) x b : nth_error (a ++ x :: b) (length a) = Some x.
Proof. induction a; simpl; auto. Qed.

Lemma firstn_mid {A} (a b : list A) : firstn (length a) (a ++ b) = a.
Proof. induction a as [|x a IH]; simpl; [destruct b; reflexivity|]. rewrite IH. reflexivity. Qed.

Definition mv (s : scope) (x : var) : mvar := vi_var (s_vars s x).

Definition apply_reads (x : var) (us : list var) (v : mvar) : mvar :=
  fold_left (fun v w => if str_eqb w x then var_read v else v) us v.

Lemma upd_same {A} (m : var -> A) k v : upd m k v k = v.
Proof. unfold upd. rewrite str_eqb_refl. reflexivity. Qed.

Lemma fold_read_one_var x : forall us s,
  mv (fold_left read_one us s) x = apply_reads x us (mv s x).
Proof.
  induction us as [|w us IH]; intro s; simpl; [reflexivity|].
  rewrite IH. f_equal. unfold mv, read_one. simpl. unfold upd.
  destruct (str_eqb w x) eqn:E; [|reflexivity].
  apply str_eqb_spec in E. subst w. reflexivity.
Qed.

Lemma handle_expr_shape s a s' :
  handle_expr s a = Ok s' -> exists us, s' = fold_left read_one (uses (a_val a) ++ us) s.
Proof.
  unfold handle_expr. intro H.
  destruct (a_op a);
    try (inversion H; subst; exists []; rewrite app_nil_r; reflexivity);
    destruct (closure _ _ _) as [c| |]; try discriminate;
    inversion H; subst; exists c; rewrite fold_left_app; reflexivity.
Qed.

(* every path of handleVarassign ends in the deferred function: ConstantValue is
   only asked of a constant variable, so its assertion cannot fail *)
Lemma handle_varassign_ok s idx a d :
  exists vs, handle_varassign s idx a d =
    Ok (mkScope (upd (s_vars s) (a_var a)
                  (mkInfo (var_write (vi_var (s_vars s (a_var a))) idx a d)
                          (vi_paths (s_vars s (a_var a)) ++ [s_path s]) AWrite))
                (s_path s) (set_add (s_names s) (a_var a)), vs).
Proof.
  unfold handle_varassign, constant_value.
  destruct (is_constant (vi_var (s_vars s (a_var a))));
    repeat (cbv iota beta;
            match goal with
            | |- context [match ?x with _ => _ end] => destruct x
            end);
    eexists; reflexivity.
Qed.

Lemma handle_varassign_scope s idx a d s' vs :
  handle_varassign s idx a d = Ok (s', vs) ->
  s' = mkScope (upd (s_vars s) (a_var a)
                 (mkInfo (var_write (vi_var (s_vars s (a_var a))) idx a d)
                         (vi_paths (s_vars s (a_var a)) ++ [s_path s]) AWrite))
               (s_path s) (set_add (s_names s) (a_var a)).
Proof. destruct (handle_varassign_ok s idx a d) as [vs' E]. rewrite E. intro H. inversion H. reflexivity. Qed.

Lemma update_include_path_inv s l s1 :
  update_include_path s l = Ok s1 -> exists p, s1 = mkScope (s_vars s) p (s_names s).
Proof.
  unfold update_include_path. destruct (l_lineno l =? 1).
  - intro H; inversion H. eexists; reflexivity.
  - destruct (ipath_pop_until (s_path s) (l_file l)); intro H; inversion H. eexists; reflexivity.
Qed.

Lemma update_include_path_vars s l s1 :
  update_include_path s l = Ok s1 -> s_vars s1 = s_vars s.
Proof. intro H. apply update_include_path_inv in H as [p ->]. reflexivity. Qed.

(* c is ind.IsConditional() (Model/RedundantCond.v); check_line is the instance c = false *)
Lemma check_line_c_inv s idx c l s' vs :
  check_line_c s idx c l = Ok (s', vs) ->
  exists s1, update_include_path s l = Ok s1 /\
    match l_body l with
    | None => s' = s1 /\ vs = []
    | Some a => exists s2, handle_varassign s1 idx a c = Ok (s2, vs) /\ handle_expr s2 a = Ok s'
    end.
Proof.
  unfold check_line_c. destruct (update_include_path s l) as [s1| |]; try discriminate.
  intro H. exists s1. split; [reflexivity|]. destruct (l_body l) as [a|]; [|inversion H; subst; auto].
  destruct (handle_varassign s1 idx a c) as [[s2 vs2]| |]; try discriminate.
  destruct (handle_expr s2 a) as [s3| |] eqn:E3; try discriminate. inversion H; subst. exists s2. auto.
Qed.

Definition line_effect (x : var) (idx : nat) (l : line) (v : mvar) (vx : mvar) : mvar :=
  match l_body l with
  | None => v
  | Some a => apply_reads x (uses (a_val a))
                (if str_eqb (a_var a) x then var_write vx idx a false else v)
  end.

Lemma check_line_var s idx l s' vs x :
  check_line s idx l = Ok (s', vs) ->
  exists us, mv s' x = apply_reads x us (line_effect x idx l (mv s x) (mv s x)).
Proof.
  intro H. apply (check_line_c_inv s idx false) in H as (s1 & E1 & H).
  apply update_include_path_vars in E1. unfold line_effect.
  replace (mv s x) with (mv s1 x) by (unfold mv; rewrite E1; reflexivity).
  destruct (l_body l) as [a|].
  - destruct H as (s2 & E2 & E3). apply handle_varassign_scope in E2.
    destruct (handle_expr_shape _ _ _ E3) as [us ->]. exists us.
    rewrite fold_read_one_var. unfold apply_reads. rewrite fold_left_app. do 2 f_equal.
    subst s2. unfold mv. simpl. unfold upd.
    destruct (str_eqb (a_var a) x) eqn:E; [apply str_eqb_spec in E; subst x|]; reflexivity.
  - destruct H as [-> _]. exists []. reflexivity.
Qed.

Lemma apply_reads_fields x us : forall v,
  v_writes (apply_reads x us v) = v_writes v /\
  v_value (apply_reads x us v) = v_value v /\
  v_cval (apply_reads x us v) = v_cval v /\
  v_cond (apply_reads x us v) = v_cond v /\
  is_constant (apply_reads x us v) = is_constant v /\
  (v_state (apply_reads x us v) = C0 -> v_state v = C0).
Proof.
  induction us as [|w us IH]; intro v; simpl; [repeat split; auto|].
  destruct (str_eqb w x); [|apply IH].
  destruct (IH (var_read v)) as (H1 & H2 & H3 & H4 & H5 & H6).
  rewrite H1, H2, H3, H4, H5. simpl. repeat split; auto.
  - unfold is_constant. simpl. destruct (v_state v); reflexivity.
  - intro H. apply H6 in H. simpl in H. destruct (v_state v); discriminate || reflexivity.
Qed.

Lemma apply_reads_writes x us v : v_writes (apply_reads x us v) = v_writes v.
Proof. apply apply_reads_fields. Qed.

Lemma apply_reads_cond x us v : v_cond (apply_reads x us v) = v_cond v.
Proof. apply apply_reads_fields. Qed.

Lemma writes_of_app x : forall a idx b,
  writes_of x idx (a ++ b) = writes_of x idx a ++ writes_of x (idx + length a) b.
Proof.
  induction a as [|l a IH]; intros idx b; simpl.
  - rewrite Nat.add_0_r. reflexivity.
  - rewrite IH. rewrite app_assoc. do 2 f_equal. lia.
Qed.

Lemma entry_other x idx l : assigns x l = false -> entry x idx l = [].
Proof. unfold assigns, entry. destruct (l_body l); [intros ->|]; reflexivity. Qed.

Lemma writes_of_last x : forall pre idx p ap rest,
  rev (writes_of x idx pre) = (p, ap) :: rest ->
  exists pre1 lp mid,
    pre = pre1 ++ lp :: mid /\ p = (idx + length pre1)%nat /\ l_body lp = Some ap /\ a_var ap = x /\
    forallb (fun l => negb (assigns x l)) mid = true /\ rev (writes_of x idx pre1) = rest.
Proof.
  induction pre as [|l pre0 IH] using rev_ind; intros idx p ap rest H; [discriminate|].
  rewrite writes_of_app in H. simpl in H. rewrite app_nil_r, rev_app_distr in H.
  destruct (assigns x l) eqn:Ea.
  - unfold assigns, entry in *. destruct (l_body l) as [a|] eqn:Eb; [|discriminate].
    rewrite Ea in H. inversion H; subst. apply str_eqb_spec in Ea.
    exists pre0, l, []. repeat split; auto.
  - rewrite (entry_other _ _ _ Ea) in H.
    destruct (IH _ _ _ _ H) as (pre1 & lp & mid & -> & Hp & Hb & Hv & Hm & Hr).
    exists pre1, lp, (mid ++ [l]). rewrite <- app_assoc, forallb_app, Hm. simpl. rewrite Ea. repeat split; auto.
Qed.

Lemma writes_of_nil x : forall ls idx,
  forallb (fun l => negb (assigns x l)) ls = true -> writes_of x idx ls = [].
Proof.
  induction ls as [|l ls IH]; intros idx H; simpl; [reflexivity|].
  simpl in H. apply andb_true_iff in H as [H1 H2]. apply negb_true_iff in H1.
  rewrite IH, entry_other; auto.
Qed.

Lemma filter_nil_forallb {A} (f : A -> bool) l :
  filter f l = [] -> forallb (fun x => negb (f x)) l = true.
Proof.
  induction l as [|x l IH]; simpl; [reflexivity|].
  destruct (f x); [discriminate|]. intro H. simpl. apply IH; exact H.
Qed.

Definition store_after (fuel : nat) (pre : program) : store :=
  exec_from fuel empty_store (to_spec pre).

Lemma store_after_snoc fuel pre l :
  store_after fuel (pre ++ [l]) = exec_line fuel (store_after fuel pre) (spec_line l).
Proof.
  unfold store_after, to_spec. rewrite map_app, exec_from_app. reflexivity.
Qed.

Definition inv_var (st : store) (ws : list (nat * assign)) (noshell : bool) (x : var) (v : mvar) : Prop :=
  v_writes v = ws /\
  v_cond v = false /\
  (v_state v = C0 -> v_cval v = [] /\ ws = []) /\
  (is_constant v = true -> ws <> [] /\ st x = Some (Txt (v_cval v))) /\
  (ws = [] -> st x = None /\ v_value v = []) /\
  (ws <> [] -> st x <> None) /\
  (noshell = true -> ws <> [] ->
     exists t, st x = Some (Txt t) /\ (v_value v = t \/ v_value v = 32 :: t)).

(* the remembered text is the stored text: no '!=' and no ':=' with a '$' since
   the last assignment that replaced the whole value *)
Definition known (ws : list (nat * assign)) : bool :=
  negb (after_shell ws) && negb (after_eval_ref ws).

Definition inv_x (fuel : nat) (pre : program) (s : scope) (x : var) : Prop :=
  inv_var (store_after fuel pre) (writes_of x 0 pre) (known (writes_of x 0 pre)) x (mv s x).

Lemma inv_x_init fuel x : inv_x fuel [] new_scope x.
Proof.
  unfold inv_x, inv_var, mv. simpl. repeat split; auto; try discriminate; congruence.
Qed.

(* the part of the invariant that needs no hypothesis on the program *)
Definition inv_struct (pre : program) (s : scope) : Prop :=
  forall x, v_writes (mv s x) = writes_of x 0 pre /\ v_cond (mv s x) = false.

Lemma inv_struct_init : inv_struct [] new_scope.
Proof. intro x. split; reflexivity. Qed.

Lemma inv_var_reads st ws ns x us v :
  inv_var st ws ns x v -> inv_var st ws ns x (apply_reads x us v).
Proof.
  intros (H1 & H2 & H3 & H4).
  destruct (apply_reads_fields x us v) as (R1 & R2 & R3 & R4 & R5 & R6).
  unfold inv_var. rewrite R1, R2, R3, R4, R5. split; [exact H1|]. split; [exact H2|]. split; [auto|exact H4].
Qed.

Lemma inv_var_store st st' ws ns x v : st' x = st x -> inv_var st ws ns x v -> inv_var st' ws ns x v.
Proof. unfold inv_var. intros ->. auto. Qed.

Lemma eager_plain_app a b : eager_plain (a ++ b) = eager_plain a && eager_plain b.
Proof. unfold eager_plain. apply forallb_app. Qed.

Lemma splain_spec_line l : splain (spec_line l) = eager_plain_line l.
Proof.
  unfold splain, spec_line, eager_plain_line. destruct (l_body l) as [a|]; simpl; [|reflexivity].
  destruct (a_op a); reflexivity.
Qed.

Lemma sassigns_spec_line x l : sassigns x (spec_line l) = assigns x l.
Proof. unfold sassigns, spec_line, assigns. destruct (l_body l); reflexivity. Qed.

Lemma or1_not_C0 c : or1 c <> C0.
Proof. destruct c; discriminate. Qed.

Lemma var_write_state v idx a : v_state (var_write v idx a false) <> C0.
Proof.
  unfold var_write, var_update_constant. simpl.
  destruct (cstate_eqb (v_state v) C3) eqn:E3.
  - simpl. destruct (v_state v); discriminate.
  - destruct (v_cond v || false); simpl; [discriminate|].
    destruct (a_op a); simpl; try apply or1_not_C0; try discriminate.
    + destruct (has_make_vars (a_val a)); simpl; [discriminate|apply or1_not_C0].
    + destruct (cstate_eqb (v_state v) C0); simpl; apply or1_not_C0.
Qed.

Lemma var_write_value v idx a :
  v_cond v = false ->
  v_value (var_write v idx a false) =
    match a_op a with
    | OpAssign | OpEval => render (a_val a)
    | OpDefault => match v_writes v with [] => render (a_val a) | _ => v_value v end
    | OpAppend => v_value v ++ [32] ++ render (a_val a)
    | OpShell => v_value v
    end.
Proof.
  intro Hc. unfold var_write.
  match goal with |- v_value (var_update_constant ?w a) = _ =>
    destruct (var_update_constant_keeps w a) as (E & _); rewrite E end.
  unfold var_update. simpl. rewrite Hc. simpl.
  destruct (a_op a); try reflexivity.
  rewrite app_length, Nat.add_1_r. destruct (v_writes v); reflexivity.
Qed.

Lemma var_write_constant v idx a :
  v_cond v = false ->
  is_constant (var_write v idx a false) = true ->
  (v_state v = C0 \/ v_state v = C1) /\
  match a_op a with
  | OpAssign => v_cval (var_write v idx a false) = render (a_val a)
  | OpEval => has_make_vars (a_val a) = false /\ v_cval (var_write v idx a false) = render (a_val a)
  | OpDefault => v_cval (var_write v idx a false) =
                   match v_state v with C0 => render (a_val a) | _ => v_cval v end
  | OpAppend => v_cval (var_write v idx a false) =
                   match v_state v with C0 => v_cval v ++ render (a_val a)
                                   | _ => (v_cval v ++ [32]) ++ render (a_val a) end
  | OpShell => False
  end.
Proof.
  intro Hc. unfold var_write, var_update_constant, is_constant. simpl. rewrite Hc. simpl.
  destruct (v_state v) eqn:Es; simpl; try discriminate;
    destruct (a_op a); simpl; try discriminate;
    try (destruct (has_make_vars (a_val a)); simpl; try discriminate);
    intros _; repeat split; auto.
Qed.

Lemma supd_redundant st x v : st x = Some v -> ext_eq (supd st x v) st.
Proof.
  intros H y. unfold supd. destruct (str_eqb x y) eqn:E; [|reflexivity].
  apply str_eqb_spec in E. subst y. symmetry; exact H.
Qed.

Lemma after_shell_snoc ws w :
  after_shell (ws ++ [w]) = match a_op (snd w) with
                            | OpShell => true
                            | OpAssign | OpEval => false
                            | _ => after_shell ws
                            end.
Proof. unfold after_shell. rewrite fold_left_app. reflexivity. Qed.

Lemma after_eval_ref_snoc ws w :
  after_eval_ref (ws ++ [w]) = match a_op (snd w) with
                               | OpEval => negb (no_dollar (render (a_val (snd w))))
                               | OpAssign => false
                               | _ => after_eval_ref ws
                               end.
Proof. unfold after_eval_ref. rewrite fold_left_app. reflexivity. Qed.

Lemma known_snoc ws w :
  known (ws ++ [w]) = match a_op (snd w) with
                      | OpShell => false
                      | OpAssign => true
                      | OpEval => no_dollar (render (a_val (snd w)))
                      | _ => known ws
                      end.
Proof.
  unfold known. rewrite after_shell_snoc, after_eval_ref_snoc.
  destruct (a_op (snd w)); simpl; auto using negb_involutive.
Qed.

Lemma without_vars_length vl : (length (without_vars vl) <= length (render vl))%nat.
Proof.
  unfold without_vars, render.
  induction vl as [|[t|w] vl IH]; simpl; rewrite ?app_length; simpl; rewrite ?app_length; lia.
Qed.

(* a reference would make the rendered text longer than the text without variables *)
Lemma no_vars_plain vl :
  forallb chunk_ok vl = true -> has_make_vars vl = false -> no_dollar (render vl) = true.
Proof.
  unfold has_make_vars. rewrite negb_false_iff, str_eqb_spec.
  induction vl as [|[t|w] vl IH]; [reflexivity| |]; unfold render, without_vars; simpl; intros Hok E.
  - apply andb_true_iff in Hok as [Ht Hok]. apply app_inv_head in E.
    unfold no_dollar in *. rewrite forallb_app, Ht. apply IH; assumption.
  - pose proof (without_vars_length vl) as Hl. apply (f_equal (@length _)) in E.
    unfold render, without_vars in Hl. simpl in E. rewrite app_length in E. lia.
Qed.

Lemma assign_ok_parts a :
  assign_ok a = true ->
  name_ok (a_var a) = true /\ forallb chunk_ok (a_val a) = true /\ trimmed (render (a_val a)) = true.
Proof. unfold assign_ok. rewrite !andb_true_iff. tauto. Qed.

Lemma exec_assign_defined fuel st a : exec_assign fuel st a (s_name a) <> None.
Proof.
  unfold exec_assign. destruct (s_op a).
  - rewrite supd_same. discriminate.
  - destruct (st (s_name a)) as [[o|]|] eqn:E; rewrite ?supd_same, ?E; discriminate.
  - destruct (st (s_name a)) eqn:E; rewrite ?supd_same, ?E; discriminate.
  - destruct (expand fuel true _ _); rewrite supd_same; discriminate.
  - destruct (expand fuel false _ _); rewrite supd_same; discriminate.
Qed.

(* Var.Write keeps the variable constant, or its text trusted, only if the
   assignment is a lazy one or an eager one whose text has no '$': then the
   reference store takes the step without expanding anything *)
Lemma exec_assign_trusted fuel st ws v idx a :
  v_cond v = false -> forallb chunk_ok (a_val a) = true ->
  is_constant (var_write v idx a false) = true \/ known (ws ++ [(idx, a)]) = true ->
  exec_assign fuel st (spec_assign a) (a_var a) = plain_step (st (a_var a)) (spec_assign a).
Proof.
  intros Hc Hok Hor. rewrite exec_assign_plain; [simpl; rewrite str_eqb_refl; reflexivity|].
  rewrite known_snoc in Hor. simpl in *.
  destruct (a_op a) eqn:Eo; try reflexivity; simpl; destruct Hor as [Hk|Hns]; try discriminate;
    try exact Hns; destruct (var_write_constant v idx a Hc Hk) as [_ Hcv]; rewrite Eo in Hcv.
  - contradiction.
  - apply no_vars_plain; [exact Hok|apply Hcv].
Qed.

Lemma inv_var_write fuel st ws x v idx a :
  inv_var st ws (known ws) x v ->
  a_var a = x ->
  forallb chunk_ok (a_val a) = true ->
  inv_var (exec_assign fuel st (spec_assign a)) (ws ++ [(idx, a)])
          (known (ws ++ [(idx, a)])) x (var_write v idx a false).
Proof.
  intros (H1 & H2 & H3 & H4 & H5 & H6 & H7) Hx Hok.
  assert (Hne : ws ++ [(idx, a)] <> []) by (destruct ws; discriminate).
  pose proof (exec_assign_trusted fuel st ws v idx a H2 Hok) as Hst. rewrite Hx in Hst.
  unfold inv_var. rewrite var_write_writes, var_write_cond, H1, H2.
  split; [reflexivity|]. split; [reflexivity|].
  split; [intro E; destruct (var_write_state _ _ _ E)|].
  split; [|split; [intro E; contradiction|split]].
  - intro Hk. split; [exact Hne|]. rewrite (Hst (or_introl Hk)).
    destruct (var_write_constant v idx a H2 Hk) as [Hs Hcv].
    assert (Hold : v_state v = C0 /\ st x = None /\ v_cval v = [] \/
                   v_state v = C1 /\ st x = Some (Txt (v_cval v))).
    { destruct Hs as [Hs|Hs]; [left|right]; (split; [exact Hs|]).
      - destruct (H3 Hs) as [Hc Hw]. split; [apply (H5 Hw)|exact Hc].
      - apply H4. unfold is_constant. rewrite Hs. reflexivity. }
    unfold plain_step, spec_assign. simpl.
    destruct (a_op a); simpl.
    + rewrite Hcv. reflexivity.
    + contradiction.
    + destruct Hcv as [_ ->]. reflexivity.
    + rewrite Hcv. destruct Hold as [(-> & -> & ->)|(-> & ->)]; [|rewrite <- app_assoc]; reflexivity.
    + rewrite Hcv. destruct Hold as [(-> & -> & _)|(-> & ->)]; reflexivity.
  - intros _. rewrite <- Hx. apply (exec_assign_defined fuel st (spec_assign a)).
  - intros Hns _. rewrite (Hst (or_intror Hns)), (var_write_value v idx a H2), H1.
    rewrite known_snoc in Hns. unfold plain_step, spec_assign. simpl in *.
    assert (Hold : known ws = true ->
                   ws = [] /\ st x = None /\ v_value v = [] \/
                   exists w0 ws0 t, ws = w0 :: ws0 /\ st x = Some (Txt t) /\ (v_value v = t \/ v_value v = 32 :: t)).
    { intro K. destruct ws as [|w0 ws0]; [left; destruct (H5 eq_refl); auto|right].
      destruct (H7 K) as (t & Ht & Hv); [discriminate|]. exists w0, ws0, t. auto. }
    destruct (a_op a); simpl; try discriminate Hns.
    1, 2: eexists; split; [reflexivity|left; reflexivity].
    + destruct (Hold Hns) as [(-> & -> & ->)|(w0 & ws0 & t & -> & -> & Hv)];
        (eexists; split; [reflexivity|]); [right; reflexivity|].
      destruct Hv as [->| ->]; auto.
    + destruct (Hold Hns) as [(-> & -> & _)|(w0 & ws0 & t & -> & -> & Hv)];
        (eexists; split; [reflexivity|]); [left; reflexivity|exact Hv].
Qed.

Lemma inv_x_step fuel pre s l s' vs x :
  line_ok l = true ->
  inv_x fuel pre s x -> check_line s (length pre) l = Ok (s', vs) -> inv_x fuel (pre ++ [l]) s' x.
Proof.
  intros Hok Hinv Hck. destruct (check_line_var _ _ _ _ _ x Hck) as [us Hv].
  unfold inv_x in *. rewrite Hv. apply inv_var_reads.
  rewrite store_after_snoc, writes_of_app. simpl. rewrite app_nil_r.
  unfold line_effect, entry, spec_line. unfold line_ok in Hok. destruct (l_body l) as [a|]; simpl.
  - apply inv_var_reads. destruct (str_eqb (a_var a) x) eqn:Ex.
    + apply str_eqb_spec in Ex. apply inv_var_write; auto. apply (assign_ok_parts a Hok).
    + rewrite app_nil_r. revert Hinv. apply inv_var_store. apply exec_assign_other.
      simpl. intro E. subst x. rewrite str_eqb_refl in Ex. discriminate.
  - rewrite app_nil_r. exact Hinv.
Qed.

Lemma inv_struct_step pre s l s' vs :
  inv_struct pre s -> check_line s (length pre) l = Ok (s', vs) -> inv_struct (pre ++ [l]) s'.
Proof.
  intros Hinv Hck x. destruct (Hinv x) as [H1 H2].
  destruct (check_line_var _ _ _ _ _ x Hck) as [us ->].
  rewrite apply_reads_writes, apply_reads_cond, writes_of_app. simpl. rewrite app_nil_r.
  unfold line_effect, entry. destruct (l_body l) as [a|]; [|rewrite app_nil_r; auto].
  rewrite apply_reads_writes, apply_reads_cond.
  destruct (str_eqb (a_var a) x).
  - rewrite var_write_writes, var_write_cond, H1, H2. auto.
  - rewrite app_nil_r. auto.
Qed.

Definition plain_assign (a : assign) : Prop :=
  a_op a = OpAssign \/ (a_op a = OpEval /\ has_make_vars (a_val a) = false).

Definition verdict_cases (s : scope) (idx : nat) (a : assign) (vd : verdict) : Prop :=
  let v := mv s (a_var a) in
  last_of s (a_var a) <> ARead /\
  exists prev rest,
    rev (v_writes v) = prev :: rest /\
    ( (vd = on_overwrite prev (idx, a) /\ plain_assign a)
   \/ (vd = on_redundant (idx, a) prev /\
        (a_op a = OpDefault \/
         (plain_assign a /\ after_shell (v_writes v) = false /\
          str_eqb (v_value v) (render (a_val a)) = true)))
   \/ (vd = on_redundant prev (idx, a) /\
        ((a_op a = OpDefault /\ length (v_writes v) = 1%nat) \/ plain_assign a) /\
        is_constant v = true /\ str_eqb (v_cval v) (render (a_val a)) = true)
   \/ (vd = on_redundant prev (idx, a) /\ a_op a = OpShell /\
        is_constant v = true /\ existsb (str_eqb (a_var a)) (uses (a_val a)) = false) ).

(* effOp after its two adjustments: ':=' of a text without variables counts as
   '=', and '=' of the remembered text, no '!=' since, counts as '?=' *)
Definition eff_op (v : mvar) (a : assign) : op :=
  if op_eqb (if op_eqb (a_op a) OpEval && negb (has_make_vars (a_val a)) then OpAssign else a_op a) OpAssign
     && negb (after_shell (v_writes v)) && str_eqb (v_value v) (render (a_val a))
  then OpDefault
  else if op_eqb (a_op a) OpEval && negb (has_make_vars (a_val a)) then OpAssign else a_op a.

Lemma eff_op_cases v a :
  match eff_op v a with
  | OpAssign => plain_assign a
  | OpDefault => a_op a = OpDefault \/
                 (plain_assign a /\ after_shell (v_writes v) = false /\
                  str_eqb (v_value v) (render (a_val a)) = true)
  | o => a_op a = o
  end.
Proof.
  unfold eff_op, plain_assign.
  destruct (a_op a); simpl; try destruct (has_make_vars (a_val a)); simpl; auto;
    destruct (after_shell (v_writes v)); simpl; auto;
    destruct (str_eqb (v_value v) (render (a_val a))); simpl; auto 6.
Qed.

Lemma action_read_dec (l : action) : l = ARead \/ l <> ARead.
Proof. destruct l; auto; right; discriminate. Qed.

Lemma match_not_read {A} (l : action) (X Y : A) : l <> ARead -> match l with ARead => X | _ => Y end = Y.
Proof. destruct l; congruence. Qed.

(* by the structure of handleVarassign: the three early returns, then the
   switch on the effective operator *)
Lemma handle_varassign_verdicts s idx a s' vs vd :
  handle_varassign s idx a false = Ok (s', vs) -> In vd vs -> verdict_cases s idx a vd.
Proof.
  unfold handle_varassign, verdict_cases, mv, last_of. cbv beta zeta.
  set (info := s_vars s (a_var a)). set (v := vi_var info). fold (eff_op v a).
  set (s2 := mkScope _ _ _).
  assert (none : forall X : Prop, Ok (s2, []) = Ok (s', vs) -> In vd vs -> X) by (intros X [= _ <-] []).
  destruct (rev (v_writes v)) as [|prev rest]; [apply none|].
  destruct (v_cond v || false); [apply none|].
  destruct (action_read_dec (vi_last info)) as [->|Hl]; [apply none|]. rewrite (match_not_read _ _ _ Hl).
  intros H Hin. split; [exact Hl|]. exists prev, rest. split; [reflexivity|]. revert H Hin.
  assert (one : forall vd0, Ok (s2, [vd0]) = Ok (s', vs) -> In vd vs -> vd = vd0) by (intros vd0 [= _ <-] [<-|[]]; reflexivity).
  pose proof (eff_op_cases v a) as He. destruct (eff_op v a).
  - destruct (included_by_or_equals_all _ _); [|apply none]. intros H Hin. left. split; [exact (one _ H Hin)|exact He].
  - destruct (included_by_or_equals_all _ _); [|apply none].
    destruct (is_constant v) eqn:Ec; [|apply none].
    destruct (existsb _ _) eqn:Eu; [apply none|]. intros H Hin. do 3 right. rewrite (one _ H Hin). auto.
  - apply none.
  - apply none.
  - destruct (includes_or_equals_all _ _).
    { intros H Hin. right; left. split; [exact (one _ H Hin)|]. tauto. }
    destruct (included_by_or_equals_all _ _); [|apply none].
    unfold constant_value. destruct (is_constant v) eqn:Ec; [|apply none].
    destruct (str_eqb (v_cval v) _) eqn:Ev; [|apply none].
    destruct (op_eqb (a_op a) OpDefault) eqn:Eo; simpl; [destruct (Nat.eqb_spec (length (v_writes v)) 1); [|apply none]|];
      intros H Hin; do 2 right; left; rewrite (one _ H Hin); repeat split; auto.
    + left. destruct (a_op a); try discriminate. auto.
    + right. destruct He as [He|He]; [rewrite He in Eo; discriminate|apply He].
Qed.

Lemma check_line_verdicts s idx l s' vs vd :
  check_line s idx l = Ok (s', vs) -> In vd vs ->
  exists a, l_body l = Some a /\ verdict_cases s idx a vd.
Proof.
  intros H Hin. apply (check_line_c_inv s idx false) in H as (s1 & E1 & H).
  apply update_include_path_vars in E1.
  destruct (l_body l) as [a|]; [|destruct H as [_ ->]; destruct Hin].
  destruct H as (s2 & E2 & _). exists a. split; [reflexivity|].
  unfold verdict_cases, mv, last_of. rewrite <- E1. exact (handle_varassign_verdicts _ _ _ _ _ _ E2 Hin).
Qed.

Lemma check_origin (I : program -> scope -> Prop) p :
  I [] new_scope ->
  (forall pre l post s s' vs, p = pre ++ l :: post -> I pre s ->
     check_line s (length pre) l = Ok (s', vs) -> I (pre ++ [l]) s') ->
  forall vs vd, check p = Ok vs -> In vd vs ->
  exists pre l post s s' vs0,
    p = pre ++ l :: post /\ I pre s /\ check_line s (length pre) l = Ok (s', vs0) /\ In vd vs0.
Proof.
  intros H0 Hstep.
  assert (G : forall ls pre s vs vd, p = pre ++ ls -> I pre s ->
            check_from s (length pre) ls = Ok vs -> In vd vs ->
            exists pre' l post s0 s' vs0,
              p = pre' ++ l :: post /\ I pre' s0 /\ check_line s0 (length pre') l = Ok (s', vs0) /\ In vd vs0).
  { induction ls as [|l ls IH]; intros pre s vs vd Ep HI Hck Hin; simpl in Hck.
    - inversion Hck; subst. destruct Hin.
    - destruct (check_line s (length pre) l) as [[s' vs0]| |] eqn:E1; try discriminate.
      destruct (check_from s' (S (length pre)) ls) as [rest| |] eqn:E2; try discriminate.
      inversion Hck; subst vs. apply in_app_or in Hin as [Hin|Hin].
      + exists pre, l, ls, s, s', vs0. auto.
      + apply (IH (pre ++ [l]) s' rest vd); auto.
        * rewrite <- app_assoc. exact Ep.
        * eapply Hstep; eauto.
        * rewrite app_length, Nat.add_1_r. exact E2. }
  intros vs vd Hck Hin. exact (G p [] new_scope vs vd eq_refl H0 Hck Hin).
Qed.
