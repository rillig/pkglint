(* Every verdict inside guard4 flags a deletable line (C17_verdict_sound_partial4):
   when an earlier line is flagged nothing is asked, when the later line is
   flagged, that the remembered text is the stored one.  guard, guard2 and guard3
   ask more, so their theorems are corollaries.

   Why no ':=' / '!=' line between the two lines reaches x: handleExpr would
   have marked x as read (repair 02) and handleVarassign gives no verdict for a
   variable whose last action is a read.  Invariants carried along the lines:
   - Rinv: Var.Refs() of z contains every variable named in a text assigned to z so far
   - Jinv: if the last action on x is not a read, the store after the lines so far
     differs only at x from the store without the last assignment to x
   - Kinv: a variable named in some text so far has constantState 2 or 3, and
     constantState 2 comes with "last action: read" *)
From PV Require Import Lib.Bytes Model.Redundant Spec.MakeEval Spec.VerdictSound Spec.VerdictSound2
  Proofs.MakeEvalLemmas Proofs.Redundant Proofs.RedundantReads Proofs.RedundantSound
  Proofs.RedundantSound2.

Lemma direct_app a b z : direct (a ++ b) z = direct a z ++ direct b z.
Proof. unfold direct. apply flat_map_app. Qed.

Lemma direct_snoc pre l z w :
  In w (direct (pre ++ [l]) z) ->
  In w (direct pre z) \/ exists a, l_body l = Some a /\ a_var a = z /\ In w (uses (a_val a)).
Proof.
  rewrite direct_app, in_app_iff. intros [H|H]; [left; exact H|right].
  unfold direct in H. simpl in H. rewrite app_nil_r in H.
  destruct (l_body l) as [a|]; [|destruct H]. exists a.
  destruct (str_eqb (a_var a) z) eqn:E; [|destruct H]. apply str_eqb_spec in E. auto.
Qed.

Definition Rinv (pre : program) (s : scope) : Prop :=
  forall z w, In w (direct pre z) -> In w (refs_of s z).

Lemma Rinv_step pre s l s' vs :
  Rinv pre s -> check_line s (length pre) l = Ok (s', vs) -> Rinv (pre ++ [l]) s'.
Proof.
  intros HR Hck z w Hw. apply check_line_reads in Hck. apply direct_snoc in Hw.
  destruct (l_body l) as [a|].
  - destruct Hck as (rs & _ & _ & Hx). destruct (Hx z) as (_ & -> & _).
    destruct Hw as [Hw|(a' & [= <-] & <- & Hw)].
    + apply HR in Hw. destruct (str_eqb (a_var a) z); [apply set_add_all_spec; left|]; exact Hw.
    + rewrite str_eqb_refl. apply set_add_all_spec. right. exact Hw.
  - destruct Hw as [Hw|(a & [=] & _)]. unfold refs_of. rewrite Hck. apply HR, Hw.
Qed.

Definition Jinv (pre : program) (s : scope) : Prop :=
  forall x pre1 lp mid fuel,
    last_of s x <> ARead -> pre = pre1 ++ lp :: mid -> assigns x lp = true ->
    forallb (fun l0 => negb (assigns x l0)) mid = true ->
    agree_off x (store_after fuel pre) (exec_from fuel (store_after fuel pre1) (to_spec mid)).

(* The line l either is the last assignment to x, or it has not read x: then
   the set of variables it read, closed under Var.Refs() if it is a ':=' or '!=',
   is closed under the references of the texts and does not hold x. *)
Lemma Jinv_step pre s l s' vs :
  wf_program (pre ++ [l]) = true -> Jinv pre s -> Rinv (pre ++ [l]) s' ->
  check_line s (length pre) l = Ok (s', vs) -> Jinv (pre ++ [l]) s'.
Proof.
  intros Hwf HJ HR Hck x pre1 lp mid fuel Hx E Hlp Hmid. rewrite store_after_snoc.
  destruct mid as [|m mid _] using rev_ind.
  - apply app_inj_tail in E as [-> ->]. intros y Hy. apply exec_line_other.
    rewrite sassigns_spec_line. unfold assigns in *. destruct (l_body lp) as [a|]; [|discriminate].
    apply str_eqb_spec in Hlp. apply str_eqb_neq. congruence.
  - rewrite app_comm_cons, app_assoc in E. apply app_inj_tail in E as [-> ->].
    rewrite forallb_app in Hmid. apply andb_true_iff in Hmid as [Hmid Hm].
    simpl in Hm. rewrite andb_true_r in Hm. apply negb_true_iff in Hm.
    apply wf_app in Hwf as [Hwf Hok]. simpl in Hok. rewrite andb_true_r in Hok.
    unfold to_spec. rewrite map_app, exec_from_app.
    apply check_line_reads in Hck.
    assert (Hs : last_of s x <> ARead).
    { unfold assigns in Hm. destruct (l_body m) as [a|]; [|unfold last_of in *; rewrite <- Hck; exact Hx].
      destruct Hck as (rs & _ & _ & Hm'). destruct (Hm' x) as (E & _). rewrite E, Hm in Hx.
      destruct (existsb (str_eqb x) rs); [congruence|exact Hx]. }
    apply (exec_line_indep fuel x (pre1 ++ lp :: mid)); auto using store_after_ok.
    + exact (HJ x pre1 lp mid fuel Hs eq_refl Hlp Hmid).
    + intros a Hb He. rewrite Hb in Hck. destruct Hck as (rs & Hinc & Hcl & Hm').
      exists (fun w => In w rs). split; [|split; [exact Hinc|]].
      * intros z w Hz Hw. apply (Hcl He z w Hz), HR. rewrite direct_app. apply in_or_app. left. exact Hw.
      * intro Hin. destruct (Hm' x) as (E & _). apply existsb_str_eqb_In in Hin. rewrite Hin in E. exact (Hx E).
Qed.

Definition was_read (c : cstate) : Prop := c = C2 \/ c = C3.

Definition Kinv (pre : program) (s : scope) : Prop :=
  (forall x z, In x (direct pre z) -> was_read (cst s x)) /\
  (forall x, cst s x = C2 -> last_of s x = ARead).

Lemma was_read_read c : was_read (read_table c).
Proof. destruct c; simpl; unfold was_read; auto. Qed.

Lemma var_write_state2 v idx a :
  (v_state (var_write v idx a false) = C1 /\ (v_state v = C0 \/ v_state v = C1)) \/
  v_state (var_write v idx a false) = C3.
Proof.
  unfold var_write, var_update_constant. simpl.
  destruct (v_state v) eqn:Es; simpl; try (right; reflexivity);
    destruct (v_cond v || false); simpl; try (right; reflexivity);
    destruct (a_op a); simpl; auto;
    try (destruct (has_make_vars (a_val a)); simpl; auto).
Qed.

Lemma Kinv_step pre s l s' vs :
  Kinv pre s -> check_line s (length pre) l = Ok (s', vs) -> Kinv (pre ++ [l]) s'.
Proof.
  intros [K1 K2] Hck. apply check_line_reads in Hck. destruct (l_body l) as [a|] eqn:Eb.
  - destruct Hck as (rs & Hinc & _ & Hx). split; intro x; destruct (Hx x) as (El & _ & ->); cbv zeta.
    + intros z Hn. destruct (existsb (str_eqb x) rs) eqn:Er.
      { apply was_read_read. }
      apply direct_snoc in Hn as [Hn|(a' & Ea & _ & Hn)].
      2: { rewrite Eb in Ea. injection Ea as <-. apply Hinc, existsb_str_eqb_In in Hn. congruence. }
      apply K1 in Hn. destruct (str_eqb (a_var a) x); [|exact Hn].
      destruct (var_write_state2 (mv s x) (length pre) a) as [[_ E]|E]; [|right; exact E].
      unfold cst in Hn. destruct Hn, E; congruence.
    + rewrite El. destruct (existsb (str_eqb x) rs); [reflexivity|].
      destruct (str_eqb (a_var a) x); [|apply K2].
      intro E. destruct (var_write_state2 (mv s x) (length pre) a) as [[E' _]|E']; congruence.
  - unfold Kinv, cst, mv, last_of. rewrite Hck. split; [|exact K2].
    intros x z Hn. apply direct_snoc in Hn as [Hn|(a & Ea & _)]; [exact (K1 x z Hn)|congruence].
Qed.

Definition Inv (pre : program) (s : scope) : Prop :=
  (forall x fuel, inv_x fuel pre s x) /\ Rinv pre s /\ Jinv pre s /\ Kinv pre s.

Lemma Inv_init : Inv [] new_scope.
Proof.
  split; [intros x fuel; apply inv_x_init|]. split; [intros z w []|]. split.
  - intros x [|? ?] lp mid fuel _ E; discriminate E.
  - split; [intros x z []|intros x E; discriminate E].
Qed.

Lemma Inv_step pre s l s' vs :
  wf_program (pre ++ [l]) = true -> Inv pre s -> check_line s (length pre) l = Ok (s', vs) ->
  Inv (pre ++ [l]) s'.
Proof.
  intros Hwf (Hx & HR & HJ & HK) Hck.
  pose proof (Rinv_step _ _ _ _ _ HR Hck) as HR'.
  destruct (wf_app _ _ Hwf) as [_ Hok]. simpl in Hok. rewrite andb_true_r in Hok.
  split; [intros x fuel; eapply inv_x_step; eauto|]. split; [exact HR'|].
  split; [eapply Jinv_step; eauto|eapply Kinv_step; eauto].
Qed.

Lemma line_sound pre l post s s' vs vd :
  Inv pre s -> check_line s (length pre) l = Ok (s', vs) -> In vd vs ->
  wf_program (pre ++ l :: post) = true -> guard4 (pre ++ l :: post) vd = true ->
  deletable (pre ++ l :: post) (vd_flagged vd).
Proof.
  intros (Hinv & _ & HJ & HK1 & HK2) Hck Hin Hwf Hg.
  destruct (check_line_verdicts _ _ _ _ _ _ Hck Hin)
    as (a & Eb & Hlast & [pidx ap] & rest & Hrev & Hcases).
  set (x := a_var a) in *. set (v := mv s x) in *.
  destruct (Hinv x 0%nat) as (W1 & _). fold v in W1. rewrite W1 in Hrev, Hcases.
  destruct (writes_of_last _ _ _ _ _ _ Hrev) as (pre1 & lp & mid & Epre & Hp & Hlb & Hlv & Hmid & Hrest).
  simpl in Hp. subst pidx.
  destruct (wf_app _ _ Hwf) as [Hwf_pre Hwf_l]. simpl in Hwf_l. apply andb_true_iff in Hwf_l as [Hwf_l _].
  unfold line_ok in Hwf_l. rewrite Eb in Hwf_l.
  destruct (assign_ok_parts a Hwf_l) as (_ & Hwf_c & Hwf_a).
  set (without := fun fuel => exec_from fuel (store_after fuel pre1) (to_spec mid)).
  (* '?=', '=' and ':=' without make variables only look at the old value of x,
     the latter two not even at that *)
  assert (Hval : a_op a = OpDefault \/ plain_assign a -> forall fuel st,
            exec_assign fuel st (spec_assign a) x = plain_step (st x) (spec_assign a)).
  { intros Hpl fuel st. apply (exec_assign_plain_at fuel st (spec_assign a)).
    destruct Hpl as [Ho|[Ho|[Ho Hm]]]; simpl; rewrite Ho; simpl; auto. apply no_vars_plain; assumption. }
  assert (Hpa : plain_assign a -> forall o, plain_step o (spec_assign a) = Some (Txt (render (a_val a)))).
  { intros [Ho|[Ho _]] o; unfold plain_step; simpl; rewrite Ho; reflexivity. }
  (* an earlier line lp is flagged: x has not been read since, so the stores with
     and without lp differ at x only *)
  assert (Hag : forall fuel, agree_off x (store_after fuel pre) (without fuel)).
  { intro fuel. apply (HJ x pre1 lp mid fuel Hlast Epre); [|exact Hmid].
    unfold assigns. rewrite Hlb, Hlv. apply str_eqb_refl. }
  assert (Hback : (forall fuel, exec_assign fuel (store_after fuel pre) (spec_assign a) x =
                                exec_assign fuel (without fuel) (spec_assign a) x) ->
                  deletable (pre ++ l :: post) (length pre1))
    by exact (bwd_deletable pre pre1 lp mid l a post Epre Eb Hag).
  destruct Hcases as [[-> Hop]|[[-> Hop]|[(-> & Hop & Hk & Hcv)|(-> & Hop & Hk & Hu)]]]; simpl vd_flagged.
  - (* overwritten: the earlier line lp is flagged *)
    apply Hback. intro fuel. rewrite !Hval, !Hpa by auto. reflexivity.
  - (* the current line is flagged *)
    apply (fwd_deletable pre l a post Eb). intro fuel. fold x.
    destruct (Hinv x fuel) as (_ & _ & _ & _ & _ & Hdef & Hrem). fold v in Hrem.
    assert (Hwne : writes_of x 0 pre <> []) by (intro E; rewrite E in Hrev; discriminate).
    destruct Hop as [Ho|(Ho & Hsh & Hv)].
    + (* a default assignment to a defined variable *)
      rewrite Hval by auto. unfold plain_step. simpl. rewrite Ho.
      destruct (store_after fuel pre x); [reflexivity|]. contradiction (Hdef Hwne). reflexivity.
    + (* the same text again: by the guard, what is remembered is what is stored *)
      assert (Hev : after_eval_ref (writes_of x 0 pre) = false).
      { apply (guard4_later pre l post a _ _ Eb Hg); [destruct Ho as [->|[-> _]]; discriminate|].
        rewrite Epre, app_length. simpl. clear. lia. }
      assert (Hkn : known (writes_of x 0 pre) = true) by (unfold known; rewrite Hsh, Hev; reflexivity).
      destruct (Hrem Hkn Hwne) as (t & Ht & Hvt).
      apply str_eqb_spec in Hv.
      rewrite Hval, Hpa, Ht by auto. do 2 f_equal.
      destruct Hvt as [Hvt|Hvt]; [congruence|].
      rewrite Hvt in Hv. rewrite <- Hv in Hwf_a. discriminate.
  - (* an earlier line is flagged because the current line assigns the constant value again *)
    apply Hback. intro fuel. rewrite !Hval by tauto.
    destruct Hop as [[Ho Hone]|Ho]; [|rewrite !Hpa by exact Ho; reflexivity].
    (* '?=': with lp the variable holds the text; lp is the only assignment to x,
       so without it x is undefined *)
    destruct (Hinv x fuel) as (_ & _ & _ & Hc & _). destruct (Hc Hk) as [_ Hs]. fold v in Hs.
    apply str_eqb_spec in Hcv. rewrite Hcv in Hs. rewrite Hs.
    assert (Hund : without fuel x = None).
    { apply (f_equal (@length _)) in Hrev. rewrite rev_length, Hone in Hrev.
      destruct rest; [|discriminate]. apply (f_equal (@rev _)) in Hrest. rewrite rev_involutive in Hrest.
      unfold without, store_after.
      rewrite !exec_from_unassigned; [reflexivity| |exact Hmid]. apply (writes_of_nil_inv x pre1 0 Hrest). }
    rewrite Hund. unfold plain_step. simpl. rewrite Ho. reflexivity.
  - (* an earlier line is flagged because of a '!=': x is constant and its last
       action is not a read, so no text names it and the command cannot reach it *)
    apply Hback. intro fuel. apply (shell_assign_indep fuel x pre); auto using store_after_ok.
    apply unnamed_unreached.
    + intros z Hz. apply HK1 in Hz. specialize (HK2 x). unfold cst in *. fold v in Hz, HK2.
      unfold is_constant in Hk. destruct Hz as [E|E]; rewrite E in *; [auto|discriminate].
    + intro Hx. apply existsb_str_eqb_In in Hx. fold x in Hu. rewrite Hx in Hu. discriminate.
Qed.

Theorem verdict_sound_partial4 : verdict_sound_on (fun p vd => guard4 p vd = true).
Proof.
  intros p vs vd Hwf Hck Hin Hg.
  destruct (check_origin (fun pre s => Inv pre s) p Inv_init) with (vs := vs) (vd := vd)
    as (pre & l & post & s & s' & vs0 & Ep & HI & Hl & Hin0); auto.
  - intros pre l post s s' vs0 Ep. apply Inv_step. subst p.
    change (l :: post) with ([l] ++ post) in Hwf. rewrite app_assoc in Hwf. apply (wf_app _ _ Hwf).
  - subst p. eapply line_sound; eauto.
Qed.

Lemma guard4_weakest p vd :
  guard p vd = true \/ guard2 p vd = true \/ guard3 p vd = true -> guard4 p vd = true.
Proof.
  unfold guard, guard2, guard3, guard4.
  destruct (Nat.ltb (vd_flagged vd) (vd_because vd)); tauto.
Qed.

Theorem verdict_sound_partial3 : verdict_sound_on (fun p vd => guard3 p vd = true).
Proof. intros p vs vd Hwf Hck Hin Hg. apply (verdict_sound_partial4 p vs vd); auto using guard4_weakest. Qed.

Theorem verdict_sound_partial2 : verdict_sound_on (fun p vd => guard2 p vd = true).
Proof. intros p vs vd Hwf Hck Hin Hg. apply (verdict_sound_partial4 p vs vd); auto using guard4_weakest. Qed.

Theorem verdict_sound_partial : verdict_sound_on (fun p vd => guard p vd = true).
Proof. intros p vs vd Hwf Hck Hin Hg. apply (verdict_sound_partial4 p vs vd); auto using guard4_weakest. Qed.

Theorem earlier_line_sound :
  forall (p : program) (vs : list verdict) (vd : verdict),
    wf_program p = true -> check p = Ok vs -> In vd vs ->
    (vd_flagged vd < vd_because vd)%nat -> deletable p (vd_flagged vd).
Proof.
  intros p vs vd Hwf Hck Hin Hlt. apply (verdict_sound_partial4 p vs vd Hwf Hck Hin).
  unfold guard4. apply Nat.ltb_lt in Hlt. rewrite Hlt. reflexivity.
Qed.

(* C17: if no ':=' and no '!=' in the program has a '$' in its text, every verdict is sound *)
Theorem eager_plain_sound :
  forall (p : program) (vs : list verdict) (vd : verdict),
    wf_program p = true -> eager_plain p = true ->
    check p = Ok vs -> In vd vs -> deletable p (vd_flagged vd).
Proof.
  intros p vs vd Hwf Hep Hck Hin. apply (verdict_sound_partial4 p vs vd Hwf Hck Hin).
  assert (H : after_eval_ref (writes_of (line_var p (vd_flagged vd)) 0 (firstn (vd_flagged vd) p)) = false).
  { apply (after_eval_ref_plain _ _ 0 []); [|reflexivity].
    rewrite <- (firstn_skipn (vd_flagged vd) p), eager_plain_app in Hep. apply andb_true_iff in Hep. apply Hep. }
  unfold guard4. rewrite H. destruct (Nat.ltb _ _), (line_op p (vd_flagged vd)) as [[]|]; reflexivity.
Qed.
