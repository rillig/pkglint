(* C05, "is reported on stderr": what Logger.TechErrorf does with the failures of the
   save path (Model/SaveLog.v), for every Logger state; and the refutation of the
   variant that reports through Logf. *)
From PV Require Import Lib.Bytes Model.Escape Model.FsProto Model.Logger Model.SaveLog
  Proofs.Escape Proofs.LoggerOut.
Open Scope N_scope.

Lemma sw_write_cons w b t : sw_write w (b :: t) = sw_write (sw_write_byte w b) t.
Proof. reflexivity. Qed.

Lemma sw_bytes_write_byte w b :
  sw_bytes (sw_write_byte w b) = sw_bytes w ++ (if b =? 10 then [] else sep_pending w) ++ [b].
Proof.
  unfold sw_bytes, sw_write_byte, sep_pending. destruct (b =? 10) eqn:Hb.
  - apply N.eqb_eq in Hb. subst b. cbn [sw_out sw_line app]. rewrite app_nil_r. apply app_assoc.
  - destruct (sw_state w =? 2); cbn [sw_out sw_line app]; rewrite <- ?app_assoc; reflexivity.
Qed.

Lemma sw_state_write_byte w b : sw_state (sw_write_byte w b) <> 2.
Proof.
  unfold sw_write_byte.
  destruct (b =? 10); [destruct (sw_state w =? 1)|destruct (sw_state w =? 2)]; cbn [sw_state]; discriminate.
Qed.

Lemma sw_bytes_write_nosep t : forall w, sw_state w <> 2 -> sw_bytes (sw_write w t) = sw_bytes w ++ t.
Proof.
  induction t as [|b t IH]; intros w H; [symmetry; apply app_nil_r|].
  rewrite sw_write_cons, IH, sw_bytes_write_byte by apply sw_state_write_byte.
  unfold sep_pending. apply N.eqb_neq in H. rewrite H. destruct (b =? 10); apply app_assoc_reverse.
Qed.

Lemma sw_bytes_write w b t :
  sw_bytes (sw_write w (b :: t)) = sw_bytes w ++ (if b =? 10 then [] else sep_pending w) ++ b :: t.
Proof.
  rewrite sw_write_cons, sw_bytes_write_nosep, sw_bytes_write_byte by apply sw_state_write_byte.
  rewrite <- !app_assoc. reflexivity.
Qed.

Lemma sw_write_nl_flushed w p :
  sw_line (sw_write w (p ++ [10])) = [] /\
  sw_state (sw_write w (p ++ [10])) <> 1 /\ sw_state (sw_write w (p ++ [10])) <> 2.
Proof.
  unfold sw_write. rewrite fold_left_app. cbn [fold_left].
  set (w' := fold_left sw_write_byte p w). unfold sw_write_byte. rewrite N.eqb_refl.
  cbn [sw_line sw_state]. split; [reflexivity|].
  destruct (sw_state w' =? 1); split; discriminate.
Qed.

Lemma at_line_start_new_sw : at_line_start new_sw.
Proof. split; [reflexivity|discriminate]. Qed.

Lemma at_line_start_sep w : at_line_start w -> sep_pending w = [].
Proof. intros [_ H]. unfold sep_pending. apply N.eqb_neq in H. rewrite H. reflexivity. Qed.

Lemma at_line_start_bytes w : at_line_start w -> sw_bytes w = sw_out w.
Proof. intros [H _]. unfold sw_bytes. rewrite H. apply app_nil_r. Qed.

Definition error_prefix : str := [69; 82; 82; 79; 82; 58; 32].

Lemma error_prefix_safe : safe error_prefix.
Proof. repeat constructor. Qed.

Lemma tech_line_prefix loc msg :
  tech_line loc msg =
  error_prefix ++ escape_printable ((loc ++ (if nonempty_list loc then [58; 32] else [])) ++ msg ++ [10]).
Proof. apply (escape_safe_prefix error_prefix), error_prefix_safe. Qed.

Lemma tech_line_ends loc msg : ends_nl (tech_line loc msg).
Proof. apply escape_ends_nl. eexists. rewrite !app_assoc. reflexivity. Qed.

Lemma tech_line_printable loc msg :
  Forall (fun b => xprint b = true) loc -> Forall (fun b => xprint b = true) msg ->
  tech_line loc msg =
  [69; 82; 82; 79; 82; 58; 32] ++ (loc ++ (if nonempty_list loc then [58; 32] else [])) ++ msg ++ [10].
Proof.
  intros Hl Hm. apply escape_safe_id.
  repeat apply safe_app; try assumption; [apply error_prefix_safe| |repeat constructor].
  destruct (nonempty_list loc); repeat constructor.
Qed.

Lemma tech_error_err l loc msg :
  l_err (Model.Logger.tech_error l loc msg) = sw_write (l_err l) (tech_line loc msg).
Proof. reflexivity. Qed.

Lemma tech_error_bytes l loc msg :
  stderr_bytes (Model.Logger.tech_error l loc msg) =
  stderr_bytes l ++ sep_pending (l_err l) ++ tech_line loc msg.
Proof. unfold stderr_bytes. rewrite tech_error_err, tech_line_prefix. apply sw_bytes_write. Qed.

Lemma tech_error_flushed l loc msg :
  at_line_start (l_err (Model.Logger.tech_error l loc msg)) /\
  sw_state (l_err (Model.Logger.tech_error l loc msg)) <> 1.
Proof.
  rewrite tech_error_err. destruct (tech_line_ends loc msg) as [p ->].
  destruct (sw_write_nl_flushed (l_err l) p) as (H1 & H2 & H3). repeat split; assumption.
Qed.

Lemma tech_error_out l loc msg :
  sw_out (l_err (Model.Logger.tech_error l loc msg)) =
  stderr_bytes l ++ sep_pending (l_err l) ++ tech_line loc msg.
Proof.
  rewrite <- tech_error_bytes. symmetry. apply at_line_start_bytes, tech_error_flushed.
Qed.

Theorem tech_error_stream : forall (o : opts) (werror : bool) (l : logger) (loc msg : str),
  let l' := Model.Logger.tech_error l loc msg in
  l' = set_err l (l_err l') /\
  l_out l' = l_out l /\ stdout_bytes l' = stdout_bytes l /\
  l_errors l' = l_errors l /\ l_warnings l' = l_warnings l /\ l_notes l' = l_notes l /\
  l_suppress_diag l' = l_suppress_diag l /\ l_suppress_expl l' = l_suppress_expl l /\
  exit_status werror l' = exit_status werror l /\
  stderr_bytes l' = stderr_bytes l ++ sep_pending (l_err l) ++ tech_line loc msg /\
  (exists rest, tech_line loc msg = [69; 82; 82; 79; 82; 58; 32] ++ rest) /\
  at_line_start (l_err l') /\ sw_state (l_err l') <> 1 /\
  sw_out (l_err l') = stderr_bytes l ++ sep_pending (l_err l) ++ tech_line loc msg /\
  (at_line_start (l_err l) -> sw_out (l_err l') = sw_out (l_err l) ++ tech_line loc msg).
Proof.
  intros o werror l loc msg l'. subst l'.
  repeat match goal with |- _ /\ _ => split end; try reflexivity;
    try apply tech_error_flushed.
  - apply tech_error_bytes.
  - rewrite tech_line_prefix. eexists. reflexivity.
  - apply tech_error_out.
  - intro H0. rewrite tech_error_out, (at_line_start_sep _ H0). unfold stderr_bytes.
    rewrite (at_line_start_bytes _ H0). reflexivity.
Qed.

Lemma report_all_cons l e es detail :
  report_all l (e :: es) detail = report_all (report_one l e (detail e)) es detail.
Proof. reflexivity. Qed.

Lemma report_all_inv {A : Type} (f : logger -> A) :
  (forall l loc msg, f (Model.Logger.tech_error l loc msg) = f l) ->
  forall es detail l, f (report_all l es detail) = f l.
Proof.
  intros Hf es detail. induction es as [|e es IH]; intro l; [reflexivity|].
  rewrite report_all_cons, IH. apply Hf.
Qed.

(* after the first line the writer is at a line start: only the first can meet a
   pending separator *)
Lemma report_all_bytes es detail : forall l,
  stderr_bytes (report_all l es detail) =
  stderr_bytes l ++ (match es with [] => [] | _ :: _ => sep_pending (l_err l) end) ++ report_lines es detail /\
  (es <> [] \/ at_line_start (l_err l) -> at_line_start (l_err (report_all l es detail))).
Proof.
  induction es as [|e es IH]; intro l.
  { split; [symmetry; apply app_nil_r|intros [H|H]; [congruence|exact H]]. }
  rewrite report_all_cons. set (l1 := report_one l e (detail e)).
  assert (Hs : at_line_start (l_err l1)) by apply tech_error_flushed.
  destruct (IH l1) as [Hb Ha]. split; [|intros _; apply Ha; right; exact Hs].
  assert (E : match es with [] => [] | _ :: _ => sep_pending (l_err l1) end = [])
    by (destruct es; [reflexivity|apply at_line_start_sep, Hs]).
  rewrite Hb, E. unfold l1, report_one. rewrite tech_error_bytes.
  unfold report_lines, error_line. cbn [flat_map app]. rewrite <- !app_assoc. reflexivity.
Qed.

Lemma report_lines_infix es detail e : In e es ->
  exists a b, report_lines es detail = a ++ error_line e (detail e) ++ b.
Proof.
  intro Hin. destruct (in_split _ _ Hin) as (l1 & l2 & ->).
  exists (report_lines l1 detail), (report_lines l2 detail).
  unfold report_lines. rewrite flat_map_app. reflexivity.
Qed.

Lemma app_grows {A : Type} (x y z : list A) : z <> [] -> x ++ y ++ z <> x.
Proof.
  intros Hz H. rewrite <- (app_nil_r x) in H at 2. apply app_inv_head, app_eq_nil in H. tauto.
Qed.

Theorem report_all_when : forall (P : Prop) (o : opts) (werror : bool) (l0 : logger)
    (es : list (errkind * path)) (detail : errkind * path -> str),
  (P -> es <> []) ->
  let l := report_all l0 es detail in
  (P -> stderr_bytes l <> stderr_bytes l0) /\
  stdout_bytes l = stdout_bytes l0 /\ l_out l = l_out l0 /\
  l_errors l = l_errors l0 /\ l_warnings l = l_warnings l0 /\ l_notes l = l_notes l0 /\
  exit_status werror l = exit_status werror l0 /\
  l_suppress_diag l = l_suppress_diag l0 /\ l_suppress_expl l = l_suppress_expl l0 /\
  stderr_bytes l = stderr_bytes l0 ++ (match es with [] => [] | _ :: _ => sep_pending (l_err l0) end)
                                   ++ report_lines es detail /\
  (forall e, In e es ->
     exists a b, stderr_bytes l = stderr_bytes l0 ++ a ++ error_line e (detail e) ++ b) /\
  (P -> at_line_start (l_err l)) /\
  (at_line_start (l_err l0) ->
     at_line_start (l_err l) /\ sw_out (l_err l) = sw_out (l_err l0) ++ report_lines es detail).
Proof.
  intros P o werror l0 es detail HP l. subst l.
  destruct (report_all_bytes es detail l0) as [Hb Hs].
  repeat match goal with |- _ /\ _ => split end; try (apply (report_all_inv _); reflexivity).
  - intro Hp. rewrite Hb. apply app_grows. destruct es as [|e es]; [destruct (HP Hp eq_refl)|].
    unfold report_lines, error_line. cbn [flat_map]. rewrite tech_line_prefix. discriminate.
  - exact Hb.
  - intros e Hin. destruct (report_lines_infix es detail e Hin) as (a & b & Hab).
    rewrite Hb, Hab. eexists (_ ++ a), b. rewrite <- app_assoc. reflexivity.
  - intro Hp. apply Hs. left. apply HP, Hp.
  - intro H0. split; [apply Hs; right; exact H0|].
    rewrite <- (at_line_start_bytes _ (Hs (or_intror H0))), <- (at_line_start_bytes _ H0).
    fold (stderr_bytes (report_all l0 es detail)). fold (stderr_bytes l0). rewrite Hb.
    destruct es; [|rewrite (at_line_start_sep _ H0)]; reflexivity.
Qed.

Lemma logf_suppressed : forall (o : opts) (l : logger) (e : errkind * path) (detail : str),
  l_suppress_diag l = true ->
  stderr_bytes (report_one_logf o l e detail) = stderr_bytes l /\
  stdout_bytes (report_one_logf o l e detail) = stdout_bytes l.
Proof. intros o l e detail H. unfold report_one_logf, logf. rewrite H. split; reflexivity. Qed.

(* such a state is reached: --autofix --only foo, after one Autofix.Apply of a diagnostic "bar" *)
Lemma logf_suppressed_reached :
  exists (o : opts) (l : logger) (e : errkind * path) (detail : str),
    l = log_run o [ex_fix_event] /\ l_suppress_diag l = true /\
    stderr_bytes (report_one_logf o l e detail) = stderr_bytes l /\
    stdout_bytes (report_one_logf o l e detail) = stdout_bytes l /\
    stderr_bytes (report_one l e detail) = stderr_bytes l ++ error_line e detail /\
    error_line e detail = ex_error_text.
Proof. exists ex_only_opts, ex_suppressed, ex_entry, ex_detail. vm_compute. repeat split; reflexivity. Qed.

Lemma logf_unsuppressed : forall (o : opts) (l : logger) (e : errkind * path) (detail : str),
  l_suppress_diag l = false ->
  stderr_bytes (report_one_logf o l e detail) = stderr_bytes l /\
  stdout_bytes (report_one_logf o l e detail) <> stdout_bytes l /\
  l_errors (report_one_logf o l e detail) = l_errors l + 1.
Proof.
  intros o l e detail H. unfold report_one_logf, logf. rewrite H.
  repeat match goal with |- _ /\ _ => split end; try reflexivity.
  unfold stdout_bytes. cbn [l_out set_emitted bump set_errors out_write set_out].
  match goal with |- sw_bytes (sw_write _ (escape_printable ?u)) <> _ =>
    destruct (escape_ends_nl u (format_diag_ends _ _ _ _ _)) as [p Hp];
    destruct (escape_printable u) as [|b t'] end.
  - destruct p; discriminate Hp.
  - rewrite sw_bytes_write. apply app_grows. discriminate.
Qed.

Lemma logf_unsuppressed_example :
  exists (o : opts) (l : logger) (e : errkind * path) (detail : str),
    l_suppress_diag l = false /\
    stderr_bytes (report_one_logf o l e detail) = stderr_bytes l /\
    stdout_bytes (report_one_logf o l e detail) = stdout_bytes l ++ ex_error_text /\
    l_errors (report_one_logf o l e detail) = l_errors l + 1 /\
    exit_status false l = 0 /\ exit_status false (report_one_logf o l e detail) = 1.
Proof. exists ex_only_opts, new_logger, ex_entry, ex_detail. vm_compute. repeat split; reflexivity. Qed.
