(* With VaralignSplitter.parseVarnameOp parsing the same text as matchVarassign,
   the alignment prefix (MkLine.ValueAlign()), the value, the space before the
   comment and the comment of every accepted assignment recombine to the line. *)
From PV Require Import Lib.Bytes Gen.MkByteSets Model.MkLexPrim Model.MkLexer
  Model.MkLineSplit Model.VaralignSplit Spec.MkPartition
  Proofs.MkLexPrim Proofs.MkLexer Proofs.MkLineSplit Proofs.VaralignSplit Proofs.Varassign.
From Coq Require Import ZifyBool ZifyN ZifyNat.
Open Scope N_scope.

Notation U := unescape_hash.

Lemma hspace_not_bs c : is_hspace c = true -> c <> 92.
Proof. intros H ->. discriminate. Qed.

Lemma hspace_not_hash c : is_hspace c = true -> c <> 35.
Proof. intros H ->. discriminate. Qed.

Lemma uh_nil_inv z : U z = [] -> z = [].
Proof.
  destruct z as [|c t]; [reflexivity|]. cbn [unescape_hash].
  destruct t as [|d t']; [discriminate|]. destruct ((c =? 92) && (d =? 35)); discriminate.
Qed.

Lemma uh_head c t : (exists t', c = 92 /\ t = 35 :: t' /\ U (c :: t) = 35 :: U t') \/
                    (U (c :: t) = c :: U t /\ ~ (c = 92 /\ exists t', t = 35 :: t')).
Proof.
  destruct t as [|d t'].
  - right. split; [reflexivity|]. intros (_ & t' & H); discriminate.
  - destruct (N.eqb_spec c 92) as [->|Hc].
    + destruct (N.eqb_spec d 35) as [->|Hd].
      * left. exists t'. auto.
      * right. split; [apply uh_bs_other; exact Hd|]. intros (_ & t'' & H). inversion H; congruence.
    + right. split; [apply uh_cons_ne; exact Hc|]. intros (H & _); congruence.
Qed.

Lemma uh_starts_nonblank z : starts_nonblank (U z) <-> starts_nonblank z.
Proof.
  destruct z as [|c t]; [reflexivity|].
  destruct (uh_head c t) as [(t' & -> & _ & ->)|[-> _]]; [split; reflexivity|reflexivity].
Qed.

Lemma uh_all_blanks b : forallb is_hspace b = true -> forall z, U z = b -> z = b.
Proof.
  induction b as [|b0 b IH]; intros Hb z H; [apply uh_nil_inv; exact H|].
  cbn [forallb] in Hb. apply andb_true_iff in Hb as [Hb0 Hb].
  destruct z as [|c t]; [discriminate|].
  destruct (uh_head c t) as [(t' & _ & _ & E)|[E _]]; rewrite E in H; injection H as <- H.
  - discriminate.
  - rewrite (IH Hb t H). reflexivity.
Qed.

Lemma raw_value_align_walk : forall fuel p r0 tail m2,
  U r0 = p ++ m2 -> (length p < fuel)%nat ->
  exists ra r1, r0 = ra ++ r1 /\
    raw_value_align_loop fuel (r0 ++ tail) p = Ok (r1 ++ tail) /\ U ra = p /\ U r1 = m2.
Proof.
  induction fuel as [|f IH]; intros p r0 tail m2 H Hf; [lia|].
  destruct p as [|pch p1].
  { exists [], r0. cbn [raw_value_align_loop]. auto. }
  destruct r0 as [|c t]; [discriminate|].
  destruct (uh_head c t) as [(t' & -> & -> & E)|[E Hn]]; rewrite E in H; inversion H; subst.
  - destruct (IH p1 t' tail m2) as (ra & r1 & -> & E1 & Ua & U1); [assumption|simpl in Hf; lia|].
    exists (92 :: 35 :: ra), r1. split; [reflexivity|]. split; [|split; [rewrite uh_bs_hash, Ua; reflexivity|exact U1]].
    (* '#' meets '\\': no match, no blank, so SkipString("\\#"): by computation *)
    exact E1.
  - destruct (IH p1 t tail m2) as (ra & r1 & -> & E1 & Ua & U1); [assumption|simpl in Hf; lia|].
    exists (pch :: ra), r1. split; [reflexivity|]. split; [|split; [|exact U1]].
    + cbn [raw_value_align_loop app]. rewrite N.eqb_refl. rewrite skip_ok by (simpl; lia).
      cbn [bind skipn]. exact E1.
    + destruct (uh_head pch ra) as [(t' & -> & -> & _)|[E' _]].
      * exfalso. apply Hn. split; [reflexivity|]. eexists. reflexivity.
      * rewrite E', Ua. reflexivity.
Qed.

Lemma get_raw_value_align_exact pre tail p m2 : U pre = p ++ m2 ->
  exists ra r1, pre = ra ++ r1 /\ get_raw_value_align (pre ++ tail) p = Ok ra /\ U ra = p /\ U r1 = m2.
Proof.
  intro H. destruct (raw_value_align_walk (S (length p)) p pre tail m2 H ltac:(lia)) as (ra & r1 & -> & E & Ua & U1).
  exists ra, r1. split; [reflexivity|]. split; [|auto].
  unfold get_raw_value_align. rewrite E. cbn [bind]. rewrite <- app_assoc, since_app. reflexivity.
Qed.

Lemma uh_split z u w : U z = u ++ w -> exists x y, z = x ++ y /\ U x = u /\ U y = w.
Proof.
  intro H. destruct (get_raw_value_align_exact z [] u w H) as (x & y & ? & _ & ? & ?). eauto.
Qed.

Lemma skip_app a r : skip (length a) (a ++ r) = Ok r.
Proof.
  rewrite skip_ok by (rewrite app_length; lia). rewrite skipn_app, Nat.sub_diag, skipn_all. reflexivity.
Qed.

(* sbc is the space before the comment; with an empty value it belongs to the
   blanks before the value *)
Lemma parse_varname_op_core s1 main0 c0 sbc v m1 m3 :
  unescape_comment s1 = Ok (main0, c0) ->
  main0 = rtrim_hspace main0 ++ sbc -> forallb is_hspace sbc = true ->
  Varname (rtrim_hspace main0) = Ok (v, m1) ->
  mk_op (ltrim_hspace m1) = Some m3 ->
  exists vo sbv mid rest,
    parse_varname_op true s1 = Ok (vo, sbv, rest) /\
    s1 = vo ++ sbv ++ mid ++ (match ltrim_hspace m3 with [] => [] | _ => sbc end) ++ c0 /\
    U mid = ltrim_hspace m3.
Proof.
  set (M := rtrim_hspace main0). intros Hu Hsbc Bsbc Hv Hop.
  destruct (unescape_comment_exact _ _ _ Hu) as (pre & -> & Hmain & Hc0).
  (* the unescaped text before the comment is P ++ blanks ++ value ++ sbc, where P ends with the operator *)
  destruct (varname_partition M) as (v' & m1' & Ev & HvM). rewrite Hv in Ev. injection Ev as <- <-.
  destruct (mk_op_chops _ _ Hop) as (opc & _ & Hm2).
  pose proof (span_app is_hspace m1) as Hm1. fold (ltrim_hspace m1) in Hm1. rewrite Hm2 in Hm1.
  pose proof (span_app is_hspace m3) as Hm3. fold (ltrim_hspace m3) in Hm3.
  assert (Hval : starts_nonblank (ltrim_hspace m3)) by apply span_rest_head.
  set (P := v ++ fst (span is_hspace m1) ++ opc). set (hs2 := fst (span is_hspace m3)) in *.
  assert (HM : M = P ++ m3) by (rewrite <- HvM, <- Hm1; unfold P; rewrite <- !app_assoc; reflexivity).
  assert (HU : U pre = P ++ hs2 ++ ltrim_hspace m3 ++ sbc)
    by (rewrite <- Hmain, Hsbc; fold M; rewrite HM, <- Hm3 at 1; rewrite <- !app_assoc; reflexivity).
  destruct (get_raw_value_align_exact pre c0 P _ HU) as (ra & r1 & -> & Era & _ & Ur1).
  destruct (uh_split _ _ _ Ur1) as (x & y & -> & Ux & Uy). apply uh_all_blanks in Ux; [subst x|apply span_all].
  destruct (uh_split _ _ _ Uy) as (mid & z & -> & Umid & Uz). apply uh_all_blanks in Uz; [subst z|exact Bsbc].
  assert (Hc0' : starts_nonblank c0) by (destruct Hc0 as [->|(t & ->)]; [exact I|reflexivity]).
  rewrite <- !app_assoc in *.
  unfold parse_varname_op. cbn [negb]. rewrite Hu. cbn [bind]. fold M. rewrite Hv. cbn [bind].
  change (snd (next_bytes is_hspace m1)) with (ltrim_hspace m1).
  rewrite Hop, HM, since_app, Era. cbn [bind]. rewrite skip_app. cbn [bind]. rewrite since_app.
  unfold next_bytes. destruct (ltrim_hspace m3) as [|x0 value].
  - apply uh_nil_inv in Umid. subst mid. cbn [app].
    rewrite app_assoc, span_blanks_stop; [|rewrite forallb_app, Bsbc; unfold hs2; rewrite span_all; reflexivity|exact Hc0'].
    exists ra, (hs2 ++ sbc), [], c0. rewrite <- !app_assoc. auto.
  - assert (Hmid : starts_nonblank (mid ++ sbc ++ c0)).
    { rewrite <- Umid in Hval. apply (proj1 (uh_starts_nonblank mid)) in Hval. destruct mid; [discriminate Umid|exact Hval]. }
    rewrite span_blanks_stop; [|apply span_all|exact Hmid].
    exists ra, hs2, mid, (mid ++ sbc ++ c0). auto.
Qed.

Lemma unescape_comment_loop_fuel_irrel : forall f1 f2 s, (length s < f1)%nat -> (length s < f2)%nat ->
  unescape_comment_loop f1 s = unescape_comment_loop f2 s.
Proof.
  induction f1 as [|f1 IH]; intros f2 s H1 H2; [lia|]. destruct f2 as [|f2]; [lia|].
  cbn [unescape_comment_loop].
  destruct (next_bytes comment_safe s) as [plain r] eqn:Esp.
  pose proof (next_bytes_eq _ _ _ _ Esp) as Eq.
  assert (Rec : forall r', (length r' < length s)%nat ->
            unescape_comment_loop f1 r' = unescape_comment_loop f2 r') by (intros; apply IH; lia).
  destruct plain as [|p0 plain'].
  2:{ rewrite Rec; [reflexivity|]. rewrite Eq, app_length. simpl. lia. }
  clear Eq Esp.
  destruct (skip_string [92; 35] s) as [r1|] eqn:E1.
  { rewrite Rec; [reflexivity|]. apply skip_string_some in E1. subst s. simpl. lia. }
  destruct (peek_is s 92 && (2 <=? length s)%nat) eqn:E2.
  { apply andb_true_iff in E2 as [_ Hl]. apply Nat.leb_le in Hl.
    rewrite skip_ok by exact Hl. cbn [bind]. rewrite Rec; [reflexivity|]. rewrite skipn_length. lia. }
  destruct (skip_byte 92 s) as [r3|] eqn:E3.
  { rewrite Rec; [reflexivity|]. apply skip_byte_some in E3. subst s. simpl. lia. }
  destruct (skip_string [91; 35] s) as [r4|] eqn:E4.
  { rewrite Rec; [reflexivity|]. apply skip_string_some in E4. subst s. simpl. lia. }
  destruct (skip_byte 91 s) as [r5|] eqn:E5.
  { rewrite Rec; [reflexivity|]. apply skip_byte_some in E5. subst s. simpl. lia. }
  reflexivity.
Qed.

Lemma unescape_comment_cons_safe c s : comment_safe c = true ->
  unescape_comment (c :: s) = ('(m, cm) <- unescape_comment s ;; Ok (c :: m, cm)).
Proof.
  intro Hc. unfold unescape_comment. cbn [length]. remember (S (length s)) as f eqn:Hf.
  cbn [unescape_comment_loop]. unfold next_bytes. cbn [span]. rewrite Hc.
  destruct (span comment_safe s) as [a r] eqn:Esp. pose proof (next_bytes_eq _ _ _ _ Esp) as Eq.
  destruct a as [|a0 a'].
  - simpl in Eq. subst r. destruct (unescape_comment_loop f s) as [[m cm]| |]; reflexivity.
  - assert (R : unescape_comment_loop (S (length s)) s =
                ('(m, cm) <- unescape_comment_loop (length s) r ;; Ok ((a0 :: a') ++ m, cm)))
      by (cbn [unescape_comment_loop]; unfold next_bytes; rewrite Esp; reflexivity).
    subst f. rewrite R, (unescape_comment_loop_fuel_irrel (S (length s)) (length s) r)
      by (rewrite Eq, app_length; simpl; lia).
    destruct (unescape_comment_loop (length s) r) as [[m cm]| |]; reflexivity.
Qed.

Lemma hspace_comment_safe c : is_hspace c = true -> comment_safe c = true.
Proof.
  unfold is_hspace. intro H. apply orb_true_iff in H as [H|H]; apply N.eqb_eq in H; subst; reflexivity.
Qed.

Lemma unescape_comment_leading_blanks lc s1 m c : forallb is_hspace lc = true ->
  unescape_comment (lc ++ s1) = Ok (m, c) ->
  exists m', m = lc ++ m' /\ unescape_comment s1 = Ok (m', c).
Proof.
  intro Hb. revert m. induction lc as [|b lc IH]; intros m H; [exists m; auto|].
  cbn [forallb] in Hb. apply andb_true_iff in Hb as [Hb0 Hb].
  cbn [app] in H. rewrite (unescape_comment_cons_safe b (lc ++ s1) (hspace_comment_safe b Hb0)) in H.
  destruct (unescape_comment (lc ++ s1)) as [[m0 c0]| |] eqn:E; cbn [bind] in H; try discriminate.
  inversion H; subst. destruct (IH Hb m0 eq_refl) as (m' & -> & Hm'). exists m'. auto.
Qed.

Lemma split_true_inv T sr : split T true = Ok sr ->
  exists main0 c0, unescape_comment T = Ok (main0, c0) /\ sr_main sr = rtrim_hspace main0 /\
    main0 = sr_main sr ++ sr_space_before_comment sr /\ comment_tail sr = c0 /\ peek_is T 9 = false.
Proof.
  unfold split. destruct (peek_is T 9); [discriminate|].
  destruct (unescape_comment T) as [[main0 c0]| |] eqn:Eu; cbn [bind]; try discriminate.
  intros [= <-]. exists main0, c0. unfold comment_tail. cbn.
  destruct (unescape_comment_exact _ _ _ Eu) as (_ & _ & _ & Hc0).
  repeat split; [apply rtrim_hspace_skipn|destruct Hc0 as [->|(t & ->)]; reflexivity].
Qed.

Lemma varalign_split_of_parts text lc s1 vo sbv rest :
  ~ In 10 text -> parse_leading_comment true text = (lc, s1) ->
  parse_varname_op true s1 = Ok (vo, sbv, rest) ->
  exists p, varalign_split text true = Ok p /\ vp_leading_comment p = lc /\
            vp_varname_op p = vo /\ vp_space_before_value p = sbv.
Proof.
  intros Hn Hlc Hvo. pose proof (varalign_split_post text true) as P. rewrite Hlc, Hvo in P.
  destruct (varalign_split text true) as [p| |];
    [|contradiction|destruct P as [P|[_ P]]; [contradiction|discriminate]].
  destruct P as (_ & P1 & rest' & P2). injection P2 as -> -> _. eauto.
Qed.

Lemma parse_leading_comment_hash initial T : starts_nonblank T ->
  parse_leading_comment initial (35 :: T) = ([35], T).
Proof.
  destruct T as [|x T']; [reflexivity|]. intro Hx.
  unfold parse_leading_comment, has_prefix. cbn [strip_prefix]. change (35 =? 35) with true. cbn iota.
  destruct (N.eqb_spec 32 x) as [<-|]; [discriminate Hx|reflexivity].
Qed.

Lemma parse_leading_comment_blanks s : (forall t, s <> 35 :: t) -> peek_is s 9 = false ->
  parse_leading_comment true s = span is_hspace s.
Proof.
  intros Hh Ht. destruct s as [|c t]; [reflexivity|]. cbn [peek_is] in Ht.
  unfold parse_leading_comment, has_prefix, skip_string. cbn [strip_prefix skip_byte span].
  destruct (N.eqb_spec 35 c) as [<-|_]; [edestruct Hh; reflexivity|].
  replace (is_hspace c) with (c =? 32) by (unfold is_hspace; rewrite Ht, orb_false_r; reflexivity).
  destruct (N.eqb_spec c 32) as [->|_]; [|rewrite since_self; reflexivity].
  unfold next_bytes. pose proof (span_app is_hspace t) as A. destruct (span is_hspace t) as [b r].
  cbn [fst snd] in *. rewrite <- A. f_equal. exact (since_app (32 :: b) r).
Qed.

Lemma Expr_nondollar c t : c <> 36 -> Expr (c :: t) = Ok None.
Proof.
  intro Hc. apply Expr_none_iff. destruct t as [|d t']; [reflexivity|].
  cbn [starts_expr]. destruct (N.eqb_spec c 36); [contradiction|reflexivity].
Qed.

Lemma Varname_no_start c t :
  in_set builtin_variable_spec c = false -> c <> 46 -> in_set varbase_spec c = false -> c <> 36 ->
  Varname (c :: t) = Ok ([], c :: t).
Proof.
  intros Hb Hdot Hvb Hd. unfold Varname, varname. rewrite Hb.
  assert (H46 : skip_byte 46 (c :: t) = None).
  { cbn [skip_byte]. destruct (N.eqb_spec c 46); [contradiction|reflexivity]. }
  unfold skip_byte_opt. rewrite H46.
  assert (Hloop : loop (bytes_or_expr Expr varbase_spec) (c :: t) = Ok (c :: t)).
  { unfold loop. cbn [iterate]. unfold bytes_or_expr at 1, orelse, st_bytes. cbn [span]. rewrite Hvb.
    rewrite (Expr_nondollar c t Hd). reflexivity. }
  rewrite Hloop. cbn [bind]. rewrite H46. rewrite since_self. reflexivity.
Qed.

Lemma Varname_hspace_head c t : is_hspace c = true -> Varname (c :: t) = Ok ([], c :: t).
Proof.
  unfold is_hspace. intro H. apply orb_true_iff in H as [H|H]; apply N.eqb_eq in H; subst c;
    apply Varname_no_start; try reflexivity; discriminate.
Qed.

Lemma Varname_nil : Varname [] = Ok ([], []).
Proof. reflexivity. Qed.

Lemma Varname_starts_nonblank s v r : Varname s = Ok (v, r) -> v <> [] ->
  exists c t, s = c :: t /\ is_hspace c = false.
Proof.
  destruct s as [|c t]; [rewrite Varname_nil|destruct (is_hspace c) eqn:Hc; [rewrite (Varname_hspace_head c t Hc)|eauto]];
    intros [= <- _] Hne; contradiction.
Qed.

Lemma starts_nonblank_prefix x y : starts_nonblank (x ++ y) -> starts_nonblank x.
Proof. destruct x; [exact (fun _ => I)|exact (fun H => H)]. Qed.

(* `for lexer.SkipByte(' ')` stops at a tab *)
Lemma skip_spaces_blanks lc x : forallb is_hspace lc = true -> starts_nonblank x ->
  starts_nonblank (skip_spaces (lc ++ x)) -> skip_spaces (lc ++ x) = x.
Proof.
  intros Hb Hx. induction lc as [|b lc IH].
  - intros _. destruct x as [|c t]; [reflexivity|]. cbn [app skip_spaces].
    destruct (N.eqb_spec c 32) as [->|]; [discriminate Hx|reflexivity].
  - cbn [forallb] in Hb. apply andb_true_iff in Hb as [Hb0 Hb].
    cbn [app skip_spaces]. destruct (b =? 32); [exact (IH Hb)|].
    unfold starts_nonblank. congruence.
Qed.

Definition va_full_law (text : str) (a : varassign) : Prop :=
  exists (p : varalign_parts) (mid : str),
    varalign_split text true = Ok p /\
    text = (vp_leading_comment p ++ vp_varname_op p ++ vp_space_before_value p) ++ mid ++
           sr_space_before_comment (va_split a) ++ comment_tail (va_split a) /\
    unescape_hash mid = va_value a.

(* T was split into sr by matchVarassign; the splitter parses s1 after the leading
   comment lc; both look for the variable name in the same text *)
Lemma assemble (commented : bool) text lc s1 T sr a main0' :
  ~ In 10 text ->
  parse_leading_comment true text = (lc, s1) ->
  unescape_comment s1 = Ok (main0', comment_tail sr) ->
  (if commented then sr_main sr else skip_spaces (sr_main sr)) = rtrim_hspace main0' ->
  main0' = rtrim_hspace main0' ++ sr_space_before_comment sr ->
  split T true = Ok sr ->
  match_varassign_tail commented text sr = Ok (Some a) ->
  va_full_law text a.
Proof.
  intros Hn Hlc Hs1 HM Hsbc Hsplit Htail.
  destruct (match_varassign_tail_accept false text text commented T sr a Hsplit Htail)
    as (v & m1 & m3 & _ & vname' & sav & op & al & r & Hv & _ & Hop & _ & _ & -> & _).
  rewrite HM in Hv.
  destruct (split_recombines _ _ _ Hsplit) as (_ & _ & _ & Bsbc & _).
  destruct (parse_varname_op_core s1 main0' _ _ v m1 m3 Hs1 Hsbc Bsbc Hv Hop)
    as (vo & sbv & mid & rest & Hpvo & Hs1eq & Umid).
  destruct (varalign_split_of_parts text lc s1 vo sbv _ Hn Hlc Hpvo) as (p & Hp & <- & <- & <-).
  exists p, mid. split; [exact Hp|].
  rewrite (parse_leading_comment_app _ _ _ _ Hlc), Hs1eq, Umid, <- !app_assoc.
  cbv zeta. destruct (ltrim_hspace m3); split; reflexivity.
Qed.

Lemma varassign_recombines text a : ~ In 10 text -> parse_varassign text = Ok (Some a) -> va_full_law text a.
Proof.
  intros Hn H.
  destruct (parse_varassign_ml_accept false text text a H) as (c & T & first & E1 & Ht & Htail & Hc).
  destruct (split_true_inv _ _ E1) as (main0 & c0 & Eu & Hmain & Hm0 & <- & Htab).
  destruct c; cbn [app] in Ht.
  - (* a commented assignment: #VAR= value *)
    apply (assemble true text [35] T T first a main0); try assumption; [|rewrite <- Hmain; exact Hm0].
    subst text. apply parse_leading_comment_hash. destruct T; [contradiction|exact Hc].
  - (* an ordinary assignment, possibly indented: the blanks lc are skipped by both parsers,
       and a tab among them ends matchVarassign *)
    subst T. pose proof (parse_leading_comment_blanks text Hc Htab) as Hlc.
    pose proof (span_all is_hspace text) as Blc. pose proof (span_rest_head is_hspace text) as Hs1.
    pose proof (span_app is_hspace text) as Htx.
    destruct (span is_hspace text) as [lc s1]. cbn [fst snd] in Blc, Hs1, Htx.
    rewrite <- Htx in Eu.
    destruct (unescape_comment_leading_blanks lc s1 main0 _ Blc Eu) as (main0' & -> & Eu1).
    destruct (match_varassign_tail_accept false text text false text first a E1 Htail)
      as (v & m1 & _ & _ & _ & _ & _ & _ & _ & Hv & Hvne & _).
    destruct (Varname_starts_nonblank _ _ _ Hv Hvne) as (y0 & y & Hy & Hy0).
    rewrite Hmain, rtrim_app in Hy, Hm0.
    destruct (rtrim_hspace main0') as [|x0 X] eqn:Ex.
    { rewrite (rtrim_all_blanks lc Blc) in Hy. discriminate Hy. }
    assert (Hx0 : starts_nonblank (x0 :: X)).
    { destruct (unescape_comment_exact _ _ _ Eu1) as (pre1 & -> & HU1 & _).
      apply starts_nonblank_prefix, uh_starts_nonblank in Hs1. rewrite <- HU1 in Hs1.
      destruct (rtrim_hspace_app main0') as (sp & E & _). rewrite E, Ex in Hs1. exact Hs1. }
    apply (assemble false text lc s1 text first a main0'); try assumption.
    + rewrite Hmain, rtrim_app, Ex. apply skip_spaces_blanks; [exact Blc|exact Hx0|rewrite Hy; exact Hy0].
    + rewrite Ex. rewrite <- app_assoc in Hm0. exact (app_inv_head _ _ _ Hm0).
Qed.
