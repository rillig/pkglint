(* C16: check_cvsid, plist_pass and used_by of Model/Settle.v settle, also over the file
   as it is saved and loaded again. *)
From Coq Require Import Lia.
From PV Require Import Lib.Bytes Model.Settle.
Open Scope N_scope.

Lemma id_suggest_is_id k : is_cvsid_k k (id_suggest k) = true.
Proof. destruct k; vm_compute; reflexivity. Qed.

Theorem check_cvsid_total k ls : ls <> [] -> check_cvsid k ls <> None.
Proof. destruct ls; [congruence|cbn; discriminate]. Qed.

Theorem check_cvsid_settles k ls ls' :
  check_cvsid k ls = Some ls' -> check_cvsid k ls' = Some ls'.
Proof.
  destruct ls as [|l0 r]; cbn; [discriminate|].
  destruct (is_cvsid_k k l0) eqn:E; intro H; inversion H; subst; cbn.
  - rewrite E. reflexivity.
  - rewrite id_suggest_is_id. reflexivity.
Qed.

Lemma strip_conds_fuel_some f : forall l, (length l < f)%nat -> strip_conds_fuel f l <> None.
Proof.
  induction f as [|f IH]; intros l Hl; [lia|].
  cbn [strip_conds_fuel].
  destruct (strip_prefix plist_cond_open l) as [r|] eqn:Hp; [|discriminate].
  apply strip_prefix_some in Hp.
  destruct (span is_cond_char r) as [name rest] eqn:Hs.
  pose proof (span_length is_cond_char r) as Hlen. rewrite Hs in Hlen. cbn [fst snd] in Hlen.
  destruct name as [|n0 name]; [discriminate|].
  destruct rest as [|c rest']; [discriminate|].
  destruct (c =? 125); [|discriminate].
  apply IH. subst l. rewrite app_length in Hl. cbn [length] in *. lia.
Qed.

Lemma strip_conds_total l : strip_conds l <> None.
Proof. unfold strip_conds. apply strip_conds_fuel_some. lia. Qed.

Lemma plist_line_fix_cases l :
  plist_line_fix l = LDelete \/ plist_line_fix l = LKeep l
  \/ plist_line_fix l = LKeep (replace_first pkgmandir_slash man_slash l)
  \/ plist_line_fix l = LKeep (drop_last3 l).
Proof.
  unfold plist_line_fix. pose proof (strip_conds_total l) as H.
  destruct (strip_conds l) as [[|c t]|]; [auto| |congruence].
  destruct (plist_line_start c); [|destruct (unexec_rmdir (c :: t)); auto].
  destruct (str_eqb (first_part (c :: t)) pkgmandir); [destruct (count_pkgmandir l =? 1); auto|].
  destruct (str_eqb (first_part (c :: t)) [109;97;110]); [destruct (gz_text (c :: t) && ends_gz l)|]; auto.
Qed.

Lemma plist_line_fix_no_fuel l : plist_line_fix l <> LFuel.
Proof. destruct (plist_line_fix_cases l) as [->|[->|[->| ->]]]; discriminate. Qed.

Definition fix_lines (ls : list str) : list str :=
  flat_map (fun l => match plist_line_fix l with LKeep l' => [l'] | _ => [] end) ls.
Arguments fix_lines : simpl never.

Lemma fix_lines_cons l r :
  fix_lines (l :: r) = match plist_line_fix l with LKeep l' => l' :: fix_lines r | _ => fix_lines r end.
Proof. unfold fix_lines. cbn. destruct (plist_line_fix l); reflexivity. Qed.

Lemma plist_lines_fix_eq ls : plist_lines_fix ls = Some (fix_lines ls).
Proof.
  induction ls as [|l r IH]; [reflexivity|]. cbn [plist_lines_fix]. rewrite IH, fix_lines_cons.
  pose proof (plist_line_fix_no_fuel l). destruct (plist_line_fix l); [reflexivity..|congruence].
Qed.

(* the lines are treated independently of each other: no per-file state *)
Lemma plist_lines_fix_app a b :
  plist_lines_fix (a ++ b) =
  match plist_lines_fix a, plist_lines_fix b with
  | Some x, Some y => Some (x ++ y)
  | _, _ => None
  end.
Proof. rewrite !plist_lines_fix_eq. unfold fix_lines. rewrite flat_map_app. reflexivity. Qed.

Lemma cvsid_plist_line_kept l : is_cvsid_k IdPlist l = true -> plist_line_fix l = LKeep l.
Proof.
  unfold is_cvsid_k. cbn [id_strip].
  destruct (strip_prefix at_comment l) as [r|] eqn:E; [|discriminate]. intros _.
  apply strip_prefix_some in E. subst l. reflexivity.
Qed.

Lemma plist_pass_eq l0 r :
  plist_pass (l0 :: r) =
  POk (if is_cvsid_k IdPlist l0 then l0 :: fix_lines r else id_suggest IdPlist :: fix_lines (l0 :: r)).
Proof.
  unfold plist_pass. rewrite plist_lines_fix_eq. destruct (is_cvsid_k IdPlist l0) eqn:E; [|reflexivity].
  rewrite fix_lines_cons, (cvsid_plist_line_kept l0 E). destruct r; reflexivity.
Qed.

Theorem plist_pass_total ls : ls <> [] -> exists o, plist_pass ls = POk o.
Proof. destruct ls as [|l0 r]; [congruence|]. intros _. eexists. apply plist_pass_eq. Qed.

Theorem plist_pass_header ls o : plist_pass ls = POk o ->
  exists l0 r, o = l0 :: r /\ is_cvsid_k IdPlist l0 = true.
Proof.
  destruct ls as [|l0 r]; [discriminate|]. rewrite plist_pass_eq.
  destruct (is_cvsid_k IdPlist l0) eqn:E; intros [= <-]; eauto using id_suggest_is_id.
Qed.

Lemma gz_line_fixed l : gz_offered l = true -> plist_line_fix l = LKeep (drop_last3 l).
Proof.
  unfold gz_offered, plist_line_fix.
  destruct (strip_conds l) as [[|c t]|]; try discriminate.
  intro H. repeat (apply andb_prop in H; destruct H as [H ?]).
  rewrite H.
  destruct (str_eqb (first_part (c :: t)) pkgmandir) eqn:E.
  - apply str_eqb_spec in E. rewrite E in H2. vm_compute in H2. discriminate.
  - rewrite H2, H1, H0. reflexivity.
Qed.

Theorem gz_all_fixed_in_one_pass a l b :
  gz_offered l = true ->
  exists a' b', plist_lines_fix a = Some a' /\ plist_lines_fix b = Some b' /\
                plist_lines_fix (a ++ l :: b) = Some (a' ++ drop_last3 l :: b').
Proof.
  intro H. exists (fix_lines a), (fix_lines b). rewrite !plist_lines_fix_eq. repeat split.
  unfold fix_lines. rewrite flat_map_app. cbn. rewrite (gz_line_fixed l H). reflexivity.
Qed.

Definition lres_eqb (a b : lres) : bool :=
  match a, b with
  | LKeep x, LKeep y => str_eqb x y
  | LDelete, LDelete => true
  | LFuel, LFuel => true
  | _, _ => false
  end.
Definition line_settles (l : str) : bool :=
  match plist_line_fix l with
  | LKeep l' => lres_eqb (plist_line_fix l') (LKeep l')
  | LDelete => true
  | LFuel => false
  end.

Lemma fix_lines_settled ls : forallb line_settles ls = true -> fix_lines (fix_lines ls) = fix_lines ls.
Proof.
  induction ls as [|l r IH]; [reflexivity|]. cbn [forallb]. intros [Hl Hr]%andb_prop.
  unfold line_settles in Hl. rewrite fix_lines_cons.
  destruct (plist_line_fix l) as [l'| |]; [|exact (IH Hr)|discriminate].
  destruct (plist_line_fix l') as [l''| |] eqn:El'; try discriminate. apply str_eqb_spec in Hl. subst l''.
  rewrite fix_lines_cons, El', (IH Hr). reflexivity.
Qed.

Theorem plist_settles_partial ls o :
  forallb line_settles ls = true -> plist_pass ls = POk o -> plist_pass o = POk o.
Proof.
  destruct ls as [|l0 r]; [discriminate|]. intros Hs. rewrite plist_pass_eq.
  destruct (is_cvsid_k IdPlist l0) eqn:E; intros [= <-]; rewrite plist_pass_eq.
  - apply andb_prop in Hs as [_ Hr]. rewrite E, (fix_lines_settled r Hr). reflexivity.
  - rewrite id_suggest_is_id, (fix_lines_settled _ Hs). reflexivity.
Qed.

Definition plist_one_pass_full : Prop :=
  forall ls o, plist_pass ls = POk o -> plist_pass o = POk o.
Definition plist_stacked_gz : list str :=
  [ [64;99;111;109;109;101;110;116;32;36;78;101;116;66;83;68;36];           (* @comment $NetBSD$ *)
    [109;97;110;47;109;97;110;49;47;97;46;49;46;103;122;46;103;122] ].        (* man/man1/a.1.gz.gz *)
Definition plist_pkgmandir_gz : list str :=
  [ [64;99;111;109;109;101;110;116;32;36;78;101;116;66;83;68;36];
    [36;123;80;75;71;77;65;78;68;73;82;125;47;109;97;110;49;47;97;46;49;46;103;122] ].   (* ${PKGMANDIR}/man1/a.1.gz *)
Theorem plist_one_pass_refuted : ~ plist_one_pass_full.
Proof.
  intro H.
  specialize (H plist_stacked_gz
    [ [64;99;111;109;109;101;110;116;32;36;78;101;116;66;83;68;36];
      [109;97;110;47;109;97;110;49;47;97;46;49;46;103;122] ] eq_refl).
  vm_compute in H. discriminate.
Qed.
Lemma plist_guard_needed :
  forallb line_settles plist_stacked_gz = false /\ forallb line_settles plist_pkgmandir_gz = false.
Proof. split; vm_compute; reflexivity. Qed.

Definition plist_measure (ls : list str) : nat := fold_right (fun l n => (length l + 1 + n)%nat) 0%nat ls.

Lemma plist_measure_cons l r : plist_measure (l :: r) = (length l + 1 + plist_measure r)%nat.
Proof. reflexivity. Qed.

Lemma replace_first_length pat rep : forall s,
  replace_first pat rep s = s \/ (length (replace_first pat rep s) + length pat = length s + length rep)%nat.
Proof.
  induction s as [|c t IH].
  - cbn. destruct (strip_prefix pat []) as [r|] eqn:E; [|left; reflexivity].
    apply strip_prefix_some in E. right. rewrite app_length.
    assert (length (@nil N) = length (pat ++ r)) as L by (rewrite <- E; reflexivity).
    rewrite app_length in L. cbn in L. lia.
  - cbn [replace_first]. destruct (strip_prefix pat (c :: t)) as [r|] eqn:E.
    + apply strip_prefix_some in E. right. rewrite E, !app_length. lia.
    + destruct IH as [IH|IH]; [left; rewrite IH; reflexivity|right; cbn [length]; lia].
Qed.

Lemma plist_line_fix_shrinks l l' : plist_line_fix l = LKeep l' -> l' = l \/ (length l' < length l)%nat.
Proof.
  destruct (plist_line_fix_cases l) as [->|[->|[->| ->]]]; intro H; inversion H.
  - left; reflexivity.
  - destruct (replace_first_length pkgmandir_slash man_slash l) as [E|E]; [left; exact E|right].
    change (length pkgmandir_slash) with 13%nat in E. change (length man_slash) with 4%nat in E. lia.
  - unfold drop_last3. destruct l as [|x r]; [left; reflexivity|right].
    rewrite firstn_length. cbn [length]. lia.
Qed.

Lemma fix_lines_shrinks ls : fix_lines ls = ls \/ (plist_measure (fix_lines ls) < plist_measure ls)%nat.
Proof.
  induction ls as [|l r IH]; [left; reflexivity|]. rewrite plist_measure_cons, fix_lines_cons.
  destruct (plist_line_fix l) as [l'| |] eqn:El.
  - rewrite plist_measure_cons.
    destruct IH as [->|Hr], (plist_line_fix_shrinks l l' El) as [->|Hl]; [left; reflexivity|right; lia..].
  - right. destruct IH as [->|Hr]; lia.
  - destruct (plist_line_fix_no_fuel l El).
Qed.

(* the CVS id is there from the second pass on: repeated passes reach a fixed point, for ALL PLISTs *)
Theorem plist_pass_shrinks l0 r o : is_cvsid_k IdPlist l0 = true -> plist_pass (l0 :: r) = POk o ->
  o = l0 :: r \/ (plist_measure o < plist_measure (l0 :: r))%nat.
Proof.
  intros Hid. rewrite plist_pass_eq, Hid. intros [= <-]. rewrite !plist_measure_cons.
  destruct (fix_lines_shrinks r) as [->|H]; [left; reflexivity|right; lia].
Qed.

Lemma flatten_group fl : flatten (group fl) = map snd fl.
Proof.
  induction fl as [|[b l] r IH]; cbn; [reflexivity|].
  destruct b; cbn.
  - unfold flatten in IH. rewrite IH. reflexivity.
  - unfold flatten in *. destruct (group r) as [|[s|p] gs]; cbn in *; rewrite <- IH; reflexivity.
Qed.

Lemma sep_flags_snd : forall ls b, map snd (sep_flags b ls) = ls.
Proof. induction ls as [|l r IH]; intros b; cbn; [reflexivity|]. rewrite IH. reflexivity. Qed.

Lemma insert_below_flatten sel ins : forall gs gs',
  insert_below sel ins gs = Some gs' ->
  exists a b, flatten gs = a ++ b /\ flatten gs' = a ++ ins ++ b.
Proof.
  induction gs as [|s r IH]; intros gs' H; cbn in H; [discriminate|].
  destruct s as [l|p].
  - destruct (insert_below sel ins r) as [r'|] eqn:E; [|discriminate]. inversion H; subst.
    destruct (IH r' eq_refl) as (a & b & H1 & H2).
    exists (l :: a), b. unfold flatten in *. cbn. rewrite H1, H2. split; reflexivity.
  - destruct (sel p).
    + inversion H; subst. exists p, (flatten r). unfold flatten. cbn. rewrite <- app_assoc. split; reflexivity.
    + destruct (insert_below sel ins r) as [r'|] eqn:E; [|discriminate]. inversion H; subst.
      destruct (IH r' eq_refl) as (a & b & H1 & H2).
      exists (p ++ a), b. unfold flatten in *. cbn. rewrite H1, H2, <- !app_assoc. split; reflexivity.
Qed.

(* name: the relative name of the including file *)
Definition name_ok (name : str) : Prop :=
  name <> [] /\ forallb (fun c => negb (is_space_go c)) name = true.

Lemma fields_count_word : forall name, forallb (fun c => negb (is_space_go c)) name = true ->
  fields_count true name = 0.
Proof.
  induction name as [|c r IH]; cbn; [reflexivity|]. intro H. apply andb_prop in H. destruct H as [Hc Hr].
  destruct (is_space_go c); [discriminate|]. rewrite (IH Hr). reflexivity.
Qed.

Lemma expected_is_used_by name : name_ok name -> is_used_by_line (used_by_prefix ++ name) = true.
Proof.
  intros [Hne Hns]. unfold is_used_by_line. apply andb_true_intro. split.
  - unfold has_prefix. destruct (strip_prefix used_by_prefix (used_by_prefix ++ name)) eqn:E; [reflexivity|].
    assert (strip_prefix used_by_prefix (used_by_prefix ++ name) = Some name) by (apply strip_prefix_some; reflexivity).
    congruence.
  - destruct name as [|c r]; [congruence|]. cbn in Hns. apply andb_prop in Hns. destruct Hns as [Hc Hr].
    change (fields_count false (used_by_prefix ++ c :: r)) with
      (1 + (1 + (1 + fields_count false (c :: r)))).
    cbn [fields_count]. destruct (is_space_go c); [discriminate|]. rewrite (fields_count_word r Hr). reflexivity.
Qed.

Lemma expected_not_cvsid name : is_cvsid_k IdMk (used_by_prefix ++ name) = false.
Proof. reflexivity. Qed.

Lemma expected_flag name b r : exists b',
  sep_flags b ((used_by_prefix ++ name) :: r) = (false, used_by_prefix ++ name) :: sep_flags b' r.
Proof. eexists. reflexivity. Qed.

Lemma in_sep_flags name : forall ls b, In (used_by_prefix ++ name) ls ->
  In (false, used_by_prefix ++ name) (sep_flags b ls).
Proof.
  induction ls as [|l r IH]; intros b H; [contradiction|].
  destruct H as [->|H].
  - destruct (expected_flag name b r) as [b' E]. rewrite E. left. reflexivity.
  - cbn [sep_flags]. right. apply IH. exact H.
Qed.

Lemma in_group l : forall fl, In (false, l) fl -> exists p, In (Par p) (group fl) /\ In l p.
Proof.
  induction fl as [|[b x] r IH]; [intros []|]. cbn [group]. intros [[= -> ->]|(p & Hp & Hl)%IH].
  - destruct (group r) as [|[s|p] gs]; eexists; (split; [left; reflexivity|left; reflexivity]).
  - destruct b; [exists p; cbn; auto|].
    destruct (group r) as [|[s|q] gs]; [destruct Hp|exists p; cbn; auto|].
    destruct Hp as [[= ->]|Hp]; [exists (x :: p)|exists p]; cbn; auto.
Qed.

Lemma para_scan_found name : name_ok name -> forall p st,
  ps_found st = true \/ In (used_by_prefix ++ name) p ->
  ps_found (fold_left (para_step (used_by_prefix ++ name)) p st) = true.
Proof.
  intros Hn. induction p as [|l r IH]; intros st H; cbn [fold_left]; [destruct H as [H|[]]; exact H|].
  apply IH. unfold para_step. destruct H as [H|[->|H]]; [left|left|right; exact H].
  - destruct (is_cvsid_k IdMk l); [exact H|]. destruct (is_used_by_line l); cbn; rewrite H; reflexivity.
  - rewrite expected_not_cvsid, (expected_is_used_by name Hn). cbn. rewrite str_eqb_refl. apply orb_true_r.
Qed.

Lemma insert_below_any ins : forall gs, has_par gs = true -> insert_below (fun _ => true) ins gs <> None.
Proof.
  induction gs as [|[l|q] gs IH]; cbn; [discriminate| |discriminate].
  intros H%IH. destruct (insert_below _ ins gs); [discriminate|congruence].
Qed.

Lemma used_by_fixed_when_present name ls : name_ok name -> In (used_by_prefix ++ name) ls ->
  used_by name ls = Some ls.
Proof.
  intros Hn H. unfold used_by. destruct (_ <? 3)%nat; [reflexivity|].
  destruct (in_group _ _ (in_sep_flags name ls true H)) as (p & Hp & Hl).
  assert (Hpar : has_par (group (sep_flags true ls)) = true)
    by (apply existsb_exists; exists (Par p); auto).
  assert (Hf : found_in (used_by_prefix ++ name) (group (sep_flags true ls)) = true).
  { apply existsb_exists. exists (Par p). split; [exact Hp|]. apply para_scan_found; auto. }
  rewrite Hpar, Hf. cbn [negb]. destruct (has_used_para _ _); [reflexivity|].
  pose proof (insert_below_any [] _ Hpar). destruct (insert_below _ [] _); [reflexivity|congruence].
Qed.

Lemma used_by_cases name ls ls' : used_by name ls = Some ls' ->
  ls' = ls \/ exists a b pre, ls = a ++ b /\ ls' = a ++ (pre ++ [used_by_prefix ++ name]) ++ b
                              /\ forallb nl_free pre = true.
Proof.
  intro H. unfold used_by in H.
  destruct (_ <? 3)%nat; [inversion H; left; reflexivity|].
  set (e := used_by_prefix ++ name) in *. set (gs := group (sep_flags true ls)) in *.
  destruct (negb (has_par gs)); [inversion H; left; reflexivity|].
  destruct (found_in e gs).
  { destruct (has_used_para e gs); [inversion H; left; reflexivity|].
    destruct (insert_below (fun _ => true) [] gs); [inversion H; left; reflexivity|discriminate]. }
  assert (Hg : flatten gs = ls) by (unfold gs; rewrite flatten_group; apply sep_flags_snd).
  assert (Hin : forall sel pre gs', forallb nl_free pre = true -> insert_below sel (pre ++ [e]) gs = Some gs' ->
                exists a b pre, ls = a ++ b /\ flatten gs' = a ++ (pre ++ [e]) ++ b /\ forallb nl_free pre = true).
  { intros sel pre gs' Hp E. destruct (insert_below_flatten _ _ _ _ E) as (a & b & H1 & H2).
    exists a, b, pre. rewrite <- Hg. auto. }
  right. destruct (has_used_para e gs).
  - destruct (insert_below (para_is_used e) [e] gs) as [gs'|] eqn:E; [|discriminate].
    inversion H; subst ls'. exact (Hin _ [] _ eq_refl E).
  - destruct (insert_below (fun _ => true) (_ ++ [e]) gs) as [gs'|] eqn:E; [|discriminate].
    inversion H; subst ls'. apply (Hin _ _ _) in E; [exact E|]. destruct (first_para_to_gt1 gs); reflexivity.
Qed.

Theorem used_by_inserts name ls ls' : used_by name ls = Some ls' ->
  ls' = ls \/ In (used_by_prefix ++ name) ls'.
Proof.
  intro H. destruct (used_by_cases name ls ls' H) as [E|(a & b & pre & _ & -> & _)]; [left; exact E|right].
  rewrite !in_app_iff. cbn. auto.
Qed.

Theorem used_by_settles name ls ls' : name_ok name ->
  used_by name ls = Some ls' -> used_by name ls' = Some ls'.
Proof.
  intros Hn H. destruct (used_by_inserts name ls ls' H) as [->|Hin]; [exact H|].
  apply used_by_fixed_when_present; assumption.
Qed.

(* a file without paragraphs (>= 3 lines, all of them separators) is left alone *)
Definition only_separators : list str := [[]; []; []].
Lemma used_by_no_paragraph_example : used_by [120] only_separators = Some only_separators.
Proof. vm_compute. reflexivity. Qed.

(* if the name contains a blank the inserted line is never recognised: the guard name_ok is needed *)
Lemma used_by_name_guard_needed :
  exists ls', used_by [97;32;98] [[35;32;120];[];[120;61;121]] = Some ls' /\ used_by [97;32;98] ls' <> Some ls'.
Proof. eexists. split; [vm_compute; reflexivity|vm_compute; discriminate]. Qed.

Lemma split_nl_app : forall l cur rest, nl_free l = true ->
  split_nl cur (l ++ rest) = split_nl (rev l ++ cur) rest.
Proof.
  induction l as [|c l IH]; intros cur rest H; [reflexivity|].
  cbn in H. apply andb_prop in H. destruct H as [Hc Hl].
  cbn [app split_nl]. destruct (c =? 10); [discriminate|].
  rewrite (IH _ _ Hl). cbn [rev]. rewrite <- app_assoc. reflexivity.
Qed.

Lemma load_line l rest : nl_free l = true ->
  load_file (l ++ 10 :: rest) = (l :: fst (load_file rest), snd (load_file rest)).
Proof.
  intro H. unfold load_file. rewrite (split_nl_app l [] _ H). cbn [split_nl]. rewrite N.eqb_refl.
  rewrite app_nil_r, rev_involutive. destruct (split_nl [] rest); reflexivity.
Qed.

Lemma load_last l : nl_free l = true -> l <> [] -> load_file l = ([l], false).
Proof.
  intros H Hne. unfold load_file. rewrite <- (app_nil_r l) at 1.
  rewrite (split_nl_app l [] [] H), app_nil_r. cbn [split_nl].
  destruct (rev l) eqn:E; [|rewrite <- E, rev_involutive; reflexivity].
  destruct Hne. rewrite <- (rev_involutive l), E. reflexivity.
Qed.

Lemma load_save : forall ls t, forallb nl_free ls = true -> saveable ls t ->
  load_file (save_file ls t) = (ls, match ls with [] => true | _ => t end).
Proof.
  induction ls as [|l r IH]; intros t H Hs; [reflexivity|]. apply andb_prop in H as [Hl Hr].
  destruct r as [|l1 r].
  - cbn [save_file]. destruct t; [rewrite (load_line l [] Hl); reflexivity|].
    destruct Hs as [Hs|Hs]; [discriminate|]. exact (load_last l Hl Hs).
  - change (save_file (l :: l1 :: r) t) with (l ++ 10 :: save_file (l1 :: r) t).
    rewrite (load_line l _ Hl), (IH t Hr Hs). reflexivity.
Qed.

Lemma nl_free_rev cur : nl_free cur = true -> nl_free (rev cur) = true.
Proof.
  unfold nl_free. intro H. rewrite forallb_forall in H. apply forallb_forall.
  intros y Hy. apply H. apply in_rev. exact Hy.
Qed.

Lemma rev_not_nil (x : N) cur : rev (x :: cur) <> [].
Proof. intro E. apply (f_equal (@rev N)) in E. rewrite rev_involutive in E. discriminate. Qed.

Lemma split_nl_nl_free : forall bs cur ls t, nl_free cur = true -> split_nl cur bs = (ls, t) ->
  forallb nl_free ls = true /\ saveable ls t.
Proof.
  induction bs as [|c r IH]; intros cur ls t Hc H; cbn [split_nl] in H.
  - destruct cur as [|x cur].
    + injection H as <- <-. split; [reflexivity|left; reflexivity].
    + injection H as <- <-. split.
      * pose proof (nl_free_rev _ Hc) as Hr. cbn [forallb rev] in *. rewrite Hr. reflexivity.
      * right. cbn [last]. apply (rev_not_nil x cur).
  - destruct (c =? 10) eqn:Ec.
    + destruct (split_nl [] r) as [ls0 t0] eqn:E. injection H as <- <-.
      destruct (IH [] ls0 t0 eq_refl E) as [H1 H2]. split.
      * pose proof (nl_free_rev _ Hc) as Hr. cbn [forallb]. rewrite H1, Hr. reflexivity.
      * destruct H2 as [H2|H2]; [left; exact H2|right].
        destruct ls0 as [|a b]; [exfalso; apply H2; reflexivity|exact H2].
    + apply (IH (c :: cur)); [|exact H]. unfold nl_free in *. cbn [forallb]. rewrite Ec, Hc. reflexivity.
Qed.

Lemma load_nl_free bs ls t : load_file bs = (ls, t) -> forallb nl_free ls = true /\ saveable ls t.
Proof. apply split_nl_nl_free. reflexivity. Qed.

Theorem cvsid_settles_after_reload k bs ls t ls' t' :
  load_file bs = (ls, t) -> check_cvsid k ls = Some ls' -> saveable ls' t' ->
  check_cvsid k (fst (load_file (save_file ls' t'))) = Some (fst (load_file (save_file ls' t'))).
Proof.
  intros Hl Hc Hs. destruct (load_nl_free _ _ _ Hl) as [Hn _].
  assert (Hn' : forallb nl_free ls' = true).
  { destruct ls as [|l0 r]; [discriminate|]. cbn in Hc. destruct (is_cvsid_k k l0); inversion Hc; subst; [exact Hn|].
    change (forallb nl_free (id_suggest k :: l0 :: r)) with (nl_free (id_suggest k) && forallb nl_free (l0 :: r)).
    rewrite Hn, andb_true_r. destruct k; reflexivity. }
  rewrite (load_save ls' t' Hn' Hs). cbn [fst]. exact (check_cvsid_settles k ls ls' Hc).
Qed.

Theorem used_by_settles_after_reload name bs ls t ls' t' : name_ok name -> nl_free name = true ->
  load_file bs = (ls, t) -> used_by name ls = Some ls' -> saveable ls' t' ->
  used_by name (fst (load_file (save_file ls' t'))) = Some (fst (load_file (save_file ls' t'))).
Proof.
  intros Hn Hnl Hl Hu Hs. destruct (load_nl_free _ _ _ Hl) as [Hf _].
  assert (Hf' : forallb nl_free ls' = true).
  { destruct (used_by_cases name ls ls' Hu) as [->|(a & b & pre & -> & -> & Hp)]; [exact Hf|].
    assert (He : nl_free (used_by_prefix ++ name) = true)
      by (unfold nl_free in *; rewrite forallb_app, Hnl; reflexivity).
    rewrite !forallb_app in *. apply andb_prop in Hf as [Ha Hb]. cbn [forallb].
    repeat (apply andb_true_intro; split); assumption || reflexivity. }
  rewrite (load_save ls' t' Hf' Hs). cbn [fst]. exact (used_by_settles name ls ls' Hn Hu).
Qed.
