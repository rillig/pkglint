(* C14: patterns of :M / :N that contain nested references ${NAME}.

   bmake expands the pattern before matching (Spec/BmakeCond.v [expand_pat]), so
   what such a pattern matches depends on the values of the nested variables,
   while pkglint's mayMatchNumber only ever sees the text as written.
   1. The code as it is refuses to rewrite such a condition in simplifyWord,
      simplifyYesNo and simplifyMatch: each of the three gates
      (mkCondModifierPatternLiteral, toLower's shape, the regex on expr.Mod())
      excludes '$'.  The gates are the regenerated byte sets, so widening one of
      them breaks these proofs.
   2. What a sound rewrite of such a condition needs: the promise "no word that
      matches is a number" about the *expanded* pattern, for the environment at
      hand -- proved sufficient for all environments of all nested variables.
   3. A pattern without '$' means the same under every environment. *)
From PV Require Import Lib.Bytes Spec.BmakeCond Model.CondSimp
  Proofs.CondSimpA Proofs.CondSimpB Proofs.CondSimpC Proofs.CondSimpWords.
From Coq Require Import ZifyBool ZifyN ZifyNat.
Open Scope N_scope.

Theorem simplify_word_no_nested cx v mods fe neg rw :
  In rw (simplify_word cx v mods fe neg) ->
  exists c pat, last mods [] = c :: pat /\ no_dollar pat = true.
Proof.
  intros Hin. destruct (simplify_word_inv _ _ _ _ _ _ Hin) as (pat & positive & _ & Hlast & _ & _ & Hlit & _).
  exists (mn positive), pat. split; [exact Hlast|apply lit_pattern_no_dollar, Hlit].
Qed.

Theorem simplify_yesno_no_nested cx v mods fe neg rw :
  In rw (fst (simplify_yesno cx v mods fe neg)) ->
  exists c pat, last mods [] = c :: pat /\ no_dollar pat = true.
Proof.
  intros Hin. destruct (simplify_yesno_inv _ _ _ _ _ _ Hin) as (pat & positive & _ & Hlast & Hlow & _).
  exists (mn positive), pat. split; [exact Hlast|].
  eapply yn_pattern_no_dollar, to_lower_pat_yn, Hlow.
Qed.

Theorem simplify_match_no_nested cx v mods fe neg rw :
  In rw (simplify_match cx v mods fe neg) ->
  exists c pat, last mods [] = c :: pat /\ no_dollar pat = true.
Proof.
  intros Hin. destruct (simplify_match_inv _ _ _ _ _ _ Hin) as (pat & Hne & Hlast & _ & _ & _ & Hsimple & _).
  exists 77, pat. split; [exact Hlast|exact (simple_mod_text_last mods pat Hne Hlast Hsimple)].
Qed.

Theorem simplify_expr_no_nested cx line v mods fe neg rw :
  In rw (simplify_expr cx line v mods fe neg) ->
  exists c pat, last mods [] = c :: pat /\ no_dollar pat = true.
Proof.
  unfold simplify_expr.
  destruct (negb fe && negb (Nat.eqb (count_str (34 :: expr_text v mods ++ [34]) line) 0)); [contradiction|].
  destruct (simplify_yesno cx v mods fe neg) as [r1 done] eqn:Ey.
  assert (Hy : In rw r1 -> exists c pat, last mods [] = c :: pat /\ no_dollar pat = true).
  { intros H. apply (simplify_yesno_no_nested cx v mods fe neg rw). rewrite Ey. exact H. }
  destruct done; [exact Hy|].
  intros H. apply in_app_or in H as [H|H]; [exact (Hy H)|].
  apply in_app_or in H as [H|H]; [exact (simplify_match_no_nested _ _ _ _ _ _ H)|].
  destruct (is_list (cx_var cx v)); try contradiction.
  exact (simplify_word_no_nested _ _ _ _ _ _ H).
Qed.

(* the contrapositive, the way the property reads it: a condition whose last
   modifier has a '$' in its pattern is left alone *)
Corollary nested_pattern_not_rewritten cx line v mods fe neg c pat :
  last mods [] = c :: pat -> no_dollar pat = false ->
  simplify_expr cx line v mods fe neg = [].
Proof.
  intros Hl Hnd. destruct (simplify_expr cx line v mods fe neg) as [|rw rest] eqn:E; [reflexivity|].
  exfalso. destruct (simplify_expr_no_nested cx line v mods fe neg rw) as (c' & pat' & Hl' & Hnd').
  { rewrite E. left. reflexivity. }
  unfold str in *. rewrite Hl in Hl'. injection Hl' as _ <-. congruence.
Qed.

(* !empty(V:Mpat) <-> ${V:Mpat}, [pat] with nested references: equivalent in
   every environment in which the pattern, as expanded THERE, matches no number *)
Theorem nested_match_equivalent e v pms pat q (neg : bool) d s :
  eval_expr e v pms = Some (d, s) -> e v <> None -> clean s ->
  expand_pat e pat = Some q ->
  (forall w, w <> [] -> wordlike w -> str_match w q = true -> try_parse_number w = None) ->
  equivalent e
    (if neg then CNot (CEmpty v (pms ++ [ModM pat])) else CEmpty v (pms ++ [ModM pat]))
    (if neg then CLeaf (LExpr v (pms ++ [ModM pat])) else CNot (CLeaf (LExpr v (pms ++ [ModM pat])))).
Proof.
  intros Hev Hv Hcl Hq Hnum.
  destruct (match_result_bare q s Hcl Hnum) as [Hhead Hbare].
  apply (match_tree_equivalent e v (pms ++ [ModM pat]) neg false d _ (eval_expr_M _ _ _ _ _ _ _ Hev Hq)); auto.
  rewrite (eval_expr_defined _ _ _ _ _ Hv Hev). discriminate.
Qed.

(* with the added  != ""  it needs nothing about numbers at all *)
Theorem nested_match_equivalent_cmp e v pms pat q (neg : bool) d s :
  eval_expr e v pms = Some (d, s) -> e v <> None -> clean s ->
  expand_pat e pat = Some q ->
  equivalent e
    (if neg then CNot (CEmpty v (pms ++ [ModM pat])) else CEmpty v (pms ++ [ModM pat]))
    (let inner := CCmp (LExpr v (pms ++ [ModM pat])) false (LQuoted []) in
     if neg then inner else CNot inner).
Proof.
  intros Hev Hv Hcl Hq.
  apply (match_tree_equivalent e v (pms ++ [ModM pat]) neg true d _ (eval_expr_M _ _ _ _ _ _ _ Hev Hq)).
  - rewrite (eval_expr_defined _ _ _ _ _ Hv Hev). discriminate.
  - apply (match_result_head (fun w => str_match w q) s Hcl).
  - discriminate.
Qed.

(* the promise about the text as written is not enough: ${L}* matches no number
   as a literal text, yet with L = 0, V = 0 the two conditions differ *)
Definition ex_V : str := [86].
Definition ex_L : str := [76].
Definition ex_nested_pat : str := [36; 123; 76; 125; 42].       (* ${L}* *)
Definition ex_env : env := env_of [(ex_V, Some [48]); (ex_L, Some [48])].
Definition ex_from_text : str := [33; 101; 109; 112; 116; 121; 40; 86; 58; 77; 36; 123; 76; 125; 42; 41]. (* !empty(V:M${L}* ) *)
Definition ex_to_text : str := [36; 123; 86; 58; 77; 36; 123; 76; 125; 42; 125].                    (* ${V:M${L}*} *)

Example nested_needs_expanded_promise :
  parse_cond ex_from_text = Some (CNot (CEmpty ex_V [ModM ex_nested_pat])) /\
  parse_cond ex_to_text = Some (CLeaf (LExpr ex_V [ModM ex_nested_pat])) /\
  eval ex_env (CNot (CEmpty ex_V [ModM ex_nested_pat])) = Some TTrue /\
  eval ex_env (CLeaf (LExpr ex_V [ModM ex_nested_pat])) = Some TFalse /\
  (* as a text, the pattern starts with '$': no number matches it *)
  (forall w, str_match w ex_nested_pat = true -> exists r, w = 36 :: r).
Proof.
  repeat split; try (vm_compute; reflexivity).
  intros w. unfold str_match, ex_nested_pat. destruct w as [|c w]; [vm_compute; discriminate|].
  cbn [length plus sm]. replace (36 =? 42) with false by reflexivity.
  replace (36 =? 63) with false by reflexivity. replace (36 =? 91) with false by reflexivity.
  replace (36 =? 92) with false by reflexivity.
  destruct (N.eqb_spec c 36) as [->|]; [intros _; eexists; reflexivity|discriminate].
Qed.

(* a nested variable that is undefined contributes nothing; glob bytes in its value are glob bytes *)
Example nested_expansion_examples :
  expand_pat (env_of []) ex_nested_pat = Some [42] /\
  expand_pat (env_of [(ex_L, Some [91; 48; 45; 57; 93])]) ex_nested_pat = Some [91; 48; 45; 57; 93; 42] /\
  expand_pat (env_of [(ex_L, Some [])]) ex_nested_pat = Some [42] /\
  expand_pat ex_env [36; 36] = None /\ expand_pat ex_env [36; 123; 76; 58; 116; 108; 125] = None.
Proof. vm_compute. repeat split; reflexivity. Qed.

Theorem literal_pattern_env_independent p : no_dollar p = true -> forall e, expand_pat e p = Some p.
Proof. intros H e. apply expand_pat_literal. exact H. Qed.

Lemma expand_parts_ext e1 e2 ps :
  (forall v, In (PPRef v) ps -> e1 v = e2 v) -> expand_parts e1 ps = expand_parts e2 ps.
Proof.
  induction ps as [|[c|v] ps IH]; intros H; [reflexivity| |]; cbn [expand_parts].
  - rewrite IH; [reflexivity|]. intros x Hx. apply H. right. exact Hx.
  - unfold nested_value. rewrite (H v) by (left; reflexivity).
    rewrite IH; [reflexivity|]. intros x Hx. apply H. right. exact Hx.
Qed.

Theorem expand_pat_ext e1 e2 p ps :
  parse_pat (S (length p)) p = Some ps ->
  (forall v, In (PPRef v) ps -> e1 v = e2 v) -> expand_pat e1 p = expand_pat e2 p.
Proof.
  intros Hp H. unfold expand_pat. rewrite Hp. cbn [option_map]. rewrite (expand_parts_ext e1 e2 ps H). reflexivity.
Qed.
