(* matchVarassign on logical lines made of several raw lines (Model/MatchVarassign.v), over the
   stages of Proofs/Varassign.v: relation to the one-raw-line model, the operator-position
   guard, the alignment prefix, and why the guard keeps getRawValueAlign(raw[0], ...) from asserting. *)
From Coq Require Import List Lia ZArith NArith Bool.
From PV Require Import Lib.Bytes Model.MkLexPrim Model.MkTokensLexer
  Model.MkLineSplit Model.MatchVarassign Proofs.MkLineSplit Proofs.Varassign Proofs.MkLexPrim Proofs.RawAlignWalk.
From Coq Require Import ZifyBool ZifyN ZifyNat.
From PV Require Model.Lines Proofs.LinesLoop.
Import ListNotations.
Open Scope N_scope.

Lemma ml_tail_single c text sr : match_varassign_tail_ml false text text c sr = match_varassign_tail c text sr.
Proof. reflexivity. Qed.

Lemma ml_single text : parse_varassign_ml false text text = parse_varassign text.
Proof. reflexivity. Qed.

(* an accepted multi-line assignment has its operator in the first raw line *)
Lemma varassign_ml_guard raw0 text a :
  parse_varassign_ml true raw0 text = Ok (Some a) ->
  exists up_to_op r, text = up_to_op ++ r /\ (length up_to_op <= length (first_line_of raw0))%nat.
Proof.
  intro H. destruct (parse_varassign_ml_accept _ _ _ _ H) as (c & T & sr & Hs & _ & Hm & _).
  destruct (match_varassign_tail_accept _ _ _ _ _ _ _ Hs Hm)
    as (v & m1 & m3 & A & v' & sav & op & al & r & _ & _ & _ & _ & _ & _ & Hg).
  auto.
Qed.

Lemma varassign_ml_align_prefix ml raw0 text a :
  parse_varassign_ml ml raw0 text = Ok (Some a) ->
  exists al r sp, raw0 = al ++ r /\ va_value_align a = al ++ sp /\ forallb is_hspace sp = true /\ (va_value a <> [] -> sp = []).
Proof.
  intro H. destruct (parse_varassign_ml_accept _ _ _ _ H) as (c & T & sr & Hs & _ & Hm & _).
  destruct (match_varassign_tail_accept _ _ _ _ _ _ _ Hs Hm)
    as (v & m1 & m3 & A & v' & sav & op & al & r & _ & _ & _ & _ & Hr & -> & _).
  destruct (split_recombines _ _ _ Hs) as (pre & _ & _ & B3 & _).
  exists al, r. cbv zeta. destruct (ltrim_hspace m3); cbn [va_value_align va_value].
  - exists (sr_space_before_comment sr). repeat split; auto. intro K; contradiction.
  - exists []. rewrite app_nil_r. repeat split; auto.
Qed.

Lemma ends_nh_snoc X c : is_hspace c = false -> ends_nh (X ++ [c]).
Proof.
  intro Hc. split; [|destruct X; discriminate].
  rewrite rtrim_app. cbn [rtrim_hspace]. rewrite Hc. reflexivity.
Qed.

Lemma trim_suffix_app A suf : MkTokensLexer.trim_suffix (A ++ suf) suf = A.
Proof.
  unfold MkTokensLexer.trim_suffix, has_suffix. rewrite app_length.
  replace (length A + length suf - length suf)%nat with (length A) by lia.
  rewrite skipn_app, skipn_all, Nat.sub_diag. cbn [skipn app]. rewrite str_eqb_refl.
  replace (length suf <=? length A + length suf)%nat with true by (symmetry; apply Nat.leb_le; lia).
  cbn [andb]. rewrite firstn_app, firstn_all, Nat.sub_diag. cbn [firstn]. apply app_nil_r.
Qed.

Lemma tl_since_app (mark m : tlexer) A : tl_rest mark = A ++ tl_rest m -> tl_since mark m = A.
Proof. intro H. unfold tl_since. rewrite H. apply trim_suffix_app. Qed.

Lemma ml_tail_no_panic raw0 (c : bool) text sr r F x y :
  text = F ++ x -> raw0 = F ++ y -> first_line_of raw0 = F ->
  match_varassign_tail c text sr = Ok r ->
  match_varassign_tail_ml true raw0 text c sr <> Panic.
Proof.
  intros Htext Hraw HF H. rewrite match_varassign_tail_stages in H. rewrite match_varassign_tail_ml_stages.
  pose proof (va_scan_post c (sr_main sr)) as P.
  destruct (va_scan c (sr_main sr)) as [[[[[[lexer0 vname] sav] op0] lexer5]|]| |];
    cbn [bind] in *; try discriminate.
  destruct P as (m1 & A & H0 & HA & _).
  unfold va_guard, va_finish in *.
  set (A5 := A ++ [61]). (* 61 is "=" *)
  assert (H5 : tl_rest lexer0 = A5 ++ tl_rest lexer5)
    by (rewrite H0, HA; unfold A5; rewrite <- app_assoc; reflexivity).
  rewrite (tl_since_app _ _ _ H5).
  set (hs := fst (next_bytes is_hspace (fst lexer5))).
  assert (Hhs : forallb is_hspace hs = true) by (apply span_all).
  assert (H6 : tl_rest lexer0 = (A5 ++ hs) ++ tl_rest (tl_lift (fun s => snd (next_bytes is_hspace s)) lexer5))
    by (rewrite H5; unfold tl_rest, tl_lift; cbn [fst snd];
        rewrite <- (next_bytes_app is_hspace (fst lexer5)) at 1; fold hs; rewrite <- !app_assoc; reflexivity).
  rewrite (tl_since_app _ _ _ H6) in *.
  match type of H with (let '(_, _) := ?b in _) = _ => destruct b as [vname' op] end.
  set (pref := if c then [35] else []) in *.
  assert (Hp5 : ends_nh (pref ++ A5)) by (unfold A5; rewrite app_assoc; apply ends_nh_snoc; reflexivity).
  destruct (get_raw_value_align text (pref ++ A5 ++ hs)) as [al6| |] eqn:G6; cbn [bind] in H; try discriminate.
  unfold get_raw_value_align in G6.
  destruct (raw_value_align_loop (S (length (pref ++ A5 ++ hs))) text (pref ++ A5 ++ hs)) as [r6| |] eqn:L6;
    cbn [bind] in G6; try discriminate.
  rewrite app_assoc in L6.
  destruct (loop_prefix _ (S (length (pref ++ A5))) _ _ _ _ (proj1 Hp5) L6 ltac:(lia)) as (rT & LT).
  unfold get_raw_value_align at 1; rewrite LT; cbn [bind].
  destruct (length (first_line_of raw0) <? length (since text rT))%nat eqn:Lt; [discriminate|].
  apply Nat.ltb_ge in Lt.
  assert (Hx : (length x <= length rT)%nat)
    by (pose proof (is_suffix_length _ _ (proj1 (loop_suffix _ _ _ _ LT))) as Sl;
        unfold since in Lt; rewrite firstn_length in Lt; rewrite HF in Lt; subst text; rewrite app_length in *; lia).
  assert (HFr : rtrim_hspace F = F) by (rewrite <- HF; unfold first_line_of; apply rtrim_idem).
  subst text raw0.
  destruct (loop_common_prefix _ (S (length ((pref ++ A5) ++ hs))) (pref ++ A5) hs F x y rT (proj1 Hp5) Hhs HFr LT Hx
         ltac:(lia)) as (r' & Lr).
  unfold get_raw_value_align; rewrite (app_assoc pref A5 hs), Lr; cbn [bind].
  match goal with |- context [trim_hspace ?z] => destruct (trim_hspace z) end; discriminate.
Qed.

(* one raw line (raw0 = text), or several with the shape convertToLogicalLines gives them *)
Definition ml_shape (ml : bool) (raw0 text : str) : Prop :=
  if ml then exists x y, text = first_line_of raw0 ++ x /\ raw0 = first_line_of raw0 ++ y
  else raw0 = text.

Lemma varassign_ml_no_panic ml raw0 text r :
  ml_shape ml raw0 text ->
  parse_varassign text = Ok r -> parse_varassign_ml ml raw0 text <> Panic.
Proof.
  destruct ml; cbn [ml_shape].
  - intros (x & y & Ht & Hr). rewrite <- ml_single.
    destruct (parse_varassign_ml_front text) as [E|[E|(c & T & sr & _ & _ & _ & E)]]; rewrite !E; try discriminate.
    eapply ml_tail_no_panic; eauto.
  - intros -> H. rewrite ml_single, H. discriminate.
Qed.

Definition line_multiline (l : Lines.line) : bool :=
  match Lines.raws l with _ :: _ :: _ => true | _ => false end.
Definition line_raw0 (l : Lines.line) : str :=
  match Lines.raws l with r0 :: _ => Lines.orig r0 | [] => [] end.

Lemma varassign_of_file_lines raw_text ls :
  varassign_of_file raw_text = Ok ls ->
  Forall (fun lr : Lines.line * res (option varassign) =>
    forall a, snd lr = Ok (Some a) ->
      va_law (Lines.text (fst lr)) a /\
      (line_multiline (fst lr) = true ->
       exists up_to_op r, Lines.text (fst lr) = up_to_op ++ r /\
         (length up_to_op <= length (first_line_of (line_raw0 (fst lr))))%nat)) ls.
Proof.
  unfold varassign_of_file.
  destruct (Lines.convert_to_logical_lines raw_text true) as [[lines w]| |]; cbn [lift_lines_res bind]; try discriminate.
  intro H. inversion H; subst ls. clear H.
  apply Forall_forall. intros lr Hin. apply in_map_iff in Hin as (l & <- & _). cbn [fst snd].
  intros a Ha. unfold varassign_of_line in Ha. unfold line_multiline, line_raw0.
  destruct (Lines.raws l) as [|r0 more]; [discriminate|].
  split; [eapply varassign_ml_value_comment_recombine; exact Ha|].
  destruct more as [|r1 more]; [discriminate|]. intros _.
  eapply varassign_ml_guard; exact Ha.
Qed.

(* every line that convertToLogicalLines builds has at least one raw line (C09): line.raw[0] exists *)
Lemma grouped_raws_nonempty k rs ls : LinesLoop.grouped k rs ls -> Forall (fun l => Lines.raws l <> []) ls.
Proof.
  induction 1; constructor; [|assumption].
  match goal with Hr : Lines.raws _ = _ |- _ => rewrite Hr end.
  eapply LinesLoop.group_ok_nonempty; eassumption.
Qed.

Lemma convert_raws_nonempty raw_text ls w :
  Lines.convert_to_logical_lines raw_text true = Lines.Ok (ls, w) -> Forall (fun l => Lines.raws l <> []) ls.
Proof.
  unfold Lines.convert_to_logical_lines.
  set (rl := filter _ _).
  destruct (LinesLoop.mk_loop_spec rl (length rl) 0 []) as (ls' & E & G);
    [change (N.to_nat 0) with 0%nat; apply Nat.le_0_l|change (N.to_nat 0) with 0%nat; rewrite Nat.sub_0_r; apply le_n|].
  rewrite E. cbn [app]. intro H.
  assert (ls = ls').
  { destruct (negb (Lines.is_empty raw_text) && negb (Lines.has_suffix [Lines.nl] raw_text));
      [destruct ls'; [discriminate|inversion H; reflexivity]|inversion H; reflexivity]. }
  subst. eapply grouped_raws_nonempty; eassumption.
Qed.

(* FULL statement over files (neither proved nor refuted here: it needs, from C09, that the first
   physical line without backslash and trailing blanks starts the logical text - corresponded) *)
Definition ml_no_panic_full : Prop :=
  forall raw_text ls, varassign_of_file raw_text = Ok ls ->
    Forall (fun lr : Lines.line * res (option varassign) =>
      (exists r, parse_varassign (Lines.text (fst lr)) = Ok r) -> snd lr <> Panic) ls.

(* PARTIAL: the same with the shape of the line spelled out *)
Lemma ml_no_panic_lines raw_text ls : varassign_of_file raw_text = Ok ls ->
    Forall (fun lr : Lines.line * res (option varassign) =>
      ml_shape (line_multiline (fst lr)) (line_raw0 (fst lr)) (Lines.text (fst lr)) ->
      (exists r, parse_varassign (Lines.text (fst lr)) = Ok r) -> snd lr <> Panic) ls.
Proof.
  unfold varassign_of_file.
  destruct (Lines.convert_to_logical_lines raw_text true) as [[lines w]| |] eqn:E; cbn [lift_lines_res bind]; try discriminate.
  intro H. inversion H; subst ls. clear H.
  pose proof (convert_raws_nonempty _ _ _ E) as NE. rewrite Forall_forall in NE.
  apply Forall_forall. intros lr Hin. apply in_map_iff in Hin as (l & <- & Hl). cbn [fst snd].
  unfold line_multiline, line_raw0, varassign_of_line. specialize (NE l Hl).
  destruct (Lines.raws l) as [|r0 more]; [congruence|].
  intros Hs (r & Hr). destruct more as [|r1 more]; eapply varassign_ml_no_panic; eauto.
Qed.

(* VAR.${PARAM:S,=,,}\  /  = value: the `=` of the expression stands in the first raw line, the
   operator in the second (a guard that only looks for a `=` in raw[0] lets getRawValueAlign assert here) *)
Definition ml_witness_file : str :=
  [86;65;82;46;36;123;80;65;82;65;77;58;83;44;61;44;44;125;92;10;61;32;118;97;108;117;101;10].
Definition ml_witness_raw0 : str := [86;65;82;46;36;123;80;65;82;65;77;58;83;44;61;44;44;125;92].
Definition ml_witness_text : str := [86;65;82;46;36;123;80;65;82;65;77;58;83;44;61;44;44;125;32;61;32;118;97;108;117;101].

(* the operator is in the continuation line: not an assignment, no panic *)
Lemma ml_witness_lines :
  varassign_of_file ml_witness_file =
    Ok [(Lines.mk_line 1 ml_witness_text [ml_witness_raw0 ++ [10]; [61;32;118;97;108;117;101;10]], Ok None)].
Proof. vm_compute. reflexivity. Qed.
