(* C05/C02: entries of the tree that do not belong to the run -- in particular a
   pre-existing F.pkglint.tmp of any kind -- are never touched: at no crash point, under
   no single failing system call; and no temporary file created by the run is left. *)
From PV Require Import Lib.Bytes Model.FsProto Spec.CrashSpec Proofs.FsProto Proofs.FsProtoFault.
Open Scope N_scope.

Lemma paths_cons a prog p :
  (In p (saved_paths (a :: prog)) <-> In p (saved_paths [a]) \/ In p (saved_paths prog)) /\
  (In p (chmod_paths (a :: prog)) <-> In p (chmod_paths [a]) \/ In p (chmod_paths prog)) /\
  (In p (run_tmps (a :: prog)) <-> In p (run_tmps [a]) \/ In p (run_tmps prog)).
Proof. unfold run_tmps. destruct a; cbn [saved_paths chmod_paths map In]; tauto. Qed.

Definition frame_crash (prog : list action) (s s' : state) : Prop :=
  foreign_untouched_crash prog (st_fs s) (st_fs s').

Lemma frame_crash_composes : composes frame_crash.
Proof.
  split; [intros prog s p _ _; reflexivity|].
  intros a prog s s1 s2 H1 H2 p [Hs Hm] Hd. destruct (paths_cons a prog p) as (Es & Em & Et).
  assert (E : lookup p (st_fs s1) = lookup p (st_fs s)) by (apply H1; [split|]; tauto).
  rewrite <- E. apply H2; [split; tauto|]. rewrite E. tauto.
Qed.

Lemma save_crash_frame s f new b t :
  crash_of (save_ops s f new) t ->
  frame_crash [ASave f new] s (exec t s) /\ frame_crash [AIfSaved b f new] s (exec t s).
Proof.
  intro Hc.
  assert (H : forall p, ~ In p [f] -> lookup p (st_fs s) <> None \/ ~ In p [tmp_name f] ->
            lookup p (st_fs (exec t s)) = lookup p (st_fs s)).
  { intros p Hpf Hd. destruct (save_crash s f new t Hc) as [H|[_ H]]; apply H; cbn [In] in *.
    - destruct Hd as [Hd|Hd]; [left; exact Hd|right; intro E; apply Hd; left; congruence].
    - intro E. apply Hpf. left. congruence. }
  split; intros p [Hs _] Hd; apply (H p Hs Hd).
Qed.

Lemma crash_foreign prog saved s t :
  crash_of (prog_ops_from saved s prog) t -> frame_crash prog s (exec t s).
Proof.
  apply (crash_prog_ind frame_crash frame_crash_composes save_crash_frame).
  intros s0 f m p [_ Hm] _. apply lookup_step_chmod_neq. intro E. apply Hm. left. congruence.
Qed.

Definition frame (prog : list action) (s s' : state) : Prop :=
  forall p, ~ In p (saved_paths prog) ->
    (~ In p (chmod_paths prog) \/ lookup p (st_fs s) = None) ->
    lookup p (st_fs s') = lookup p (st_fs s).

Lemma frame_composes : composes frame.
Proof.
  split; [intros prog s p _ _; reflexivity|].
  intros a prog s s1 s2 H1 H2 p Hs Hd. destruct (paths_cons a prog p) as (Es & Em & _).
  assert (E : lookup p (st_fs s1) = lookup p (st_fs s)) by (apply H1; tauto).
  rewrite <- E. apply H2; [tauto|]. rewrite E. tauto.
Qed.

Lemma save_one_frame w f new p :
  p <> f -> lookup p (st_fs (w_st (save_one f new w))) = lookup p (st_fs (w_st w)).
Proof.
  intro Hpf. destruct (save_one_st f new w) as [->|H]; [apply save_full_frame; exact Hpf|apply H].
Qed.

Lemma chmod_fix_frame w f mode p :
  p <> f \/ lookup p (st_fs (w_st w)) = None ->
  lookup p (st_fs (w_st (chmod_fix f mode w))) = lookup p (st_fs (w_st w)).
Proof.
  intro H. destruct (chmod_fix_st f mode w) as [->| ->]; [|reflexivity].
  destruct (path_dec p f) as [->|Hpf]; [|apply lookup_step_chmod_neq; exact Hpf].
  destruct H as [H|H]; [contradiction|]. rewrite H. apply lookup_step_chmod_none. exact H.
Qed.

Lemma run_action_frame a w : frame [a] (w_st w) (w_st (run_action w a)).
Proof.
  intros p Hs Hd. destruct a as [f new|f m|b f new]; cbn [run_action saved_paths chmod_paths In] in *.
  - apply save_one_frame. intro E. apply Hs. left. congruence.
  - apply chmod_fix_frame. destruct Hd as [Hd|Hd]; [left; intro E; apply Hd; left; congruence|right; exact Hd].
  - destruct (Bool.eqb (w_saved w) b); [|reflexivity].
    apply save_one_frame. intro E. apply Hs. left. congruence.
Qed.

Lemma run_frame prog w : frame prog (w_st w) (w_st (run prog w)).
Proof. apply (run_ind frame frame_composes run_action_frame). Qed.

(* a name that is free and is not itself saved stays free: nothing the run creates is left *)
Theorem no_created_tmp_left : forall (s : state) (prog : list action) (plan : option (nat * fault)) (f : path),
  ~ In (tmp_name f) (saved_paths prog) ->
  lookup (tmp_name f) (st_fs s) = None ->
  lookup (tmp_name f) (st_fs (w_st (run prog (init_world s plan)))) = None.
Proof.
  intros s prog plan f Hs Hn. rewrite <- Hn.
  apply (run_frame prog (init_world s plan) _ Hs). right. exact Hn.
Qed.

(* a taken temporary name: the save is refused, whatever the plan *)
Theorem taken_tmp_refused : forall (f : path) (new : str) (w : world) (e : file),
  lookup (tmp_name f) (st_fs (w_st w)) = Some e ->
  let w' := save_one f new w in
  w_st w' = w_st w /\ w_stderr w' = w_stderr w ++ [(CannotWrite, tmp_name f)] /\ w_saved w' = false.
Proof.
  intros f new w e He. unfold save_one. rewrite sys_unfold. wproj.
  destruct (hits (w_plan w) (w_count w)) as [fl|]; [wproj; auto|].
  rewrite (step_openexcl_taken _ _ e He). cbn [snd]. wproj. rewrite (step_openexcl_taken _ _ e He). auto.
Qed.

Lemma kind_eqb_eq a b : kind_eqb a b = true -> a = b.
Proof. destruct a, b; simpl; intro H; try discriminate; reflexivity. Qed.

Lemma entry_eqb_eq a b : entry_eqb a b = true -> a = b.
Proof.
  destruct a as [[k1 d1 m1]|], b as [[k2 d2 m2]|]; simpl; intro H; try discriminate; [|reflexivity].
  apply andb_prop in H. destruct H as [H H3]. apply andb_prop in H. destruct H as [H1 H2].
  apply kind_eqb_eq in H1. apply str_eqb_spec in H2. apply N.eqb_eq in H3. subst. reflexivity.
Qed.

Lemma existsb_str_in p l : existsb (str_eqb p) l = false -> ~ In p l.
Proof. rewrite <- existsb_str_iff. intros ->. discriminate. Qed.

Lemma in_existsb_str p l : In p l -> existsb (str_eqb p) l = true.
Proof. apply existsb_str_iff. Qed.

Lemma is_foreignb_true prog p : foreign prog p -> is_foreignb prog p = true.
Proof.
  intros [Hs Hm]. rewrite <- existsb_str_iff in Hs, Hm. unfold is_foreignb.
  apply Bool.not_true_is_false in Hs, Hm. rewrite Hs, Hm. reflexivity.
Qed.

Lemma foreign_bad_in_none entries complete init prog cur :
  foreign_bad_in entries complete init prog cur = None ->
  forall p g, In (p, g) entries -> foreign prog p ->
    (complete = true \/ lookup p init <> None \/ ~ In p (run_tmps prog)) ->
    lookup p cur = lookup p init.
Proof.
  induction entries as [|[q h] entries IH]; intros H p g Hin Hf Hd; [destruct Hin|].
  cbn [foreign_bad_in] in H.
  destruct (negb (is_foreignb prog q) || entry_eqb (lookup q cur) (lookup q init)
            || (negb complete && existsb (str_eqb q) (run_tmps prog)
                && match lookup q init with None => true | Some _ => false end)) eqn:Eok; [|discriminate].
  destruct Hin as [Heq|Hin]; [|apply (IH H p g Hin Hf Hd)].
  inversion Heq; subst q h. rewrite (is_foreignb_true prog p Hf) in Eok. cbn [negb orb] in Eok.
  apply Bool.orb_true_iff in Eok. destruct Eok as [E|E]; [apply entry_eqb_eq; exact E|].
  exfalso. apply andb_prop in E. destruct E as [E E3]. apply andb_prop in E. destruct E as [E1 E2].
  destruct Hd as [Hc|[Hi|Ht]].
  - subst complete. discriminate.
  - destruct (lookup p init); [discriminate|]. apply Hi. reflexivity.
  - apply Ht, existsb_str_iff, E2.
Qed.

Theorem foreign_bad_sound : forall complete init prog cur,
  foreign_bad complete init prog cur = None ->
  forall p, foreign prog p ->
    (complete = true \/ lookup p init <> None \/ ~ In p (run_tmps prog)) ->
    lookup p cur = lookup p init.
Proof.
  intros complete init prog cur H p Hf Hd. unfold foreign_bad in H.
  destruct (foreign_bad_in init complete init prog cur) eqn:E1; [discriminate|].
  apply (both_trees (fun p => foreign prog p /\
           (complete = true \/ lookup p init <> None \/ ~ In p (run_tmps prog))) init cur); [|auto].
  intros q g [Hg|Hg] [Hf' Hd'].
  - apply (foreign_bad_in_none init complete init prog cur E1 q g Hg Hf' Hd').
  - apply (foreign_bad_in_none cur complete init prog cur H q g Hg Hf' Hd').
Qed.
