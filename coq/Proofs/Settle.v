(* C16: a generic settling theorem and its instances for the fixer models of
   Model/Settle.v. *)
From PV Require Import Lib.Bytes Model.Settle.
Open Scope N_scope.

Section Settling.
  Variable T : Type.
  Record fixer := { fx_run : T -> T; fx_post : T -> Prop }.
  Definition sound (f : fixer) : Prop :=
    (forall x, fx_post f (fx_run f x)) /\ (forall x, fx_post f x -> fx_run f x = x).
  Definition preserves (g f : fixer) : Prop := forall x, fx_post f x -> fx_post f (fx_run g x).
  Definition pass (fs : list fixer) (x : T) : T := fold_left (fun x f => fx_run f x) fs x.

  Fixpoint triangular (done fs : list fixer) : Prop :=
    match fs with
    | [] => True
    | f :: r => Forall (fun d => preserves f d) done /\ triangular (done ++ [f]) r
    end.

  Lemma pass_posts : forall fs done x,
    Forall sound fs -> triangular done fs -> Forall (fun d => fx_post d x) done ->
    Forall (fun d => fx_post d (pass fs x)) (done ++ fs).
  Proof.
    induction fs as [|f r IH]; intros done x Hs Ht Hd; cbn.
    - rewrite app_nil_r. exact Hd.
    - inversion Hs as [|? ? [Hest _] Hs']; subst. destruct Ht as [Hp Ht].
      replace (done ++ f :: r) with ((done ++ [f]) ++ r) by (rewrite <- app_assoc; reflexivity).
      apply IH; [exact Hs'|exact Ht|].
      apply Forall_app. split; [|constructor; [apply Hest|constructor]].
      rewrite Forall_forall in *. intros d Hin. apply (Hp d Hin). apply Hd. exact Hin.
  Qed.

  Lemma pass_fixed : forall fs x, Forall sound fs -> Forall (fun f => fx_post f x) fs -> pass fs x = x.
  Proof.
    induction fs as [|f r IH]; intros x Hs Hp; cbn; [reflexivity|].
    inversion Hs as [|? ? [_ Hid] Hs']; inversion Hp; subst.
    rewrite (Hid x); auto.
  Qed.

  Theorem settling_composition_ordered fs :
    Forall sound fs -> triangular [] fs ->
    forall x, Forall (fun f => fx_post f (pass fs x)) fs
              /\ (forall f, In f fs -> fx_run f (pass fs x) = pass fs x)
              /\ pass fs (pass fs x) = pass fs x.
  Proof.
    intros Hs Ht x.
    assert (Hp : Forall (fun f => fx_post f (pass fs x)) fs)
      by (apply (pass_posts fs [] x Hs Ht); constructor).
    split; [exact Hp|]. split.
    - intros f Hin. rewrite Forall_forall in Hs, Hp. destruct (Hs f Hin) as [_ Hid]. apply Hid, Hp, Hin.
    - apply pass_fixed; assumption.
  Qed.

  Lemma pairwise_triangular : forall fs done,
    (forall f g, In f (done ++ fs) -> In g (done ++ fs) -> preserves g f) -> triangular done fs.
  Proof.
    induction fs as [|f r IH]; intros done H; cbn; [exact I|]. split.
    - rewrite Forall_forall. intros d Hd. apply H; apply in_or_app; [left; exact Hd|right; left; reflexivity].
    - apply IH. intros a b Ha Hb. rewrite <- app_assoc in Ha, Hb. apply H; assumption.
  Qed.

  (* ONE pass, in any order, reaches a fixed point of every fixer *)
  Theorem settling_composition fs :
    Forall sound fs -> (forall f g, In f fs -> In g fs -> preserves g f) ->
    forall x, (forall f, In f fs -> fx_run f (pass fs x) = pass fs x)
              /\ pass fs (pass fs x) = pass fs x.
  Proof.
    intros Hs Hp x. apply settling_composition_ordered; [exact Hs|].
    apply pairwise_triangular. exact Hp.
  Qed.
End Settling.
Arguments fx_run {T}. Arguments fx_post {T}. Arguments sound {T}. Arguments preserves {T}.
Arguments pass {T}. Arguments Build_fixer {T}.

Lemma last_cons2 {A} (c d : A) r x : last (c :: d :: r) x = last (d :: r) x.
Proof. reflexivity. Qed.

Lemma rtrim_clean s : ends_clean (rtrim s) = true.
Proof.
  induction s as [|c r IH]; [reflexivity|]. cbn [rtrim].
  destruct (rtrim r) as [|d r'] eqn:E.
  - destruct (is_hspace c) eqn:Ec; [reflexivity|]. unfold ends_clean. cbn. rewrite Ec. reflexivity.
  - unfold ends_clean in *. rewrite last_cons2. exact IH.
Qed.

Lemma rtrim_id s : ends_clean s = true -> rtrim s = s.
Proof.
  induction s as [|c r IH]; intros H; [reflexivity|]. cbn [rtrim].
  destruct r as [|d r'].
  - cbn. unfold ends_clean in H. cbn in H. destruct (is_hspace c); [discriminate|reflexivity].
  - unfold ends_clean in *. rewrite last_cons2 in H. rewrite (IH H). reflexivity.
Qed.

Lemma trim_line_settled s : line_settled (trim_line s) = true.
Proof.
  unfold trim_line, line_settled. destruct (last (rtrim s) 0 =? 92) eqn:E.
  - rewrite E. apply orb_true_r.
  - rewrite rtrim_clean. reflexivity.
Qed.

Lemma trim_line_id s : line_settled s = true -> trim_line s = s.
Proof.
  unfold trim_line, line_settled. destruct (last (rtrim s) 0 =? 92); [reflexivity|].
  rewrite orb_false_r. apply rtrim_id.
Qed.

Lemma clean_settled s : ends_clean s = true -> line_settled s = true.
Proof. unfold line_settled. intros ->. reflexivity. Qed.

Lemma map_fix_post {A} (f : A -> A) (p : A -> bool) : (forall x, p (f x) = true) ->
  forall l, forallb p (map f l) = true.
Proof. intros H l. apply forallb_forall. intros y (x & <- & _)%in_map_iff. apply H. Qed.
Lemma map_fix_id {A} (f : A -> A) (p : A -> bool) : (forall x, p x = true -> f x = x) ->
  forall l, forallb p l = true -> map f l = l.
Proof.
  intros H l Hp. rewrite <- (map_id l) at 2. apply map_ext_in. intros x Hx. apply H.
  exact (proj1 (forallb_forall p l) Hp x Hx).
Qed.

Lemma trim_file_clean ls : forallb line_settled (trim_file ls) = true.
Proof. apply map_fix_post, trim_line_settled. Qed.
Lemma trim_file_id ls : forallb line_settled ls = true -> trim_file ls = ls.
Proof. apply map_fix_id, trim_line_id. Qed.
Theorem trim_settles ls : trim_file (trim_file ls) = trim_file ls.
Proof. apply trim_file_id, trim_file_clean. Qed.

Lemma is_cvsid_line p : is_cvsid p (cvsid_line p) = true.
Proof.
  unfold is_cvsid, cvsid_line.
  assert (H : strip_prefix (p ++ netbsd) (p ++ netbsd ++ [36]) = Some [36])
    by (apply strip_prefix_some; rewrite app_assoc; reflexivity).
  rewrite H. reflexivity.
Qed.

Lemma header_ok_fix p ls : header_ok p (fix_header p ls) = true.
Proof.
  destruct ls as [|l0 r]; [reflexivity|]. cbn [fix_header].
  destruct (is_cvsid p l0) eqn:E.
  - destruct r as [|l1 r']; cbn; [rewrite E; reflexivity|].
    destruct l1; cbn; rewrite E; reflexivity.
  - destruct l0; cbn [header_ok]; rewrite is_cvsid_line; reflexivity.
Qed.

Lemma fix_header_id p ls : header_ok p ls = true -> fix_header p ls = ls.
Proof.
  destruct ls as [|l0 r]; [reflexivity|]. cbn. intros H.
  apply andb_true_iff in H as [H1 H2]. rewrite H1.
  destruct r as [|l1 r']; [discriminate|]. destruct l1; [reflexivity|discriminate].
Qed.

Theorem cvsid_settles p ls : fix_header p (fix_header p ls) = fix_header p ls.
Proof. apply fix_header_id, header_ok_fix. Qed.

Lemma str_leb_total a : forall b, str_leb a b = false -> str_leb b a = true.
Proof.
  induction a as [|x a IH]; intros [|y b] H; cbn in *; try discriminate; try reflexivity.
  destruct (x <? y) eqn:E1; [discriminate|]. destruct (y <? x) eqn:E2; [reflexivity|]. apply IH, H.
Qed.

Definition le_head (x : str) (l : list str) : bool := match l with [] => true | y :: _ => str_leb x y end.

Lemma sortedb_cons x l : sortedb (x :: l) = le_head x l && sortedb l.
Proof. destruct l; reflexivity. Qed.

Lemma le_head_insert y x l : str_leb y x = true -> le_head y l = true -> le_head y (insert_sorted x l) = true.
Proof. destruct l as [|z r]; cbn; [auto|]. destruct (str_leb x z); auto. Qed.

Lemma insert_sorted_sorted x l : sortedb l = true -> sortedb (insert_sorted x l) = true.
Proof.
  induction l as [|y r IH]; [reflexivity|]. rewrite sortedb_cons. intros [Hy Hr]%andb_prop.
  cbn [insert_sorted]. destruct (str_leb x y) eqn:E; rewrite !sortedb_cons.
  - cbn [le_head]. rewrite E, Hy, Hr. reflexivity.
  - rewrite (IH Hr), le_head_insert; auto using str_leb_total.
Qed.

Lemma isort_sorted l : sortedb (isort l) = true.
Proof. induction l as [|x r IH]; [reflexivity|]. cbn. apply insert_sorted_sorted, IH. Qed.

Lemma isort_id l : sortedb l = true -> isort l = l.
Proof.
  induction l as [|x r IH]; [reflexivity|]. rewrite sortedb_cons. intros [Hx Hr]%andb_prop.
  cbn. rewrite (IH Hr). destruct r; [reflexivity|]. cbn in *. rewrite Hx. reflexivity.
Qed.

Theorem sort_idempotent l : isort (isort l) = isort l.
Proof. apply isort_id, isort_sorted. Qed.

Lemma hashes_ok_fix c es : hashes_ok c (fix_hashes c es) = true.
Proof. apply map_fix_post. intros e. apply str_eqb_refl. Qed.
Lemma fix_hashes_id c es : hashes_ok c es = true -> fix_hashes c es = es.
Proof. apply map_fix_id. intros [n h] <-%str_eqb_spec. reflexivity. Qed.
Theorem hash_settles c es : fix_hashes c (fix_hashes c es) = fix_hashes c es.
Proof. apply fix_hashes_id, hashes_ok_fix. Qed.

Lemma cvsid_ends_clean p l : is_cvsid p l = true -> ends_clean l = true.
Proof.
  unfold is_cvsid. destruct (strip_prefix (p ++ netbsd) l) as [rest|] eqn:E; [|discriminate].
  apply strip_prefix_some in E. subst l. intros H.
  assert (Hl : exists pre, rest = pre ++ [36]).
  { destruct rest as [|c rest]; [discriminate|].
    destruct (N.eqb_spec c 36) as [->|Hc].
    - destruct rest; [exists []; reflexivity|discriminate].
    - destruct (N.eqb_spec c 58) as [->|Hc2].
      + pose proof (span_app (fun c => negb (c =? 36)) rest) as Hs.
        destruct (span (fun c => negb (c =? 36)) rest) as [b e]. cbn [fst snd] in Hs.
        apply andb_true_iff in H as [_ He]. apply str_eqb_spec in He. subst e.
        exists (58 :: b). cbn. rewrite Hs. reflexivity.
      + exfalso. destruct c as [|q]; [discriminate|].
        do 6 (destruct q as [q|q|]; try discriminate); congruence. }
  destruct Hl as [pre ->]. unfold ends_clean. rewrite app_assoc, last_last. reflexivity.
Qed.

Definition F_header (p : str) : fixer (list str) := Build_fixer (fix_header p) (fun ls => header_ok p ls = true).
Definition F_trim : fixer (list str) := Build_fixer trim_file (fun ls => forallb line_settled ls = true).

Lemma sound_header p : sound (F_header p).
Proof. split; cbn; [apply header_ok_fix|apply fix_header_id]. Qed.
Lemma sound_trim : sound F_trim.
Proof. split; cbn; [apply trim_file_clean|apply trim_file_id]. Qed.

Lemma trim_preserves_header p : preserves F_trim (F_header p).
Proof.
  intros ls. cbn. destruct ls as [|l0 r]; [reflexivity|]. cbn [header_ok]. intros H.
  apply andb_true_iff in H as [H1 H2]. destruct r as [|l1 r']; [discriminate|]. destruct l1; [|discriminate].
  unfold trim_file. cbn [map header_ok].
  rewrite (trim_line_id _ (clean_settled _ (cvsid_ends_clean _ _ H1))), H1. reflexivity.
Qed.

Lemma fix_header_in p ls l : In l (fix_header p ls) -> In l ls \/ l = [] \/ l = cvsid_line p.
Proof.
  destruct ls as [|l0 r]; [auto|]. cbn [fix_header].
  destruct (is_cvsid p l0); [destruct r as [|[|c l1] r]|destruct l0]; cbn; intuition.
Qed.

Lemma header_preserves_trim p : preserves (F_header p) F_trim.
Proof.
  intros ls. cbn. rewrite !forallb_forall. intros H l [Hl|[->| ->]]%fix_header_in; [auto|reflexivity|].
  apply clean_settled, (cvsid_ends_clean p), is_cvsid_line.
Qed.

Theorem text_file_settles p ls :
  text_pass p (text_pass p ls) = text_pass p ls
  /\ fix_header p (text_pass p ls) = text_pass p ls /\ trim_file (text_pass p ls) = text_pass p ls.
Proof.
  destruct (settling_composition (list str) [F_header p; F_trim]) with (x := ls) as [Hall Hpass].
  - constructor; [apply sound_header|]. constructor; [apply sound_trim|constructor].
  - intros f g [<-|[<-|[]]] [<-|[<-|[]]].
    + intros x Hx. apply header_ok_fix.
    + apply trim_preserves_header.
    + apply header_preserves_trim.
    + intros x Hx. apply trim_file_clean.
  - split; [exact Hpass|]. split.
    + apply (Hall (F_header p)). left. reflexivity.
    + apply (Hall F_trim). right. left. reflexivity.
Qed.
