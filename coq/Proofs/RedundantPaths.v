(* C17: the verdicts do not depend on how the files are spelled. *)
From PV Require Import Lib.Bytes Model.Redundant Model.RedundantPaths Spec.MakeEval Spec.VerdictSound
  Spec.PathDenote Spec.SpellingIndep.

Lemma list_eqb_spec a b : list_eqb a b = true <-> a = b.
Proof.
  revert b; induction a as [|x a IH]; intros [|y b]; simpl; split; intro H; try congruence; try reflexivity.
  - apply andb_true_iff in H as [H1 H2]. apply str_eqb_spec in H1. apply IH in H2. congruence.
  - inversion H; subst. apply andb_true_iff; split; [apply str_eqb_refl | apply IH; reflexivity].
Qed.

Lemma same_denotation_spec cwd a b : same_denotation cwd a b = true <-> denote cwd a = denote cwd b.
Proof. apply list_eqb_spec. Qed.

Lemma first_index_ext e1 e2 k keys :
  (forall k', In k' keys -> e1 k' k = e2 k' k) ->
  first_index e1 k keys = first_index e2 k keys.
Proof.
  induction keys as [|k0 r IH]; simpl; intro H; [reflexivity|].
  rewrite (H k0 (or_introl eq_refl)). destruct (e2 k0 k); [reflexivity|].
  f_equal. apply IH. intros k' Hin. apply H. right; exact Hin.
Qed.

Lemma first_index_denote cwd k k' keys keys' :
  map (denote cwd) keys = map (denote cwd) keys' -> denote cwd k = denote cwd k' ->
  first_index (same_denotation cwd) k keys = first_index (same_denotation cwd) k' keys'.
Proof.
  revert keys'; induction keys as [|a r IH]; intros [|b r'] Hm Hk; simpl in *; try discriminate; [reflexivity|].
  inversion Hm as [[Ha Hr]].
  assert (E : same_denotation cwd a k = same_denotation cwd b k').
  { apply eq_true_iff_eq. rewrite !same_denotation_spec. rewrite Ha, Hk. tauto. }
  rewrite E. destruct (same_denotation cwd b k'); [reflexivity|]. f_equal. apply IH; assumption.
Qed.

Lemma same_shape_paths cwd p q :
  same_shape cwd p q -> map (denote cwd) (map pl_path p) = map (denote cwd) (map pl_path q).
Proof. induction 1 as [|a b p q [Hd _] _ IH]; simpl; [reflexivity|]. rewrite Hd, IH. reflexivity. Qed.

Lemma map_Forall2 {A B C} (R : A -> B -> Prop) (g : A -> C) (h : B -> C) p q :
  Forall2 R p q -> (forall a b, R a b -> g a = h b) -> map g p = map h q.
Proof. induction 1; simpl; intro H'; [reflexivity|]. f_equal; [apply H'; assumption | apply IHForall2; exact H']. Qed.

Lemma intern_denoted_same cwd p q :
  same_shape cwd p q -> intern_by (same_denotation cwd) p = intern_by (same_denotation cwd) q.
Proof.
  intro H. unfold intern_by. apply (map_Forall2 (same_line cwd)); [exact H|].
  intros a b (Hd & Hn & Hb). unfold intern_line. rewrite Hn, Hb. do 2 f_equal.
  apply first_index_denote; [apply same_shape_paths; exact H | exact Hd].
Qed.

(* all spellings with equal denotations give the same verdicts: for ALL programs *)
Theorem denoted_spelling_independent cwd p q :
  same_shape cwd p q -> check_denoted cwd p = check_denoted cwd q.
Proof. intro H. unfold check_denoted. rewrite (intern_denoted_same cwd p q H). reflexivity. Qed.

Lemma intern_one_spelling cwd p :
  one_spelling cwd p -> intern_by str_eqb p = intern_by (same_denotation cwd) p.
Proof.
  intro H. unfold intern_by. apply map_ext_in. intros a Ha. unfold intern_line. do 2 f_equal.
  apply first_index_ext. intros k' Hk'. apply in_map_iff in Hk' as (b & <- & Hb).
  apply eq_true_iff_eq. rewrite str_eqb_spec, same_denotation_spec. split.
  - intros ->. reflexivity.
  - intro Hd. apply H; assumption.
Qed.

(* the Go code compares names; under the loader's guarantee this is the analysis on denotations *)
Theorem spelled_is_denoted cwd p :
  one_spelling cwd p -> check_spelled p = check_denoted cwd p.
Proof. intro H. unfold check_spelled, check_denoted. rewrite (intern_one_spelling cwd p H). reflexivity. Qed.

Theorem verdict_spelling_independent cwd p q :
  same_shape cwd p q -> one_spelling cwd p -> one_spelling cwd q ->
  check_spelled p = check_spelled q.
Proof.
  intros Hs Hp Hq. rewrite (spelled_is_denoted cwd p Hp), (spelled_is_denoted cwd q Hq).
  apply denoted_spelling_independent; exact Hs.
Qed.

Lemma one_spelling_b_spec cwd p : one_spelling_b cwd p = true -> one_spelling cwd p.
Proof.
  unfold one_spelling_b, one_spelling. intros H a b Ha Hb Hd.
  rewrite forallb_forall in H. specialize (H a Ha). rewrite forallb_forall in H. specialize (H b Hb).
  apply same_denotation_spec in Hd. rewrite Hd in H. simpl in H. apply str_eqb_spec; exact H.
Qed.

(* without the loader's guarantee the Go code does depend on the spelling:
   inc.mk:1 VA= a / ./inc.mk:1 (other) / inc.mk:2 VA= a *)
Definition pp_two_ways : pprogram :=
  let a := mkAssign [86;65]%N OpAssign [Lit [97]%N] in
  let i := [99;97;116;47;112;97;47;105;110;99;46;109;107]%N in       (* cat/pa/inc.mk *)
  let j := [99;97;116;47;112;97;47;46;47;105;110;99;46;109;107]%N in (* cat/pa/./inc.mk *)
  [mkPLine i 1 (Some a); mkPLine j 1 None; mkPLine i 2 (Some a)].
Definition pp_one_way : pprogram :=
  let a := mkAssign [86;65]%N OpAssign [Lit [97]%N] in
  let i := [99;97;116;47;112;97;47;105;110;99;46;109;107]%N in
  [mkPLine i 1 (Some a); mkPLine i 1 None; mkPLine i 2 (Some a)].

Lemma spelling_independent_needs_one_spelling :
  ~ (forall cwd p q, same_shape cwd p q -> check_spelled p = check_spelled q).
Proof.
  intro H. specialize (H [47; 114]%N pp_two_ways pp_one_way).
  assert (S : same_shape [47; 114]%N pp_two_ways pp_one_way).
  { unfold pp_two_ways, pp_one_way. repeat constructor. }
  specialize (H S). vm_compute in H. discriminate H.
Qed.

Definition pspec_line (l : pline) : option sassign := option_map spec_assign (pl_body l).

Lemma to_spec_intern e p : to_spec (intern_by e p) = map pspec_line p.
Proof. unfold to_spec, intern_by. rewrite map_map. apply map_ext. intros a. reflexivity. Qed.

Lemma delete_nth_map {A B} (f : A -> B) i l : delete_nth i (map f l) = map f (delete_nth i l).
Proof. revert i; induction l as [|x l IH]; intros [|i]; simpl; try reflexivity. rewrite IH. reflexivity. Qed.

Lemma to_spec_delete i p : to_spec (delete_nth i p) = delete_nth i (to_spec p).
Proof. unfold to_spec. symmetry. apply delete_nth_map. Qed.

Lemma same_shape_spec cwd p q : same_shape cwd p q -> map pspec_line p = map pspec_line q.
Proof.
  intro H. apply (map_Forall2 (same_line cwd)); [exact H|].
  intros a b (_ & _ & Hb). unfold pspec_line. rewrite Hb. reflexivity.
Qed.

Theorem deletable_spelling_independent cwd e1 e2 p q i :
  same_shape cwd p q -> deletable (intern_by e1 p) i -> deletable (intern_by e2 q) i.
Proof.
  intros Hs Hd fuel x. specialize (Hd fuel x).
  rewrite to_spec_delete, to_spec_intern in *. rewrite <- (same_shape_spec cwd p q Hs). exact Hd.
Qed.

Lemma same_shape_refl cwd p : same_shape cwd p p.
Proof. induction p; constructor; [repeat split | assumption]. Qed.

Lemma wf_intern e1 e2 p : wf_program (intern_by e1 p) = wf_program (intern_by e2 p).
Proof.
  unfold wf_program, intern_by. generalize (map pl_path p). intro keys.
  induction p as [|a p IH]; simpl; [reflexivity|]. rewrite IH. reflexivity.
Qed.

Definition inc_denotes (cwd : str) (i : str * str) : list str := denote cwd (join_path (fst i) (snd i)).

Lemma existsb_Forall2 {A} (R : A -> A -> Prop) (f : A -> bool) l l' :
  Forall2 R l l' -> (forall a b, R a b -> f a = f b) -> existsb f l = existsb f l'.
Proof. induction 1; simpl; intro H'; [reflexivity|]. rewrite (H' _ _ H). f_equal. apply IHForall2. exact H'. Qed.

Theorem analysed_alone_spelling_independent cwd pkgdir fragdir fragbase incs incs' :
  Forall2 (fun i j => inc_denotes cwd i = inc_denotes cwd j) incs incs' ->
  analysed_alone cwd pkgdir fragdir fragbase incs = analysed_alone cwd pkgdir fragdir fragbase incs'.
Proof.
  intro H. unfold analysed_alone. f_equal. f_equal.
  apply (existsb_Forall2 _ _ _ _ H). intros a b Hab. unfold inc_denotes in Hab.
  apply eq_true_iff_eq. rewrite !same_denotation_spec. rewrite Hab. tauto.
Qed.

Theorem included_fragment_not_alone cwd pkgdir fragdir fragbase incs i :
  In i incs -> inc_denotes cwd i = denote cwd (join_path fragdir fragbase) ->
  analysed_alone cwd pkgdir fragdir fragbase incs = false.
Proof.
  intros Hin Hd. unfold analysed_alone.
  assert (E : existsb (fun i0 => same_denotation cwd (join_path (fst i0) (snd i0)) (join_path fragdir fragbase)) incs = true).
  { apply existsb_exists. exists i. split; [exact Hin|]. apply same_denotation_spec. exact Hd. }
  rewrite E. apply Bool.andb_false_r.
Qed.
