From Coq Require Import List NArith Bool Lia.
From PV Require Import Lib.Bytes Lib.PanicRes Model.Scope Spec.ScopeSpec.
Import ListNotations.

Lemma slookup_sset st k x v : slookup (sset st k x) v = if str_eqb k v then Some x else slookup st v.
Proof.
  induction st as [|[k0 y] t IH]; cbn [sset slookup].
  - reflexivity.
  - destruct (str_eqbP k0 k) as [->|Hne]; cbn [slookup].
    + destruct (str_eqb k v); reflexivity.
    + rewrite IH. destruct (str_eqbP k0 v) as [->|]; [|reflexivity].
      destruct (str_eqbP k v) as [->|]; [congruence|reflexivity].
Qed.

Definition fld {A} (f : svar -> A) (st : sstate) (v : str) : A := f (screate st v).

Lemma fld_sset {A} (f : svar -> A) st k x v :
  fld f (sset st k x) v = if str_eqb k v then f x else fld f st v.
Proof. unfold fld, screate. rewrite slookup_sset. destruct (str_eqb k v); reflexivity. Qed.

Lemma fld_slookup {A} (f : svar -> A) st k x : slookup st k = Some x -> fld f st k = f x.
Proof. unfold fld, screate. intros ->. reflexivity. Qed.

Definition or_else {A} (a b : option A) : option A := match a with Some x => Some x | None => b end.

(* What Define keeps of an entry -- first line, last line, indeterminate -- and what one Define
   that reaches the variable does to it.  Use and Fallback leave this part alone, so after any
   history it is the fold of [dupd] over the Defines that reached the variable. *)
Definition dpart (x : svar) : option sline * option sline * bool := (v_first x, v_last x, v_indet x).
Definition dupd (d : option sline * option sline * bool) (l : sline) :=
  let '(first, _, indet) := d in (or_else first (Some l), Some l, indet || is_shell_assign l).

Lemma sdef_dpart st n l v :
  fld dpart (sdef st n l) v = if str_eqb n v then dupd (fld dpart st v) l else fld dpart st v.
Proof.
  unfold sdef. rewrite fld_sset. destruct (str_eqbP n v) as [->|]; [|reflexivity].
  unfold fld, dpart, dupd, is_shell_assign. generalize (screate st v). intros x.
  destruct (is_varassign l); cbn [negb andb].
  - destruct (N.eqb_spec (sl_op l) 1) as [E|_].
    + rewrite E, orb_true_r. reflexivity.
    + rewrite (orb_false_r (v_indet x)). destruct (sl_op l =? 3)%N; [reflexivity|].
      destruct (sl_op l =? 4)%N; [destruct (_ && _)|]; reflexivity.
  - rewrite (orb_false_r (v_indet x)). reflexivity.
Qed.

Lemma sdefine_dpart st n l v :
  fld dpart (sdefine st n l) v = if touches n v then dupd (fld dpart st v) l else fld dpart st v.
Proof.
  unfold sdefine, touches. destruct (str_eqbP (varname_canon n) n) as [E|E].
  - rewrite sdef_dpart, E. destruct (str_eqb n v); reflexivity.
  - rewrite !sdef_dpart. destruct (str_eqbP n v) as [->|]; cbn [orb]; [|reflexivity].
    destruct (str_eqbP (varname_canon v) v); [congruence|reflexivity].
Qed.

Lemma fld_sset_same {A} (f : svar -> A) st k x v :
  f x = fld f st k -> fld f (sset st k x) v = fld f st v.
Proof. intros E. rewrite fld_sset. destruct (str_eqbP k v) as [->|]; [exact E|reflexivity]. Qed.

Lemma run_dpart h : forall st v,
  fld dpart (fold_left sstep h st) v = fold_left dupd (defs_of v h) (fld dpart st v).
Proof.
  induction h as [|o t IH]; intros st v; cbn [fold_left defs_of]; [reflexivity|].
  rewrite IH. destruct o as [n l|n x|n l b]; cbn [sstep].
  - rewrite sdefine_dpart. destruct (touches n v); reflexivity.
  - unfold sfallback. rewrite fld_sset_same by reflexivity. reflexivity.
  - unfold suse, suse1. rewrite !fld_sset_same by reflexivity. reflexivity.
Qed.

Lemma fold_dupd ds : forall first last indet,
  fold_left dupd ds (first, last, indet)
  = (or_else first (hd_error ds), or_else (last_opt ds) last, indet || existsb is_shell_assign ds).
Proof.
  induction ds as [|l t IH]; intros first last indet; cbn [fold_left dupd hd_error last_opt existsb].
  - rewrite orb_false_r. destruct first; reflexivity.
  - rewrite IH, orb_assoc. destruct first, (last_opt t); reflexivity.
Qed.

Lemma scope_run_dpart h v :
  fld dpart (scope_run h) v
  = (hd_error (defs_of v h), last_opt (defs_of v h), existsb is_shell_assign (defs_of v h)).
Proof.
  unfold scope_run. rewrite run_dpart. apply (eq_trans (fold_dupd _ None None false)).
  destruct (last_opt (defs_of v h)); reflexivity.
Qed.

Lemma run_first h v : fld v_first (scope_run h) v = hd_error (defs_of v h).
Proof. exact (f_equal (fun d => fst (fst d)) (scope_run_dpart h v)). Qed.

Lemma run_last h v : fld v_last (scope_run h) v = last_opt (defs_of v h).
Proof. exact (f_equal (fun d => snd (fst d)) (scope_run_dpart h v)). Qed.

Lemma run_indet h v : fld v_indet (scope_run h) v = existsb is_shell_assign (defs_of v h).
Proof. exact (f_equal snd (scope_run_dpart h v)). Qed.

Lemma mentioned_fld st v : mentioned st v = fld v_first st v.
Proof. unfold mentioned, fld, screate. destruct (slookup st v); reflexivity. Qed.

(* FirstDefinition and LastDefinition filter a recorded line this way *)
Definition assigned (o : option sline) : option sline :=
  match o with Some l => if is_varassign l then Some l else None | None => None end.

Lemma assigned_some o l : assigned o = Some l <-> o = Some l /\ is_varassign l = true.
Proof.
  destruct o as [l'|]; cbn [assigned]; [|split; [|intros [H _]]; discriminate].
  destruct (is_varassign l') eqn:E; split; try discriminate.
  - intros [= <-]. auto.
  - intros [H _]. exact H.
  - intros [[= ->] Hv]. congruence.
Qed.

Lemma last_definition_fld st v : last_definition st v = assigned (fld v_last st v).
Proof. unfold last_definition, fld, screate. destruct (slookup st v); reflexivity. Qed.

Lemma first_definition_fld st v : first_definition st v = assigned (fld v_first st v).
Proof. unfold first_definition, fld, screate. destruct (slookup st v); reflexivity. Qed.

Lemma last_value_found_indet st v : snd (last_value_found st v) = fld v_indet st v.
Proof.
  unfold last_value_found, fld, screate. destruct (slookup st v) as [x|]; [|reflexivity].
  destruct (match v_first x with Some l => is_varassign l | None => false end); reflexivity.
Qed.

Lemma scope_mentioned_hist h v : mentioned (scope_run h) v = hd_error (defs_of v h).
Proof. rewrite mentioned_fld. apply run_first. Qed.

Lemma scope_isdefined_iff h v :
  is_defined (scope_run h) v = true <->
  exists l rest, defs_of v h = l :: rest /\ is_varassign l = true.
Proof.
  unfold is_defined. rewrite scope_mentioned_hist. destruct (defs_of v h) as [|l rest]; cbn [hd_error].
  - split; [discriminate|]. intros (l & r & H & _). discriminate.
  - split; [intros H; eauto|]. intros (l' & r & [= <- _] & Hv). exact Hv.
Qed.

Lemma scope_lastdef_iff h v l :
  last_definition (scope_run h) v = Some l <->
  last_opt (defs_of v h) = Some l /\ is_varassign l = true.
Proof. rewrite last_definition_fld, run_last. apply assigned_some. Qed.

Lemma scope_firstdef_iff_isdefined st v :
  (exists l, first_definition st v = Some l) <-> is_defined st v = true.
Proof.
  rewrite first_definition_fld. unfold is_defined. rewrite mentioned_fld.
  destruct (fld v_first st v) as [l|]; cbn [assigned]; [destruct (is_varassign l)|]; split;
    try discriminate; try (intros [? H]; discriminate); eauto.
Qed.

Lemma scope_firstdef_is_mentioned st v l :
  first_definition st v = Some l -> mentioned st v = Some l /\ is_varassign l = true.
Proof. rewrite first_definition_fld, mentioned_fld. apply assigned_some. Qed.

Lemma last_opt_in {A} (l : list A) x : last_opt l = Some x -> In x l.
Proof.
  induction l as [|a t IH]; [discriminate|]. cbn [last_opt].
  destruct (last_opt t) eqn:E; intros H; inversion H; subst; [right; auto|left; reflexivity].
Qed.

Lemma last_opt_nonempty {A} (a : A) t : exists x, last_opt (a :: t) = Some x.
Proof. cbn [last_opt]. destruct (last_opt t); eauto. Qed.

(* the callers' idiom `if IsDefined(v) { ... LastDefinition(v).Line ... }` is safe when every
   Define that reached v carried a real assignment *)
Lemma scope_isdefined_lastdef_partial h v :
  (forall l, In l (defs_of v h) -> is_varassign l = true) ->
  is_defined (scope_run h) v = true -> exists l, last_definition (scope_run h) v = Some l.
Proof.
  intros Hall Hd. apply scope_isdefined_iff in Hd. destruct Hd as (l0 & rest & Hdefs & _).
  destruct (last_opt_nonempty l0 rest) as [x Hx]. rewrite <- Hdefs in Hx.
  exists x. apply scope_lastdef_iff. split; [exact Hx|]. apply Hall. apply last_opt_in. exact Hx.
Qed.

Lemma scope_lastdef_nonnil_iff h v :
  (exists l, last_definition (scope_run h) v = Some l) <->
  (exists l, last_opt (defs_of v h) = Some l /\ is_varassign l = true).
Proof.
  split; intros [l H]; exists l; apply scope_lastdef_iff; exact H.
Qed.

Lemma scope_indeterminate_iff h v :
  snd (last_value_found (scope_run h) v) = true <-> existsb is_shell_assign (defs_of v h) = true.
Proof. rewrite last_value_found_indet, run_indet. reflexivity. Qed.

Lemma scope_found_iff st v :
  snd (fst (last_value_found st v)) = true <->
  is_defined st v = true \/ (is_defined st v = false /\ fld v_fallback st v <> []).
Proof.
  unfold last_value_found, is_defined, mentioned, fld, screate.
  destruct (slookup st v) as [x|]; cbn.
  - destruct (match v_first x with Some l => is_varassign l | None => false end) eqn:E; cbn.
    + tauto.
    + destruct (v_fallback x) as [|c fb]; split.
      * discriminate.
      * intros [H|[_ H]]; [discriminate|congruence].
      * intros _. right. split; [reflexivity|discriminate].
      * reflexivity.
  - split; [discriminate|]. intros [H|[_ H]]; [discriminate|congruence].
Qed.

Definition real_line (id : N) : sline := {| sl_id := id; sl_kind := 0; sl_op := 0; sl_value := [121%N] |}.
Definition commented_line (id : N) : sline := {| sl_id := id; sl_kind := 1; sl_op := 0; sl_value := [121%N] |}.
Definition name_A : str := [65%N].
Definition hist_real_then_commented : list sop := [ODefine name_A (real_line 1); ODefine name_A (commented_line 2)].
Definition hist_commented_then_real : list sop := [ODefine name_A (commented_line 1); ODefine name_A (real_line 2)].

Definition isdefined_lastdef_full : Prop :=
  forall h v, is_defined (scope_run h) v = true -> exists l, last_definition (scope_run h) v = Some l.

Lemma isdefined_lastdef_refuted : ~ isdefined_lastdef_full.
Proof.
  intros H. destruct (H hist_real_then_commented name_A) as [l Hl]; [vm_compute; reflexivity|].
  vm_compute in Hl. discriminate.
Qed.

Lemma insert_sorted_in k x l : In x (insert_sorted k l) -> x = k \/ In x l.
Proof.
  induction l as [|y t IH]; cbn [insert_sorted].
  - intros [<-|[]]; auto.
  - destruct (str_leb k y).
    + intros [<-|H]; auto.
    + intros [<-|H]; [right; left; reflexivity|]. destruct (IH H); [auto|right; right; auto].
Qed.

Lemma varnames_in st k : In k (varnames st) -> In k (map fst st).
Proof.
  unfold varnames. induction (map fst st) as [|y t IH]; cbn [fold_right]; [auto|].
  intros H. destruct (insert_sorted_in _ _ _ H) as [->|H']; [left; reflexivity|right; auto].
Qed.

Lemma slookup_key st k : In k (map fst st) -> exists x, slookup st k = Some x.
Proof.
  induction st as [|[k0 y] t IH]; [contradiction|]. cbn [map fst slookup].
  destruct (str_eqbP k0 k) as [->|Hne]; [eauto|]. intros [H|H]; [congruence|auto].
Qed.

Lemma define_all_fold other : forall names acc st',
  fold_left (define_all_step other) names acc = Ok st' ->
  exists a, acc = Ok a /\
  st' = fold_left sstep (flat_map (fun k => match slookup other k with
                     | Some x => match v_first x, v_last x with
                                 | Some f, Some l => [ODefine k f; ODefine k l]
                                 | _, _ => []
                                 end
                     | None => []
                     end) names) a.
Proof.
  induction names as [|k t IH]; intros acc st' H; cbn [fold_left flat_map] in *.
  - destruct acc; try discriminate. inversion H; subst. eauto.
  - destruct (IH _ _ H) as (a1 & Hstep & ->). clear IH H.
    unfold define_all_step in Hstep. destruct acc as [a| |]; cbn [bind] in Hstep; try discriminate.
    exists a. split; [reflexivity|].
    destruct (slookup other k) as [x|]; [|discriminate].
    destruct (v_first x) as [f|].
    + destruct (v_last x) as [l|]; [|discriminate]. inversion Hstep; subst.
      rewrite fold_left_app. reflexivity.
    + inversion Hstep; subst. destruct (v_last x); reflexivity.
Qed.

Lemma define_all_as_history st other st' :
  sdefine_all st other = Ok st' -> st' = fold_left sstep (define_all_hist other) st.
Proof.
  unfold sdefine_all, define_all_hist. intros H.
  destruct (define_all_fold _ _ _ _ H) as (a & Ha & ->). inversion Ha; subst. reflexivity.
Qed.

Lemma run_first_last_consistent h k f :
  fld v_first (scope_run h) k = Some f -> exists l, fld v_last (scope_run h) k = Some l.
Proof.
  rewrite run_first, run_last. destruct (defs_of k h) as [|a t]; [discriminate|].
  intros _. destruct (last_opt_nonempty a t) as [x ->]. eauto.
Qed.

Lemma define_all_fold_ok other :
  (forall k x f, slookup other k = Some x -> v_first x = Some f -> exists l, v_last x = Some l) ->
  forall names, (forall k, In k names -> In k (map fst other)) ->
  forall a, exists st', fold_left (define_all_step other) names (Ok a) = Ok st'.
Proof.
  intros Hwf. induction names as [|k t IH]; intros Hin a; cbn [fold_left]; [eauto|].
  assert (Hk : In k (map fst other)) by (apply Hin; left; reflexivity).
  destruct (slookup_key _ _ Hk) as [x Hx].
  unfold define_all_step at 2. cbn [bind]. rewrite Hx.
  destruct (v_first x) as [f|] eqn:Hf.
  - destruct (Hwf _ _ _ Hx Hf) as [l ->]. apply IH. intros; apply Hin; right; auto.
  - apply IH. intros; apply Hin; right; auto.
Qed.

Lemma define_all_no_panic st h : exists st', sdefine_all st (scope_run h) = Ok st'.
Proof.
  unfold sdefine_all. apply define_all_fold_ok; [|apply varnames_in].
  intros k x f Hx Hf. rewrite <- (fld_slookup v_last _ _ _ Hx).
  apply (run_first_last_consistent h k f). rewrite (fld_slookup v_first _ _ _ Hx). exact Hf.
Qed.

(* hence every history theorem applies to the target after DefineAll *)
Lemma define_all_run h h2 :
  exists st', sdefine_all (scope_run h) (scope_run h2) = Ok st' /\
              st' = scope_run (h ++ define_all_hist (scope_run h2)).
Proof.
  destruct (define_all_no_panic (scope_run h) h2) as [st' H]. exists st'. split; [exact H|].
  rewrite (define_all_as_history _ _ _ H). unfold scope_run. rewrite fold_left_app. reflexivity.
Qed.

(* defect 16 in the model: DefineAll copies the commented last line, the copy is "defined" with a nil
   LastDefinition *)
Lemma define_all_copies_commented :
  exists st', sdefine_all [] (scope_run hist_real_then_commented) = Ok st' /\
              is_defined st' name_A = true /\ last_definition st' name_A = None.
Proof. eexists. split; [vm_compute; reflexivity|]. split; vm_compute; reflexivity. Qed.
