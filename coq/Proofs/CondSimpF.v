(* C14, part F: Autofix.Replace as the model has it ([autofix_replace],
   [apply_rewrites]): the rewritten line is the old line with ONE occurrence of
   the from-text replaced by the to-text, and that occurrence is the first one;
   a fix whose from-text does not occur is not applied.  This is the step
   between "the rewrite (from, to) preserves the value" (parts C, D) and "the
   line pkglint writes is the line with that rewrite carried out". *)
From PV Require Import Lib.Bytes Gen.CondSimpSets Spec.BmakeCond Model.CondSimp.
Open Scope N_scope.

Fixpoint no_start_in (sub a rest : str) : Prop :=
  match a with
  | [] => True
  | c :: a' => strip_prefix sub (c :: a' ++ rest) = None /\ no_start_in sub a' rest
  end.

Theorem replace_first_spec sub repl : forall s s',
  replace_first sub repl s = Some s' ->
  exists a b, s = a ++ sub ++ b /\ s' = a ++ repl ++ b /\ no_start_in sub a (sub ++ b).
Proof.
  induction s as [|c s IH]; intros s' H; cbn [replace_first] in H;
    destruct (strip_prefix sub _) as [r|] eqn:E; try discriminate.
  1, 2: injection H as <-; apply strip_prefix_some in E; exists [], r; repeat split; auto.
  destruct (replace_first sub repl s) as [t|]; [|discriminate].
  injection H as <-. destruct (IH t eq_refl) as (a & b & -> & -> & Hns).
  exists (c :: a), b. repeat split; auto.
Qed.

Theorem replace_first_none sub repl : forall s,
  replace_first sub repl s = None -> forall a b, s <> a ++ sub ++ b.
Proof.
  induction s as [|c s IH]; intros H a b Hs; cbn [replace_first] in H;
    destruct (strip_prefix sub _) as [r|] eqn:E; try discriminate;
    (* an occurrence at the very start is what strip_prefix finds *)
    (destruct a as [|x a]; [cbn [app] in Hs; apply strip_prefix_some in Hs; congruence|]).
  - discriminate.
  - destruct (replace_first sub repl s); [discriminate|].
    injection Hs as -> ->. exact (IH eq_refl a b eq_refl).
Qed.

Theorem autofix_replace_spec line from to line' :
  autofix_replace line from to = Some line' ->
  exists a b, line = a ++ from ++ b /\ line' = a ++ to ++ b /\ no_start_in from a (from ++ b).
Proof.
  unfold autofix_replace. destruct (Nat.eqb (count_str from line) 1); [|discriminate].
  apply replace_first_spec.
Qed.

(* [done] of [apply_rewrites] is the fixes pkglint logs: each is carried out on
   the line the previous ones left *)
Inductive rewritten : str -> list rewrite -> str -> Prop :=
| rewritten_nil l : rewritten l [] l
| rewritten_cons l rw a b rest l' :
    l = a ++ rw_from rw ++ b -> rewritten (a ++ rw_to rw ++ b) rest l' ->
    rewritten l (rw :: rest) l'.

Theorem apply_rewrites_spec : forall rws line line' done,
  apply_rewrites line rws = (line', done) ->
  rewritten line done line' /\ (forall rw, In rw done -> In rw rws).
Proof.
  induction rws as [|rw rws IH]; intros line line' done H; cbn [apply_rewrites] in H.
  - injection H as <- <-. split; [constructor|intros ? []].
  - destruct (autofix_replace line (rw_from rw) (rw_to rw)) as [l1|] eqn:E.
    + destruct (apply_rewrites l1 rws) as [l d] eqn:E2. injection H as <- <-.
      destruct (IH _ _ _ E2) as [Hr Hin].
      destruct (autofix_replace_spec _ _ _ _ E) as (a & b & Hl & -> & _).
      split; [econstructor; eassumption|]. intros x [<-|Hx]; [left|right]; auto.
    + destruct (IH _ _ _ H) as [Hr Hin]. split; [exact Hr|]. intros x Hx. right. auto.
Qed.

(* Obligations on the regenerated byte sets (coq/Gen/CondSimpSets.v): a wrong table breaks one of these. *)

(* what needs_quotes leaves unquoted is made of bytes that the spec's reader takes
   as part of one unquoted word: the to-text ... == literal reads back as one leaf *)
Lemma lit_unquoted_are_word_bytes : forallb word_char lit_unquoted_set = true.
Proof. vm_compute. reflexivity. Qed.

(* the literal patterns of simplifyWord and the modifier texts simplifyMatch copies
   into ${...} / empty(...) consist of bytes that neither end nor complicate a modifier
   (':' separates modifiers and is part of expr.Mod()) *)
Lemma lit_pattern_are_mod_bytes :
  forallb (fun c => plain_mod_char 125 c && plain_mod_char 41 c) lit_pattern_set = true.
Proof. vm_compute. reflexivity. Qed.

Lemma simple_mod_are_mod_bytes :
  forallb (fun c => (c =? 58) || (plain_mod_char 125 c && plain_mod_char 41 c)) simple_mod_set = true.
Proof. vm_compute. reflexivity. Qed.

(* the bytes MatchMatch takes as special include everything Str_Match treats specially
   ('$' need not be among them: the byte sets above keep it out of every rewritten pattern) *)
Lemma match_special_covers : forallb (in_set match_special_set) [42; 63; 91; 92] = true.
Proof. vm_compute. reflexivity. Qed.

(* sign, dot, digits: what a number can start with *)
Lemma numeric_head_covers :
  forallb (in_set numeric_head_set) [43; 45; 46; 48; 49; 50; 51; 52; 53; 54; 55; 56; 57] = true.
Proof. vm_compute. reflexivity. Qed.

Lemma tables_fit_the_reader :
  forallb word_char lit_unquoted_set = true /\
  forallb (fun c => plain_mod_char 125 c && plain_mod_char 41 c) lit_pattern_set = true /\
  forallb (fun c => (c =? 58) || (plain_mod_char 125 c && plain_mod_char 41 c)) simple_mod_set = true /\
  forallb (in_set match_special_set) [42; 63; 91; 92] = true /\
  forallb (in_set numeric_head_set) [43; 45; 46; 48; 49; 50; 51; 52; 53; 54; 55; 56; 57] = true /\
  in_set lit_pattern_set 36 = false /\ in_set simple_mod_set 36 = false.
Proof.
  exact (conj lit_unquoted_are_word_bytes (conj lit_pattern_are_mod_bytes (conj simple_mod_are_mod_bytes
        (conj match_special_covers (conj numeric_head_covers (conj eq_refl eq_refl)))))).
Qed.
