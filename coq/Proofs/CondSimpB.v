(* C14: what "the rewrite preserves the value" means, on the syntax trees of
   Spec/BmakeCond.v and independent of the model; the evaluator on the forms the
   rewrites use; the argument shared by simplifyWord and simplifyYesNo. *)
From PV Require Import Lib.Bytes Spec.BmakeCond Proofs.CondSimpA.
From Coq Require Import ZifyBool ZifyN ZifyNat.
Open Scope N_scope.

(* If the original condition is inside the fragment, so is the rewritten one;
   and if the original is valid (not malformed), the rewritten one has the same
   value -- in particular it is valid too. *)
Definition preserves (e : env) (f t : cond) : Prop :=
  forall r, eval e f = Some r -> exists r', eval e t = Some r' /\ (r <> TMalformed -> r' = r).

Definition equivalent (e : env) (f t : cond) : Prop := eval e f = eval e t.

(* [preserves] orders the two values: outside the fragment lies below everything,
   malformed below every value, a truth value only below itself *)
Definition refines (x y : option tri) : Prop :=
  match x with
  | None => True
  | Some TMalformed => y <> None
  | Some r => y = Some r
  end.

Lemma preserves_refines e f t : preserves e f t <-> refines (eval e f) (eval e t).
Proof.
  unfold preserves, refines. split.
  - intros H. destruct (eval e f) as [r|]; [|exact I]. destruct (H r eq_refl) as (r' & -> & Hr).
    destruct r; [rewrite Hr..|]; easy.
  - intros H r Hr. rewrite Hr in H. destruct r; try (rewrite H; eauto).
    destruct (eval e t) as [r'|]; [exists r'|]; easy.
Qed.

Lemma equivalent_preserves e f t : equivalent e f t -> preserves e f t.
Proof. unfold equivalent, preserves. intros H r Hf. exists r. split; [congruence|auto]. Qed.

Lemma preserves_values e f t x y :
  eval e f = Some x -> eval e t = Some y -> (x <> TMalformed -> y = x) -> preserves e f t.
Proof. intros Hf Ht H r Hr. rewrite Hf in Hr. injection Hr as <-. exists y. split; assumption. Qed.

Lemma preserves_refl e f : preserves e f f.
Proof. apply equivalent_preserves. reflexivity. Qed.

(* the rewrites replace a part of a larger condition: each connective is monotone
   in [refines] *)
Lemma preserves_not e f t : preserves e f t -> preserves e (CNot f) (CNot t).
Proof.
  rewrite !preserves_refines. cbn [eval].
  destruct (eval e f) as [[| |]|], (eval e t) as [[| |]|]; cbn; easy.
Qed.

Lemma preserves_and_r e a f t : preserves e f t -> preserves e (CAnd a f) (CAnd a t).
Proof.
  rewrite !preserves_refines. cbn [eval].
  destruct (eval e a) as [[| |]|], (eval e f) as [[| |]|], (eval e t) as [[| |]|]; cbn; easy.
Qed.

Lemma preserves_and_l e a a' f : preserves e a a' -> eval e f <> None -> preserves e (CAnd a f) (CAnd a' f).
Proof.
  rewrite !preserves_refines. cbn [eval].
  destruct (eval e a) as [[| |]|], (eval e a') as [[| |]|], (eval e f) as [[| |]|]; cbn; easy.
Qed.

Lemma preserves_or_r e a f t : preserves e f t -> preserves e (COr a f) (COr a t).
Proof.
  rewrite !preserves_refines. cbn [eval].
  destruct (eval e a) as [[| |]|], (eval e f) as [[| |]|], (eval e t) as [[| |]|]; cbn; easy.
Qed.

Lemma preserves_or_l e a a' f : preserves e a a' -> eval e f <> None -> preserves e (COr a f) (COr a' f).
Proof.
  rewrite !preserves_refines. cbn [eval].
  destruct (eval e a) as [[| |]|], (eval e a') as [[| |]|], (eval e f) as [[| |]|]; cbn; easy.
Qed.

Lemma eval_expr_snoc e v ms m d s :
  eval_expr e v ms = Some (d, s) -> eval_expr e v (ms ++ [m]) = apply_mod e m (d, s).
Proof.
  unfold eval_expr. destruct (e v); rewrite apply_mods_app; intros ->; cbn [apply_mods];
    destruct (apply_mod e m (d, s)); reflexivity.
Qed.

Lemma eval_expr_M e v pms pat q d s :
  eval_expr e v pms = Some (d, s) -> expand_pat e pat = Some q ->
  eval_expr e v (pms ++ [ModM pat]) = Some (d, join_sp (filter (fun w => str_match w q) (words s))).
Proof. intros Hev Hq. rewrite (eval_expr_snoc _ _ _ _ _ _ Hev). cbn [apply_mod]. rewrite Hq. reflexivity. Qed.

Lemma eval_not e c : eval e (CNot c) = option_map tri_not (eval e c).
Proof. reflexivity. Qed.

Definition tri_of_def (d : defstate) (b : bool) : tri :=
  match d with DUndef => TMalformed | _ => tri_of_bool b end.

Lemma eval_empty e v ms d r :
  eval_expr e v ms = Some (d, r) ->
  eval e (CEmpty v ms) = Some (tri_of_bool (negb (nonempty (skip_cspace r)))).
Proof. simpl. intros ->. reflexivity. Qed.

Lemma eval_bare e v ms d r :
  eval_expr e v ms = Some (d, r) ->
  eval e (CLeaf (LExpr v ms)) = Some (tri_of_def d (truthy r false)).
Proof. simpl. intros ->. destruct d; reflexivity. Qed.

Definition rhs_leaf (quoted : bool) (w : str) : leaf := if quoted then LQuoted [PLit w] else LWord w.

Lemma eval_rhs_leaf e quoted w : eval_leaf e (rhs_leaf quoted w) = Some (Some (w, quoted)).
Proof. destruct quoted; cbn; rewrite ?app_nil_r; reflexivity. Qed.

Lemma eval_cmp e v ms d s eq rl w q :
  eval_expr e v ms = Some (d, s) -> eval_leaf e rl = Some (Some (w, q)) ->
  eval e (CCmp (LExpr v ms) eq rl) =
  Some (tri_of_def d (if eq then compare_eq s false w q else negb (compare_eq s false w q))).
Proof. intros Hl Hr. cbn [eval]. rewrite Hr. cbn [eval_leaf]. rewrite Hl. destruct d; reflexivity. Qed.

Lemma last_M_word pat s (matches : str -> bool) :
  wordlike s -> matches s = str_eqb s pat -> pat <> [] ->
  join_sp (filter matches (words s)) = if str_eqb s pat then pat else [].
Proof.
  intros Hs Hm _. rewrite filter_word, Hm by exact Hs.
  destruct (str_eqb s pat) eqn:E; [apply str_eqb_spec, E|reflexivity].
Qed.

Lemma last_N_word pat s (matches : str -> bool) :
  wordlike s -> matches s = str_eqb s pat ->
  join_sp (filter (fun w => negb (matches w)) (words s)) = if str_eqb s pat then [] else s.
Proof. intros Hs Hm. rewrite filter_word, Hm by exact Hs. destruct (str_eqb s pat); reflexivity. Qed.

Definition atom (from_empty : bool) (v : str) (ms : list modifier) : cond :=
  if from_empty then CEmpty v ms else CLeaf (LExpr v ms).

(* Model.from_cond, re-stated on modifiers *)
Definition from_shape (neg from_empty : bool) (v : str) (ms : list modifier) : cond :=
  if negb (Bool.eqb neg from_empty) then atom from_empty v ms else CNot (atom from_empty v ms).

Lemma tri_of_def_defined d b : d <> DUndef -> tri_of_def d b = tri_of_bool b.
Proof. destruct d; [reflexivity|congruence|reflexivity]. Qed.

Lemma nonempty_wordlike s : wordlike s -> nonempty (skip_cspace s) = nonempty s.
Proof. intros H. rewrite wordlike_skip by exact H. reflexivity. Qed.

(* the value of the original condition: [neg] says which truth value of the
   test (non-empty, or truthy for the bare form) makes the condition true *)
Lemma eval_from_shape e v ms neg fe d r :
  eval_expr e v ms = Some (d, r) ->
  eval e (from_shape neg fe v ms) =
  Some (if fe then tri_of_bool (Bool.eqb neg (nonempty (skip_cspace r)))
        else tri_of_def d (Bool.eqb neg (truthy r false))).
Proof.
  intros H. unfold from_shape, atom.
  destruct fe, neg; cbn [Bool.eqb negb]; rewrite ?eval_not.
  1,2: rewrite (eval_empty _ _ _ _ _ H); destruct (nonempty (skip_cspace r)); reflexivity.
  all: rewrite (eval_bare _ _ _ _ _ H); destruct d, (truthy r false); reflexivity.
Qed.

(* it is enough to look at the case where the expression before the last modifier has a
   value: otherwise the original is outside the fragment *)
Lemma from_shape_cases e v pms m neg fe t :
  (forall d s, eval_expr e v pms = Some (d, s) -> preserves e (from_shape neg fe v (pms ++ [m])) t) ->
  preserves e (from_shape neg fe v (pms ++ [m])) t.
Proof.
  intros H. destruct (eval_expr e v pms) as [[d s]|] eqn:Hev; [eauto|].
  assert (Hout : eval_expr e v (pms ++ [m]) = None).
  { unfold eval_expr in *. destruct (e v); rewrite apply_mods_app, Hev; reflexivity. }
  intros r Hr. unfold from_shape, atom in Hr.
  destruct (negb (Bool.eqb neg fe)), fe; cbn [eval eval_leaf] in Hr; rewrite Hout in Hr; discriminate.
Qed.

(* The common core.  [cmp_ms] are the modifiers of the comparison's left side
   (prefix, or prefix + :tl), [key s] is what that left side evaluates to for the
   word s (s itself, or its lower-case form), [w] is the literal it is compared
   with; the pattern [pat] of the last modifier matches a word s iff key s = w. *)
Section Core.
  Variables (e : env) (v : str) (pms cmp_ms : list modifier) (pat w : str).
  Variable key : str -> str.
  Variables (positive from_empty neg add_u quoted : bool).

  Let last_mod := if positive then ModM pat else ModN pat.
  Let from := from_shape neg from_empty v (pms ++ [last_mod]).
  Let to := CCmp (LExpr v (u_mods add_u ++ cmp_ms)) (Bool.eqb neg positive) (rhs_leaf quoted w).

  (* the pattern has no nested reference: it is matched as written *)
  Hypothesis Hpat : expand_pat e pat = Some pat.
  Hypothesis Hkey_match : forall s, wordlike s -> str_match s pat = str_eqb (key s) w.
  Hypothesis Hkey_nil : key [] = [].
  Hypothesis Hw_ne : w <> [].
  Hypothesis Hcmp : forall d s, eval_expr e v (u_mods add_u ++ pms) = Some (d, s) ->
                               eval_expr e v (u_mods add_u ++ cmp_ms) = Some (d, key s).
  Hypothesis Hw_string : quoted = true \/ try_parse_number w = None.

  Theorem core_preserves d s :
    eval_expr e v pms = Some (d, s) -> wordlike s ->
    (* the variable cannot be undefined where pkglint did not add :U, unless the
       original is the bare form, which is then malformed itself *)
    (add_u = false -> from_empty = true -> d <> DUndef) ->
    (* a word that matches is "true" as a bare expression *)
    (from_empty = false -> positive = true -> str_match s pat = true -> truthy s false = true) ->
    (* :N: the value is not empty, and as a bare expression it is "true" *)
    (positive = false -> s <> [] /\ (from_empty = false -> truthy s false = true)) ->
    preserves e from to.
  Proof.
    intros Hev Hs Hdef Hbare HN.
    pose proof (Hkey_match s Hs) as Hm.
    (* [hit]: the last modifier keeps the word s *)
    set (hit := if positive then str_match s pat else negb (str_match s pat)).
    set (res := if hit then s else []).
    assert (Hres : eval_expr e v (pms ++ [last_mod]) = Some (d, res)).
    { rewrite (eval_expr_snoc e v pms last_mod d s Hev). subst last_mod res hit.
      destruct positive; cbn [apply_mod]; rewrite Hpat, filter_word by exact Hs; reflexivity. }
    assert (Hs_ne : hit = true -> nonempty s = true).
    { destruct s; [|reflexivity]. subst hit. destruct positive.
      - rewrite Hm, Hkey_nil. intros E. apply str_eqb_spec in E. congruence.
      - intros _. destruct (HN eq_refl) as [Hne _]. congruence. }
    (* what the original tests about that value is [hit] *)
    assert (Htest : nonempty (skip_cspace res) = hit /\ (from_empty = false -> truthy res false = hit)).
    { subst res. destruct hit eqn:Ehit; [|split; reflexivity].
      split; [rewrite nonempty_wordlike by exact Hs; exact (Hs_ne eq_refl)|].
      intros Hfe. subst hit. destruct positive; [apply Hbare; auto|apply (HN eq_refl), Hfe]. }
    destruct Htest as [Hne Htr].
    destruct (eval_expr_u e v pms add_u d s Hev) as (d' & Hu & Hd').
    apply (preserves_values _ _ _ _ _ (eval_from_shape _ _ _ neg from_empty _ _ Hres)
                                      (eval_cmp _ _ _ _ _ _ _ _ _ (Hcmp d' s Hu) (eval_rhs_leaf e quoted w))).
    rewrite compare_eq_string by (destruct Hw_string; auto). rewrite <- Hm. intros Hnm.
    (* the original is valid: the left side of the comparison is defined *)
    assert (Hd : d' <> DUndef /\ (from_empty = false -> d <> DUndef)).
    { split; [intros E; destruct (Hd' E) as [Hu0 ->]|intros Hfe ->]; destruct from_empty;
        try (apply Hdef; auto; fail); try discriminate; apply Hnm; reflexivity. }
    destruct Hd as [Hd1 Hd2]. rewrite tri_of_def_defined by exact Hd1.
    destruct from_empty; [rewrite Hne|rewrite tri_of_def_defined, Htr by auto]; subst hit;
      destruct neg, positive, (str_match s pat); reflexivity.
  Qed.
End Core.
