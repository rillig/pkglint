(* C19: Clean, CleanDot and CleanPath keep the denotation: each of them writes, with
   [render], elements that lead to the same place as the segments of its argument. *)
From PV Require Import Lib.Bytes Model.Paths Spec.PathDenote Proofs.PathsBase.
Open Scope N_scope.

Definition clean_state (p : str) : nat * list str :=
  fold_left (clean_step (rooted p)) (split_slash p) (O, []).

Lemma clean_unfold p :
  p <> [] ->
  clean p = let (dd, real) := clean_state p in
            let elems := repeat dotdot dd ++ rev real in
            if rooted p then slash :: join_slash elems
            else match elems with [] => dotstr | _ => join_slash elems end.
Proof. destruct p as [|c s]; [contradiction|]. intros _. reflexivity. Qed.

Lemma clean_step_skip rt st c : seg_is_name c = false -> clean_step rt st c = st.
Proof.
  unfold seg_is_name, clean_step. intro H. destruct st as [dd real].
  change (is_empty c || str_eqb c dotstr) with (seg_is_empty c || seg_is_dot c).
  destruct (seg_is_empty c), (seg_is_dot c); try reflexivity; discriminate.
Qed.

Lemma clean_step_dotdot rt dd real :
  clean_step rt (dd, real) dotdot =
  match real with _ :: r => (dd, r) | [] => if rt then (dd, []) else (S dd, []) end.
Proof. destruct real; reflexivity. Qed.

Lemma clean_step_name rt dd real c : real_name c = true -> clean_step rt (dd, real) c = (dd, c :: real).
Proof.
  unfold real_name, seg_is_name, clean_step. intro H.
  change (is_empty c) with (seg_is_empty c). change (str_eqb c dotstr) with (seg_is_dot c).
  change (str_eqb c dotdot) with (seg_is_dotdot c).
  destruct (seg_is_empty c), (seg_is_dot c), (seg_is_dotdot c); try discriminate; reflexivity.
Qed.

(* From the directory st the walk along the elements seen so far arrives at
   real ++ (st with dd levels removed); a rooted path starts at the root, where ".." stays.
   P is any property of the elements that is to be carried along. *)
Lemma clean_fold (P : str -> Prop) rt st comps :
  (rt = true -> st = []) -> Forall noslash comps -> Forall P comps ->
  forall dd real dd' real', Forall good real -> Forall P real ->
  fold_left (clean_step rt) comps (dd, real) = (dd', real') ->
  Forall good real' /\ Forall P real' /\ (rt = true -> dd' = dd) /\
  walk (real ++ skipn dd st) comps = real' ++ skipn dd' st.
Proof.
  intros Hst Hn. induction Hn as [|c comps Hc _ IH]; intros HP dd real dd' real' Hg Hp Ef.
  - injection Ef as <- <-. auto.
  - apply Forall_cons_iff in HP as [Pc HP]. specialize (IH HP). cbn [fold_left] in Ef. rewrite walk_cons.
    destruct (seg_cases c) as [Hs|[->|Hr]].
    + rewrite clean_step_skip in Ef by exact Hs. rewrite walk_step_skip by exact Hs. eauto.
    + rewrite clean_step_dotdot in Ef. rewrite walk_step_dotdot. destruct real as [|x r].
      * destruct rt.
        -- rewrite (Hst eq_refl) in *. specialize (IH _ _ _ _ Hg Hp Ef). rewrite skipn_nil in *. exact IH.
        -- simpl app. rewrite tl_skipn. destruct (IH _ _ _ _ Hg Hp Ef) as (? & ? & _ & ?).
           repeat split; (assumption || discriminate).
      * apply Forall_inv_tail in Hg, Hp. apply (IH _ _ _ _ Hg Hp Ef).
    + rewrite clean_step_name in Ef by exact Hr. rewrite walk_step_name by exact Hr.
      assert (Hgc : good c) by (split; assumption). apply (IH dd (c :: real)); auto.
Qed.

Definition shape (rt : bool) (e : list str) : Prop :=
  exists dd ns, e = repeat dotdot dd ++ ns /\ Forall good ns /\ (rt = true -> dd = O).

Lemma shape_elems rt e : shape rt e -> Forall elem e.
Proof.
  intros (dd & ns & -> & Hns & _). apply Forall_app. split; [apply Forall_repeat, elem_dotdot|apply good_elems, Hns].
Qed.

Lemma shape_true e : shape true e <-> Forall good e.
Proof.
  split; [|intro H; exists O, e; auto]. intros (dd & ns & -> & H & Hd). rewrite (Hd eq_refl). exact H.
Qed.

Lemma shape_good rt x e : shape rt (x :: e) -> x <> dotdot -> Forall good (x :: e).
Proof.
  intros ([|dd] & ns & E & Hns & _) Hx; simpl in E; [subst ns; exact Hns|]. injection E as -> _. contradiction.
Qed.

Lemma clean_render p :
  exists e, shape (rooted p) e /\ clean p = render (rooted p) e
            /\ (forall st, walk (if rooted p then [] else st) e = walk (if rooted p then [] else st) (segs p))
            /\ (forall P : str -> Prop, P dotdot -> Forall P (split_slash p) -> Forall P e).
Proof.
  destruct p as [|c0 s0] eqn:Ep.
  { exists []. repeat split; auto. exists O, []. auto. }
  rewrite <- Ep. rewrite clean_unfold by (subst; discriminate). clear. unfold clean_state.
  destruct (fold_left _ _ _) as [dd real] eqn:Ef.
  pose proof (fun P st H1 H2 => clean_fold P (rooted p) st _ H1 (split_noslash p) H2
                                  _ _ _ _ (Forall_nil _) (Forall_nil _) Ef) as Hinv. clear Ef.
  destruct (Hinv noslash [] (fun _ => eq_refl) (split_noslash p)) as (Hg & _ & Hdd & _). apply Forall_rev in Hg.
  exists (repeat dotdot dd ++ rev real). repeat split.
  - exists dd, (rev real). auto.
  - intro st. destruct (Hinv noslash (if rooted p then [] else st)) as (_ & _ & _ & Hw);
      [destruct (rooted p); easy|apply split_noslash|].
    cbn [app skipn] in Hw. rewrite segs_split, Hw, walk_app, walk_dotdots, walk_good, rev_involutive by exact Hg.
    reflexivity.
  - intros P Pdd HP. destruct (Hinv P [] (fun _ => eq_refl) HP) as (_ & Hp & _).
    apply Forall_app. split; [apply Forall_repeat, Pdd|apply Forall_rev, Hp].
Qed.

Lemma clean_rooted p : rooted (clean p) = rooted p.
Proof. destruct (clean_render p) as (e & He & -> & _). apply rooted_render, (shape_elems _ _ He). Qed.

Lemma clean_walk p st :
  walk (if rooted p then [] else st) (segs (clean p)) = walk (if rooted p then [] else st) (segs p).
Proof.
  destruct (clean_render p) as (e & He & -> & Hw & _). rewrite walk_render by apply (shape_elems _ _ He). apply Hw.
Qed.

Theorem clean_denotes cwd p : denote cwd (clean p) = denote cwd p.
Proof.
  destruct (clean_render p) as (e & He & -> & Hw & _).
  apply render_denotes; [apply (shape_elems _ _ He)|apply Hw].
Qed.

(* where CleanDot and CleanPath write a list of parts, a lone "" is written "/" *)
Lemma match_not_root {A} (ps : list str) (a : A) (f : list str -> A) :
  ps <> [[]] -> match ps with [[]] => a | ps' => f ps' end = f ps.
Proof. destruct ps as [|[|c x] [|y t]]; intro H; try reflexivity. contradiction. Qed.

Lemma clean_dot_render p : clean_dot p = p \/ clean_dot p = render (rooted p) (names p).
Proof.
  destruct p as [|c s] eqn:Ep; [left; reflexivity|]. rewrite <- Ep. unfold clean_dot.
  destruct (_ && _); [left; reflexivity|right].
  rewrite parts_components by (subst; discriminate).
  rewrite <- (render_components _ _ (names_elem p)). change (root_mark (rooted p) ++ names p) with (components p).
  destruct (components p) as [|[|c1 x] [|y t]]; reflexivity.
Qed.

Theorem clean_dot_denotes cwd p : denote cwd (clean_dot p) = denote cwd p.
Proof.
  destruct (clean_dot_render p) as [-> | ->]; [reflexivity|].
  apply render_denotes; [apply names_elem|apply walk_names].
Qed.

Lemma clean_path_loop_eq a b c d tl_ :
  clean_path_loop (a :: b :: c :: d :: tl_) =
  if negb (is_dotdot a) && negb (is_dotdot b) && is_dotdot c && is_dotdot d
     && match tl_ with [] => true | e :: _ => negb (is_dotdot e) end
  then clean_path_loop tl_ else a :: clean_path_loop (b :: c :: d :: tl_).
Proof. reflexivity. Qed.

Lemma elem_real x : elem x -> is_dotdot x = false -> real_name x = true.
Proof. intros [H _] H2. unfold real_name. change (seg_is_dotdot x) with (is_dotdot x). rewrite H, H2. reflexivity. Qed.

(* The loop deletes groups "a/b/../.." where a and b are names, and keeps single elements;
   it recurs on rest[4:] and on rest[1:], hence the induction on the length. *)
Lemma clean_path_loop_elems l :
  Forall elem l ->
  Forall elem (clean_path_loop l) /\ forall st, walk st (clean_path_loop l) = walk st l.
Proof.
  remember (length l) as n eqn:Hn. assert (Hlen : (length l <= n)%nat) by lia. clear Hn.
  revert l Hlen. induction n as [|n IH]; intros l Hlen He.
  - destruct l; [auto|inversion Hlen].
  - destruct l as [|a [|b [|c [|d tl_]]]]; auto.
    rewrite clean_path_loop_eq. cbn [length] in Hlen. destruct (_ && _) eqn:E.
    + repeat (apply andb_true_iff in E as [E ?]). apply negb_true_iff in E, H2.
      apply str_eqb_spec in H0, H1. subst c d.
      apply Forall_cons_iff in He as [Ea He]. apply Forall_cons_iff in He as [Eb He].
      do 2 apply Forall_inv_tail in He. destruct (IH tl_) as [IH1 IH2]; [lia|exact He|].
      split; [exact IH1|]. intro st.
      rewrite IH2, !walk_cons, (walk_step_name st a), (walk_step_name _ b) by auto using elem_real. reflexivity.
    + destruct (IH (b :: c :: d :: tl_)) as [IH1 IH2]; [cbn [length]; lia|apply (Forall_inv_tail He)|].
      split; [constructor; [apply (Forall_inv He)|exact IH1]|]. intro st. rewrite !walk_cons. apply IH2.
Qed.

(* CleanPath leaves the first two parts alone; a leading "" is not among the elements *)
Lemma clean_path_from k ns :
  Forall elem ns ->
  let e := firstn k ns ++ clean_path_loop (skipn k ns) in
  Forall elem e /\ forall st, walk st e = walk st ns.
Proof.
  intro H. rewrite <- (firstn_skipn k ns) in H. apply Forall_app in H as [H1 H2].
  destruct (clean_path_loop_elems _ H2) as [H3 H4]. split.
  - apply Forall_app. auto.
  - intro st. rewrite walk_app, H4, <- walk_app, firstn_skipn. reflexivity.
Qed.

Lemma clean_path_render p :
  exists e, Forall elem e /\ (forall st, walk st e = walk st (names p)) /\ clean_path p = render (rooted p) e.
Proof.
  destruct p as [|c s] eqn:Ep; [exists []; repeat split; constructor|]. rewrite <- Ep.
  unfold clean_path. rewrite parts_components, components_names by (subst; discriminate).
  pose proof (names_elem p) as Hn. destruct (rooted p).
  - destruct (clean_path_from 1 _ Hn) as [He Hw]. eexists. split; [exact He|]. split; [exact Hw|].
    apply (render_components true _ He).
  - destruct (names p) as [|x ns] eqn:En; [exists []; repeat split; constructor|]. rewrite <- En in *.
    destruct (clean_path_from 2 _ Hn) as [He Hw]. eexists. split; [exact He|]. split; [exact Hw|].
    rewrite <- (render_components false _ He). rewrite En. reflexivity.
Qed.

Theorem clean_path_denotes cwd p : denote cwd (clean_path p) = denote cwd p.
Proof.
  destruct (clean_path_render p) as (e & He & Hw & ->).
  apply render_denotes; [exact He|]. rewrite Hw. apply walk_names.
Qed.
