(* Helper lemmas for Model/FileCache.v: upd, association lists, swap_remove, filter. *)
From PV Require Import Lib.Bytes Model.FileCache.
From Coq Require Import Permutation Arith.
Open Scope N_scope.

Lemma upd_length {A} n (x : A) l : length (upd n x l) = length l.
Proof. revert n; induction l as [|h t IH]; intros [|n]; simpl; auto. Qed.

Lemma nth_upd_same {A} n (x d : A) l : (n < length l)%nat -> nth n (upd n x l) d = x.
Proof. revert n; induction l as [|h t IH]; intros [|n] H; simpl in *; try lia; auto. apply IH; lia. Qed.

Lemma nth_upd_other {A} n m (x d : A) l : n <> m -> nth m (upd n x l) d = nth m l d.
Proof.
  revert n m; induction l as [|h t IH]; intros [|n] [|m] H; simpl; auto; try congruence.
Qed.

Lemma upd_beyond {A} n (x : A) l : (length l <= n)%nat -> upd n x l = l.
Proof. revert n; induction l as [|h t IH]; intros [|n] H; simpl in *; auto; try lia. f_equal; apply IH; lia. Qed.

Lemma upd_comm {A} n m (x y : A) l : n <> m -> upd n x (upd m y l) = upd m y (upd n x l).
Proof.
  revert n m; induction l as [|h t IH]; intros [|n] [|m] H; simpl; auto; try congruence.
  f_equal. apply IH. congruence.
Qed.

Lemma upd_app_mid {A} (l1 : list A) x y l2 : upd (length l1) y (l1 ++ x :: l2) = l1 ++ y :: l2.
Proof. induction l1; simpl; auto. f_equal; auto. Qed.

Lemma nth_app_l {A} n (l l' : list A) d : (n < length l)%nat -> nth n (l ++ l') d = nth n l d.
Proof. intros; apply app_nth1; auto. Qed.

Lemma nth_error_snoc {A} (l : list A) x v y :
  nth_error (l ++ [x]) v = Some y ->
  ((v < length l)%nat /\ nth_error l v = Some y) \/ (v = length l /\ y = x).
Proof.
  intros H. destruct (Nat.lt_ge_cases v (length l)).
  - left. rewrite nth_error_app1 in H; auto.
  - right. rewrite nth_error_app2 in H by auto.
    destruct (v - length l)%nat as [|[|n]] eqn:E; simpl in H; try discriminate.
    inversion H. split; auto. lia.
Qed.

Lemma nth_error_snoc_old {A} (l : list A) x v y :
  nth_error l v = Some y -> nth_error (l ++ [x]) v = Some y.
Proof. intros H. rewrite nth_error_app1; auto. apply nth_error_Some. congruence. Qed.

Lemma fold_left_perm {A B} (f : A -> B -> A) : (forall s x y, f (f s x) y = f (f s y) x) ->
  forall l1 l2, Permutation l1 l2 -> forall s, fold_left f l1 s = fold_left f l2 s.
Proof.
  intros C l1 l2 P. induction P; intros s; simpl; auto.
  - rewrite C; auto.
  - rewrite IHP1; auto.
Qed.

Lemma filter_nil {A} (f : A -> bool) l : (forall x, In x l -> f x = false) -> filter f l = [].
Proof. induction l as [|x t IH]; simpl; intros H; auto. rewrite H, IH; auto. Qed.

Lemma filter_id {A} (f : A -> bool) l : (forall x, In x l -> f x = true) -> filter f l = l.
Proof. induction l as [|x t IH]; simpl; intros H; auto. rewrite H, IH; auto. Qed.

Lemma filter_rev {A} (f : A -> bool) l : filter f (rev l) = rev (filter f l).
Proof.
  induction l as [|x t IH]; simpl; auto. rewrite filter_app, IH. simpl.
  destruct (f x); simpl; auto using app_nil_r.
Qed.

Lemma filter_perm {A} (f : A -> bool) l1 l2 : Permutation l1 l2 -> Permutation (filter f l1) (filter f l2).
Proof.
  induction 1; simpl; auto.
  - destruct (f x); auto.
  - destruct (f x), (f y); auto. apply perm_swap.
  - eapply Permutation_trans; eauto.
Qed.

Lemma filter_partition {A} (f : A -> bool) l :
  Permutation l (filter f l ++ filter (fun x => negb (f x)) l).
Proof.
  induction l as [|x t IH]; simpl; auto.
  destruct (f x); simpl; auto. apply Permutation_cons_app; auto.
Qed.

Lemma map_get_del {V} k k' (m : list (N * V)) :
  map_get k (map_del k' m) = if k =? k' then None else map_get k m.
Proof.
  induction m as [|[k2 v] t IH]; simpl; [destruct (k =? k'); auto|].
  destruct (N.eqb_spec k2 k'), (N.eqb_spec k k'); simpl; auto; destruct (N.eqb_spec k2 k); congruence.
Qed.

Lemma map_get_del_same {V} k (m : list (N * V)) : map_get k (map_del k m) = None.
Proof. rewrite map_get_del, N.eqb_refl; auto. Qed.

Lemma map_get_del_other {V} k k' (m : list (N * V)) : k <> k' -> map_get k (map_del k' m) = map_get k m.
Proof. intros H. rewrite map_get_del. destruct (N.eqb_spec k k'); congruence. Qed.

Lemma map_get_set_same {V} k (v : V) m : map_get k (map_set k v m) = Some v.
Proof. unfold map_set; simpl. rewrite N.eqb_refl; auto. Qed.

Lemma map_get_set_other {V} k k' (v : V) m : k <> k' -> map_get k (map_set k' v m) = map_get k m.
Proof.
  intros H. unfold map_set; simpl. destruct (N.eqb_spec k' k); try congruence.
  apply map_get_del_other; auto.
Qed.

Lemma map_del_comm {V} a b (m : list (N * V)) : map_del a (map_del b m) = map_del b (map_del a m).
Proof.
  induction m as [|[k v] t IH]; simpl; auto.
  destruct (k =? b) eqn:Eb, (k =? a) eqn:Ea; simpl; rewrite ?Eb, ?Ea; auto. f_equal; auto.
Qed.

Lemma map_del_keys {V} k k' (m : list (N * V)) :
  In k' (map fst (map_del k m)) <-> In k' (map fst m) /\ k' <> k.
Proof.
  induction m as [|[k2 v] t IH]; simpl; [tauto|].
  destruct (N.eqb_spec k2 k); simpl; rewrite IH; intuition congruence.
Qed.

Lemma map_del_nodup {V} k (m : list (N * V)) : NoDup (map fst m) -> NoDup (map fst (map_del k m)).
Proof.
  induction m as [|[k2 v] t IH]; simpl; intros H; auto.
  inversion H; subst. destruct (N.eqb_spec k2 k); simpl; auto.
  constructor; auto. rewrite map_del_keys. tauto.
Qed.

Lemma map_set_nodup {V} k (v : V) m : NoDup (map fst m) -> NoDup (map fst (map_set k v m)).
Proof.
  intros H. unfold map_set; simpl. constructor; [|apply map_del_nodup; auto].
  rewrite map_del_keys. tauto.
Qed.

Lemma map_get_in {V} k (m : list (N * V)) v : map_get k m = Some v -> In k (map fst m).
Proof.
  induction m as [|[k2 v2] t IH]; simpl; [discriminate|].
  destruct (N.eqb_spec k2 k); auto.
Qed.

Lemma map_get_none {V} k (m : list (N * V)) : map_get k m = None <-> ~ In k (map fst m).
Proof.
  induction m as [|[k2 v2] t IH]; simpl; [tauto|].
  destruct (N.eqb_spec k2 k); [split; [discriminate | tauto] | rewrite IH; tauto].
Qed.

Definition map_dels {V} (ks : list N) (m : list (N * V)) : list (N * V) :=
  fold_left (fun m k => map_del k m) ks m.

Lemma map_dels_del {V} ks k (m : list (N * V)) : map_dels ks (map_del k m) = map_del k (map_dels ks m).
Proof.
  revert m; induction ks as [|a t IH]; intros m; simpl; auto.
  rewrite map_del_comm. apply IH.
Qed.

Lemma map_get_dels {V} ks k (m : list (N * V)) :
  map_get k (map_dels ks m) = if existsb (N.eqb k) ks then None else map_get k m.
Proof.
  revert m; induction ks as [|a t IH]; intros m; simpl; auto.
  rewrite IH, map_get_del. destruct (k =? a); simpl; auto. destruct (existsb _ t); auto.
Qed.

Lemma map_dels_perm {V} ks ks' (m : list (N * V)) : Permutation ks ks' -> map_dels ks m = map_dels ks' m.
Proof. intros P. apply fold_left_perm; auto. intros; apply map_del_comm. Qed.

Lemma find_idx_notin x l : ~ In x l -> find_idx x l = None.
Proof.
  induction l as [|y t IH]; simpl; intros H; auto.
  destruct (Nat.eqb_spec y x); [tauto|]. rewrite IH; auto.
Qed.

Lemma find_idx_first x l1 l2 : ~ In x l1 -> find_idx x (l1 ++ x :: l2) = Some (length l1).
Proof.
  induction l1 as [|y t IH]; simpl; intros H; [rewrite Nat.eqb_refl; auto|].
  destruct (Nat.eqb_spec y x); [tauto|]. rewrite IH; auto.
Qed.

Lemma last_app_cons {A} (l1 : list A) x l2 d : last (l1 ++ x :: l2) d = last (x :: l2) d.
Proof. induction l1 as [|a t IH]; auto. rewrite <- IH. simpl. destruct (t ++ x :: l2) eqn:E; auto. destruct t; discriminate. Qed.

Lemma swap_remove_notin x l : ~ In x l -> swap_remove x l = l.
Proof. intros H. unfold swap_remove. rewrite find_idx_notin; auto. Qed.

Lemma swap_remove_split x l1 l2 : ~ In x l1 ->
  swap_remove x (l1 ++ x :: l2) =
  match l2 with [] => l1 | _ => l1 ++ last l2 O :: removelast l2 end.
Proof.
  intros Hn. unfold swap_remove. rewrite find_idx_first, last_app_cons, upd_app_mid by auto.
  rewrite removelast_app by discriminate. destruct l2; simpl; auto using app_nil_r.
Qed.

Lemma swap_remove_perm x l : In x l -> NoDup l -> Permutation l (x :: swap_remove x l).
Proof.
  intros Hin Hnd. destruct (in_split _ _ Hin) as (l1 & l2 & ->).
  assert (Hn : ~ In x l1) by (intros H; apply (NoDup_remove_2 _ _ _ Hnd), in_or_app; auto).
  rewrite swap_remove_split by auto. apply Permutation_sym.
  destruct l2 as [|z l2'].
  - apply Permutation_cons_append.
  - apply Permutation_cons_app, Permutation_app_head.
    eapply Permutation_trans; [apply Permutation_cons_append|].
    rewrite <- app_removelast_last; auto. discriminate.
Qed.

Lemma swap_remove_in x l y : NoDup l -> (In y (swap_remove x l) <-> In y l /\ y <> x).
Proof.
  intros Hnd. destruct (in_dec Nat.eq_dec x l) as [Hin|Hn].
  - pose proof (swap_remove_perm x l Hin Hnd) as P.
    assert (Hnd' : NoDup (x :: swap_remove x l)) by (eapply Permutation_NoDup; eauto).
    inversion Hnd'; subst. split.
    + intros H. split; [eapply Permutation_in; [apply Permutation_sym; eauto|right; auto]|]. intros ->; auto.
    + intros [H Hne]. apply (Permutation_in _ P) in H. destruct H; [congruence|auto].
  - rewrite swap_remove_notin by auto. split; [intros H; split; auto; intros ->; auto|tauto].
Qed.

Lemma swap_remove_length x l : In x l -> NoDup l -> S (length (swap_remove x l)) = length l.
Proof. intros Hin Hnd. rewrite (Permutation_length (swap_remove_perm x l Hin Hnd)). auto. Qed.
