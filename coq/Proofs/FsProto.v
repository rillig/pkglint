(* C05: the save protocol is crash-atomic. *)
From PV Require Import Lib.Bytes Model.FsProto Spec.CrashSpec.
Open Scope N_scope.

Lemma path_dec (p q : path) : {p = q} + {p <> q}.
Proof. apply (list_eq_dec N.eq_dec). Qed.

Lemma str_eqb_sym a b : str_eqb a b = str_eqb b a.
Proof. exact (Bytes.str_eqb_sym a b). Qed.

Lemma existsb_str_iff p l : existsb (str_eqb p) l = true <-> In p l.
Proof.
  rewrite existsb_exists. split.
  - intros [x [Hx E]]. apply str_eqb_spec in E. subst. exact Hx.
  - intro H. exists p. split; [exact H|apply str_eqb_refl].
Qed.

Lemma lookup_remove_eq p m : lookup p (remove p m) = None.
Proof.
  induction m as [|[q f] m IH]; simpl; [reflexivity|].
  destruct (str_eqb q p) eqn:E; [exact IH|]. simpl. rewrite E. exact IH.
Qed.

Lemma lookup_remove_neq p q m : p <> q -> lookup p (remove q m) = lookup p m.
Proof.
  intro H. induction m as [|[r f] m IH]; simpl; [reflexivity|].
  destruct (str_eqb r q) eqn:E.
  - apply str_eqb_spec in E. subst r.
    rewrite (str_eqb_neq q p) by congruence. exact IH.
  - simpl. destruct (str_eqb r p); [reflexivity|exact IH].
Qed.

Lemma lookup_set_eq p v m : lookup p (set p v m) = Some v.
Proof. unfold set. simpl. rewrite str_eqb_refl. reflexivity. Qed.

Lemma lookup_set_neq p q v m : p <> q -> lookup p (set q v m) = lookup p m.
Proof.
  intro H. unfold set. simpl. rewrite (str_eqb_neq q p) by congruence.
  apply lookup_remove_neq. exact H.
Qed.

Lemma lookup_in p f m : lookup p m = Some f -> exists g, In (p, g) m.
Proof.
  induction m as [|[q g] m IH]; simpl; [discriminate|].
  destruct (str_eqb q p) eqn:E.
  - apply str_eqb_spec in E. subst. intros _. exists g. left. reflexivity.
  - intro H. destruct (IH H) as [g' Hg]. exists g'. right. exact Hg.
Qed.

Lemma both_trees (Q : path -> Prop) init cur :
  (forall p g, In (p, g) init \/ In (p, g) cur -> Q p -> lookup p cur = lookup p init) ->
  forall p, Q p -> lookup p cur = lookup p init.
Proof.
  intros H p Hq. destruct (lookup p init) as [f0|] eqn:Li.
  - destruct (lookup_in p f0 init Li) as [g Hg]. rewrite <- Li. apply (H p g); auto.
  - destruct (lookup p cur) as [f1|] eqn:Lc; [|reflexivity].
    destruct (lookup_in p f1 cur Lc) as [g Hg]. rewrite <- Lc, <- Li. apply (H p g); auto.
Qed.

Lemma fd_lookup_set_eq fd v t : fd_lookup fd (fd_set fd v t) = Some v.
Proof. unfold fd_set. simpl. rewrite N.eqb_refl. reflexivity. Qed.

Lemma tmp_name_neq f : tmp_name f <> f.
Proof.
  unfold tmp_name. intro H. apply (f_equal (@length N)) in H.
  rewrite app_length in H. simpl in H. lia.
Qed.

Definition content (m : fsmap) (p : path) : option str := option_map f_data (lookup p m).

Lemma lookup_step_chmod_neq s f m p :
  p <> f -> lookup p (st_fs (fst (step s (Chmod f m)))) = lookup p (st_fs s).
Proof.
  intro H. cbn [step]. destruct (lookup f (st_fs s)) as [f0|]; [|reflexivity].
  apply lookup_set_neq. exact H.
Qed.

Lemma lookup_step_openexcl_neq s fd f perm p :
  p <> f -> lookup p (st_fs (fst (step s (OpenExcl fd f perm)))) = lookup p (st_fs s).
Proof.
  intro H. cbn [step]. destruct (lookup f (st_fs s)); [reflexivity|].
  apply lookup_set_neq. exact H.
Qed.

Lemma lookup_step_unlink_neq s f p :
  p <> f -> lookup p (st_fs (fst (step s (Unlink f)))) = lookup p (st_fs s).
Proof.
  intro H. cbn [step]. destruct (lookup f (st_fs s)); [|reflexivity].
  apply lookup_remove_neq. exact H.
Qed.

Lemma lookup_step_rename_neq s a b p :
  p <> a -> p <> b -> lookup p (st_fs (fst (step s (Rename a b)))) = lookup p (st_fs s).
Proof.
  intros Ha Hb. cbn [step]. destruct (lookup a (st_fs s)); [|reflexivity].
  destruct (str_eqb a b); [reflexivity|]. cbn [fst st_fs].
  rewrite lookup_set_neq, lookup_remove_neq by assumption. reflexivity.
Qed.

Lemma lookup_step_chmod_none s f m p :
  lookup p (st_fs s) = None -> lookup p (st_fs (fst (step s (Chmod f m)))) = None.
Proof.
  intro H. destruct (path_dec p f) as [->|Hpf]; [|rewrite lookup_step_chmod_neq; assumption].
  cbn [step]. rewrite H. exact H.
Qed.

Lemma content_step_chmod s f m p :
  content (st_fs (fst (step s (Chmod f m)))) p = content (st_fs s) p.
Proof.
  unfold content. destruct (path_dec p f) as [->|H]; [|rewrite lookup_step_chmod_neq by exact H; reflexivity].
  cbn [step]. destruct (lookup f (st_fs s)) as [f0|] eqn:El; cbn [fst st_fs]; [|rewrite El; reflexivity].
  rewrite lookup_set_eq. reflexivity.
Qed.

Lemma exec_app a b s : exec (a ++ b) s = exec b (exec a s).
Proof. unfold exec. apply fold_left_app. Qed.

Lemma exec_snoc ops o s : exec (ops ++ [o]) s = fst (step (exec ops s) o).
Proof. apply exec_app. Qed.

Lemma crash_of_full a : crash_of a a.
Proof. rewrite <- (firstn_all a) at 2. apply crash_prefix. Qed.

Lemma crash_of_nil t : crash_of [] t -> t = [].
Proof.
  intro H. inversion H as [k|k fd data n Hn]; subst.
  - destruct k; reflexivity.
  - destruct k; discriminate.
Qed.

Lemma crash_of_cons o ops t : crash_of (o :: ops) t ->
  t = [] \/ (exists fd d n, o = Write fd d /\ t = [Write fd (firstn n d)]) \/
  exists t', t = o :: t' /\ crash_of ops t'.
Proof.
  intro H. inversion H as [k|k fd d n Hn]; subst.
  - destruct k as [|k]; [left; reflexivity|]. right; right.
    exists (firstn k ops). split; [reflexivity|apply crash_prefix].
  - destruct k as [|k]; cbn [nth_error] in Hn.
    + injection Hn as ->. right; left. exists fd, d, n. split; reflexivity.
    + right; right. exists (firstn k ops ++ [Write fd (firstn n d)]).
      split; [reflexivity|apply crash_partial; exact Hn].
Qed.

Lemma crash_of_call o ops t : (forall fd d, o <> Write fd d) -> crash_of (o :: ops) t ->
  t = [] \/ exists t', t = o :: t' /\ crash_of ops t'.
Proof.
  intros Ho H. apply crash_of_cons in H.
  destruct H as [H|[(fd & d & n & E & _)|H]]; [left; exact H|destruct (Ho fd d E)|right; exact H].
Qed.

Lemma crash_of_single o t :
  (forall fd d, o <> Write fd d) -> crash_of [o] t -> t = [] \/ t = [o].
Proof.
  intros Ho H. apply crash_of_call in H; [|exact Ho]. destruct H as [H|(t' & -> & H)]; [left; exact H|right].
  apply crash_of_nil in H. subst. reflexivity.
Qed.

Lemma crash_of_app a b t :
  crash_of (a ++ b) t -> crash_of a t \/ exists t', t = a ++ t' /\ crash_of b t'.
Proof.
  revert t. induction a as [|o a IH]; intros t H; [right; exists t; split; [reflexivity|exact H]|].
  cbn [app] in H. apply crash_of_cons in H. destruct H as [->|[(fd & d & n & -> & ->)|(t' & -> & H)]].
  - left. apply (crash_prefix _ 0).
  - left. apply (crash_partial _ 0 fd d n). reflexivity.
  - destruct (IH t' H) as [H'|(t'' & -> & H')].
    + left. inversion H' as [k|k fd d n Hn]; subst.
      * exact (crash_prefix (o :: a) (S k)).
      * exact (crash_partial (o :: a) (S k) fd d n Hn).
    + right. exists t''. split; [reflexivity|exact H'].
Qed.

Definition tmp_only (s s' : state) (tmp : path) : Prop :=
  forall p, p <> tmp -> lookup p (st_fs s') = lookup p (st_fs s).

Record writing (s s' : state) (tmp : path) (d : str) (m : N) : Prop := {
  wr_only : tmp_only s s' tmp;
  wr_tmp : lookup tmp (st_fs s') = Some (mkfile KReg d m);
  wr_fd : fd_lookup 0 (st_fds s') = Some (Some tmp)
}.

Record closed (s s' : state) (tmp : path) (d : str) (m : N) : Prop := {
  cl_only : tmp_only s s' tmp;
  cl_tmp : lookup tmp (st_fs s') = Some (mkfile KReg d m)
}.

Arguments wr_only {s s' tmp d m}.
Arguments cl_only {s s' tmp d m}.
Arguments cl_tmp {s s' tmp d m}.

Lemma tmp_only_refl s tmp : tmp_only s s tmp.
Proof. intros p _. reflexivity. Qed.

Lemma step_openexcl_taken s tmp f0 :
  lookup tmp (st_fs s) = Some f0 -> step s (OpenExcl 0 tmp 438) = (s, Some EEXIST).
Proof. intro H. cbn [step]. rewrite H. reflexivity. Qed.

Lemma step_openexcl_free s tmp :
  lookup tmp (st_fs s) = None ->
  snd (step s (OpenExcl 0 tmp 438)) = None /\
  writing s (fst (step s (OpenExcl 0 tmp 438))) tmp [] (N.ldiff 438 (st_umask s)).
Proof.
  intro H. cbn [step]. rewrite H. cbn [fst snd]. split; [reflexivity|]. constructor; cbn [st_fs st_fds].
  - intros p Hp. apply lookup_set_neq. exact Hp.
  - apply lookup_set_eq.
  - apply fd_lookup_set_eq.
Qed.

Lemma step_write s s' tmp d m d' :
  writing s s' tmp d m ->
  snd (step s' (Write 0 d')) = None /\ writing s (fst (step s' (Write 0 d'))) tmp (d ++ d') m.
Proof.
  intros [Ho Ht Hf]. cbn [step]. rewrite Hf, Ht. cbn [fst snd f_data f_mode]. split; [reflexivity|].
  constructor; cbn [st_fs st_fds].
  - intros p Hp. cbn [st_fs]. rewrite lookup_set_neq by exact Hp. apply Ho. exact Hp.
  - apply lookup_set_eq.
  - exact Hf.
Qed.

Lemma step_close s s' tmp d m :
  writing s s' tmp d m ->
  snd (step s' (Close 0)) = None /\ closed s (fst (step s' (Close 0))) tmp d m.
Proof.
  intros [Ho Ht Hf]. cbn [step]. rewrite Hf. cbn [fst snd]. split; [reflexivity|].
  constructor; cbn [st_fs]; assumption.
Qed.

Lemma step_chmod_tmp s s' tmp d m m' :
  closed s s' tmp d m ->
  snd (step s' (Chmod tmp m')) = None /\ closed s (fst (step s' (Chmod tmp m'))) tmp d m'.
Proof.
  intros [Ho Ht]. cbn [step]. rewrite Ht. cbn [fst snd f_data]. split; [reflexivity|].
  constructor; cbn [st_fs].
  - intros p Hp. cbn [st_fs]. rewrite lookup_set_neq by exact Hp. apply Ho. exact Hp.
  - apply lookup_set_eq.
Qed.

Lemma step_rename_tmp s s' tmp f d m :
  closed s s' tmp d m -> tmp <> f ->
  snd (step s' (Rename tmp f)) = None /\
  lookup f (st_fs (fst (step s' (Rename tmp f)))) = Some (mkfile KReg d m) /\
  lookup tmp (st_fs (fst (step s' (Rename tmp f)))) = None /\
  (forall p, p <> tmp -> p <> f -> lookup p (st_fs (fst (step s' (Rename tmp f)))) = lookup p (st_fs s)).
Proof.
  intros [Ho Ht] Hne. cbn [step]. rewrite Ht. rewrite (str_eqb_neq _ _ Hne). cbn [fst snd st_fs].
  split; [reflexivity|]. split; [apply lookup_set_eq|]. split.
  - rewrite lookup_set_neq by exact Hne. apply lookup_remove_eq.
  - intros p H1 H2. rewrite lookup_set_neq by exact H2. rewrite lookup_remove_neq by exact H1.
    apply Ho. exact H1.
Qed.

Lemma step_unlink_tmp s s' tmp f0 :
  tmp_only s s' tmp -> lookup tmp (st_fs s') = Some f0 ->
  snd (step s' (Unlink tmp)) = None /\
  tmp_only s (fst (step s' (Unlink tmp))) tmp /\
  lookup tmp (st_fs (fst (step s' (Unlink tmp)))) = None.
Proof.
  intros Ho Ht. cbn [step]. rewrite Ht. cbn [fst snd st_fs]. split; [reflexivity|]. split.
  - intros p Hp. cbn [st_fs]. rewrite lookup_remove_neq by exact Hp. apply Ho. exact Hp.
  - apply lookup_remove_eq.
Qed.

Section OneSave.
  Variable s : state.
  Variable f : path.
  Variable new : str.
  Hypothesis Hfree : lookup (tmp_name f) (st_fs s) = None.

  Let tmp := tmp_name f.
  Let tm := N.ldiff 438 (st_umask s).
  Let A := [OpenExcl 0 tmp 438; Write 0 new; Close 0].
  Definition final_mode : N :=
    match lookup f (st_fs s) with Some old => f_mode old | None => N.ldiff 438 (st_umask s) end.
  Let chm := match lookup f (st_fs s) with Some old => [Chmod tmp (f_mode old)] | None => [] end.

  Lemma save_ops_free : save_ops s f new = A ++ chm ++ [Rename tmp f].
  Proof. unfold save_ops. rewrite Hfree. reflexivity. Qed.

  Lemma exec_open_w : writing s (exec [OpenExcl 0 tmp 438] s) tmp [] tm.
  Proof. apply (step_openexcl_free s tmp Hfree). Qed.

  (* for every d: also the partial writes *)
  Lemma exec_write_w d : writing s (exec [OpenExcl 0 tmp 438; Write 0 d] s) tmp d tm.
  Proof. apply (step_write s _ tmp [] tm d exec_open_w). Qed.

  Lemma exec_A_closed : closed s (exec A s) tmp new tm.
  Proof. apply (step_close s _ tmp new tm (exec_write_w new)). Qed.

  Lemma exec_chm_closed : closed s (exec (A ++ chm) s) tmp new final_mode.
  Proof.
    unfold chm, final_mode. destruct (lookup f (st_fs s)) as [old|].
    - apply (step_chmod_tmp s _ tmp new tm (f_mode old) exec_A_closed).
    - exact exec_A_closed.
  Qed.

  Lemma exec_save_all :
    lookup f (st_fs (exec (save_ops s f new) s)) = Some (mkfile KReg new final_mode) /\
    lookup tmp (st_fs (exec (save_ops s f new) s)) = None /\
    (forall p, p <> tmp -> p <> f -> lookup p (st_fs (exec (save_ops s f new) s)) = lookup p (st_fs s)).
  Proof.
    rewrite save_ops_free, app_assoc, exec_snoc.
    apply (step_rename_tmp s _ tmp f new final_mode exec_chm_closed (tmp_name_neq f)).
  Qed.

  Lemma save_crash_only t :
    crash_of (save_ops s f new) t -> t = save_ops s f new \/ tmp_only s (exec t s) tmp.
  Proof.
    rewrite save_ops_free. intro Hc.
    apply crash_of_call in Hc; [|discriminate]. destruct Hc as [->|(t1 & -> & Hc)]; [right; apply tmp_only_refl|].
    apply crash_of_cons in Hc. destruct Hc as [->|[(fd & d & n & E & ->)|(t2 & -> & Hc)]].
    { right. apply (wr_only exec_open_w). }
    { injection E as <- <-. right. apply (wr_only (exec_write_w (firstn n new))). }
    apply crash_of_call in Hc; [|discriminate].
    destruct Hc as [->|(t3 & -> & Hc)]; [right; apply (wr_only (exec_write_w new))|].
    apply crash_of_app in Hc. destruct Hc as [Hc|(t4 & -> & Hc)].
    - (* inside the optional chmod *)
      right. assert (Ht3 : t3 = [] \/ t3 = chm).
      { unfold chm in *. destruct (lookup f (st_fs s)) as [old|].
        - apply crash_of_single in Hc; [exact Hc|discriminate].
        - left. apply crash_of_nil. exact Hc. }
      destruct Ht3 as [->| ->]; [apply (cl_only exec_A_closed)|apply (cl_only exec_chm_closed)].
    - (* the rename *)
      apply crash_of_single in Hc; [|discriminate]. destruct Hc as [->| ->]; [right|left; reflexivity].
      rewrite app_nil_r. apply (cl_only exec_chm_closed).
  Qed.
End OneSave.

(* the temporary name is taken: the only system call is the failing exclusive open *)
Lemma exec_taken s f new f0 t :
  lookup (tmp_name f) (st_fs s) = Some f0 -> crash_of (save_ops s f new) t -> exec t s = s.
Proof.
  intros Etmp Hc. unfold save_ops in Hc. rewrite Etmp in Hc.
  apply crash_of_single in Hc; [|discriminate]. destruct Hc as [->| ->]; [reflexivity|].
  unfold exec. cbn [fold_left]. rewrite (step_openexcl_taken s _ f0 Etmp). reflexivity.
Qed.

Lemma save_full_frame s f new p :
  p <> f -> lookup p (st_fs (exec (save_ops s f new) s)) = lookup p (st_fs s).
Proof.
  intro Hpf. destruct (lookup (tmp_name f) (st_fs s)) as [f0|] eqn:Etmp.
  - rewrite (exec_taken s f new f0 _ Etmp (crash_of_full _)). reflexivity.
  - destruct (exec_save_all s f new Etmp) as [_ [H2 H3]].
    destruct (path_dec p (tmp_name f)) as [->|Hpt]; [congruence|apply H3; assumption].
Qed.

Lemma save_crash s f new t :
  crash_of (save_ops s f new) t ->
  (forall p, lookup p (st_fs s) <> None \/ p <> tmp_name f ->
     lookup p (st_fs (exec t s)) = lookup p (st_fs s)) \/
  (content (st_fs (exec t s)) f = Some new /\
   forall p, p <> f -> lookup p (st_fs (exec t s)) = lookup p (st_fs s)).
Proof.
  intro Hc. destruct (lookup (tmp_name f) (st_fs s)) as [f0|] eqn:Etmp.
  - left. intros p _. rewrite (exec_taken s f new f0 t Etmp Hc). reflexivity.
  - destruct (save_crash_only s f new Etmp t Hc) as [->|H].
    + right. split; [|intros p Hp; apply save_full_frame; exact Hp].
      unfold content. rewrite (proj1 (exec_save_all s f new Etmp)). reflexivity.
    + left. intros p Hp. apply H. destruct Hp as [Hp|Hp]; congruence.
Qed.

Definition ok_rel (prog : list action) (p : path) (c0 c : option str) : Prop :=
  c = c0 \/ exists v, In v (versions prog p) /\ c = Some v.

Lemma versions_app a b p : versions (a ++ b) p = versions a p ++ versions b p.
Proof.
  induction a as [|[f new|f m|c f new] a IH]; simpl; [reflexivity| | |];
    try (destruct (str_eqb f p); simpl; rewrite IH; reflexivity); exact IH.
Qed.

Lemma ok_rel_refl prog p c : ok_rel prog p c c.
Proof. left. reflexivity. Qed.

Lemma ok_rel_trans a b p c0 c1 c2 :
  ok_rel a p c0 c1 -> ok_rel b p c1 c2 -> ok_rel (a ++ b) p c0 c2.
Proof.
  unfold ok_rel. rewrite versions_app. setoid_rewrite in_app_iff.
  intros [->|(v & Hv & ->)] [->|(w & Hw & ->)]; eauto.
Qed.

Lemma ok_rel_some prog p c0 c : ok_rel prog p c0 c -> c0 <> None -> c <> None.
Proof. intros [->|[v [_ ->]]] H; [exact H|discriminate]. Qed.

Definition ok_on (prog : list action) (s s' : state) : Prop :=
  forall p, content (st_fs s) p <> None ->
    ok_rel prog p (content (st_fs s) p) (content (st_fs s') p).

Lemma ok_on_atomic prog s s' : ok_on prog s s' -> atomic_at (st_fs s) prog (st_fs s').
Proof.
  intros H p f0 Hl. specialize (H p). unfold content in H. rewrite Hl in H.
  destruct H as [H|(v & Hv & H)]; [discriminate| |];
    (destruct (lookup p (st_fs s')) as [f1|]; [|discriminate]);
    injection H as H; exists f1; (split; [reflexivity|]); rewrite H; [left|right]; auto.
Qed.

Definition composes (R : list action -> state -> state -> Prop) : Prop :=
  (forall prog s, R prog s s) /\
  (forall a prog s s1 s2, R [a] s s1 -> R prog s1 s2 -> R (a :: prog) s s2).

Lemma ok_on_composes : composes ok_on.
Proof.
  split; [intros prog s p _; apply ok_rel_refl|].
  intros a prog s s1 s2 H1 H2 p Hp.
  apply (ok_rel_trans [a] prog p _ _ _ (H1 p Hp)), H2, (ok_rel_some _ _ _ _ (H1 p Hp) Hp).
Qed.

(* a crash point of a run: some complete actions, then a crash point of one action *)
Lemma crash_prog_ind (R : list action -> state -> state -> Prop) :
  composes R ->
  (forall s f new b t, crash_of (save_ops s f new) t ->
     R [ASave f new] s (exec t s) /\ R [AIfSaved b f new] s (exec t s)) ->
  (forall s f m, R [AChmod f m] s (fst (step s (Chmod f (N.ldiff m 73))))) ->
  forall prog saved s t, crash_of (prog_ops_from saved s prog) t -> R prog s (exec t s).
Proof.
  intros [Hrefl Htrans] Hsave Hchmod. induction prog as [|a prog IH]; intros saved s t Hc.
  { apply crash_of_nil in Hc. subst. apply Hrefl. }
  assert (Hs : forall f new b saved',
    crash_of (save_ops s f new ++ prog_ops_from saved' (exec (save_ops s f new) s) prog) t ->
    R (ASave f new :: prog) s (exec t s) /\ R (AIfSaved b f new :: prog) s (exec t s)).
  { intros f new b saved' Hc'. apply crash_of_app in Hc'. destruct Hc' as [Hc'|(t' & -> & Hc')].
    - destruct (Hsave s f new b t Hc'). split; (eapply Htrans; [eassumption|apply Hrefl]).
    - rewrite exec_app. destruct (Hsave s f new b _ (crash_of_full _)).
      split; (eapply Htrans; [eassumption|apply (IH _ _ _ Hc')]). }
  destruct a as [f new|f m|b f new]; cbn [prog_ops_from] in Hc.
  - apply (Hs f new true _ Hc).
  - apply crash_of_call in Hc; [|discriminate]. destruct Hc as [->|(t' & -> & Hc)]; [apply Hrefl|].
    apply (Htrans _ _ _ _ _ (Hchmod s f m)), (IH _ _ _ Hc).
  - destruct (Bool.eqb saved b); [apply (Hs f new b _ Hc)|].
    apply (Htrans _ _ _ _ _ (Hrefl _ s)), (IH _ _ _ Hc).
Qed.

Lemma save_crash_ok s f new b t :
  crash_of (save_ops s f new) t ->
  ok_on [ASave f new] s (exec t s) /\ ok_on [AIfSaved b f new] s (exec t s).
Proof.
  intro Hc.
  assert (H : forall p, content (st_fs s) p <> None ->
            content (st_fs (exec t s)) p = content (st_fs s) p \/
            (p = f /\ content (st_fs (exec t s)) p = Some new)).
  { intros p Hp. unfold content at 1 3.
    destruct (save_crash s f new t Hc) as [H|[Hf H]].
    - left. rewrite H; [reflexivity|]. left. intro E. apply Hp. unfold content. rewrite E. reflexivity.
    - destruct (path_dec p f) as [->|Hpf]; [right; auto|left; rewrite (H p Hpf); reflexivity]. }
  split; intros p Hp; (destruct (H p Hp) as [->|[-> ->]]; [apply ok_rel_refl|]);
    right; exists new; cbn [versions]; rewrite str_eqb_refl; (split; [left|]; reflexivity).
Qed.

Lemma crash_run prog saved s t : crash_of (prog_ops_from saved s prog) t -> ok_on prog s (exec t s).
Proof.
  apply (crash_prog_ind ok_on ok_on_composes save_crash_ok).
  intros s0 f m p _. rewrite content_step_chmod. apply ok_rel_refl.
Qed.

Definition orig (init : fsmap) (p : path) : Prop := exists f0, lookup p init = Some f0.

(* C05, for every initial tree: the exclusive open never touches an existing file, so no
   guard "no file is named F.pkglint.tmp" is needed *)
Theorem crash_atomic : forall (s : state) (prog : list action) (t : list op),
  crash_of (prog_ops s prog) t ->
  atomic_at (st_fs s) prog (st_fs (exec t s)).
Proof. intros s prog t Hc. apply ok_on_atomic, (crash_run prog false s t Hc). Qed.

Theorem no_file_disappears : forall (s : state) (prog : list action) (t : list op),
  crash_of (prog_ops s prog) t ->
  no_file_lost (st_fs s) (st_fs (exec t s)).
Proof.
  intros s prog t Hc p f0 Hl.
  destruct (crash_atomic s prog t Hc p f0 Hl) as [f1 [H _]]. exists f1. exact H.
Qed.

(* a complete save gives the new file the mode of the file it replaces, and leaves
   no temporary file *)
Theorem save_preserves_mode : forall (s : state) (f : path) (new : str) (old : file),
  lookup (tmp_name f) (st_fs s) = None -> lookup f (st_fs s) = Some old ->
  let s' := exec (save_ops s f new) s in
  lookup f (st_fs s') = Some (mkfile KReg new (f_mode old)) /\ lookup (tmp_name f) (st_fs s') = None.
Proof.
  intros s f new old Hfree Hold. destruct (exec_save_all s f new Hfree) as [H1 [H2 _]].
  unfold final_mode in H1. rewrite Hold in H1. split; [exact H1|exact H2].
Qed.

Lemma first_bad_none entries init prog cur :
  first_bad entries init prog cur = None ->
  forall p f, In (p, f) entries -> forall f0, lookup p init = Some f0 ->
  exists f1, lookup p cur = Some f1 /\ In (f_data f1) (f_data f0 :: versions prog p).
Proof.
  induction entries as [|[q g] entries IH]; intros H p f Hin f0 Hl; [destruct Hin|].
  cbn [first_bad] in H.
  match type of H with (if ?c then _ else _) = _ => destruct c eqn:Eok; [|discriminate] end.
  destruct Hin as [Heq|Hin]; [|apply (IH H p f Hin f0 Hl)].
  inversion Heq; subst q g. rewrite Hl in Eok.
  destruct (lookup p cur) as [f1|]; [|discriminate].
  exists f1. split; [reflexivity|]. apply existsb_str_iff, Eok.
Qed.

Theorem atomic_okb_sound : forall init prog cur,
  atomic_okb init prog cur = true -> atomic_at init prog cur.
Proof.
  intros init prog cur H p f0 Hl. unfold atomic_okb in H.
  destruct (first_bad init init prog cur) eqn:E; [discriminate|].
  destruct (lookup_in p f0 init Hl) as [g Hg].
  apply (first_bad_none init init prog cur E p g Hg f0 Hl).
Qed.

(* with the temporary file opened with O_TRUNC instead of O_EXCL the property fails *)
Definition trunc_tmp_crash_atomic : Prop :=
  forall (s : state) (f : path) (new : str) (t : list op),
    crash_of (trunc_tmp_ops f new) t -> atomic_at (st_fs s) [ASave f new] (st_fs (exec t s)).

Definition ug_a : path := [97].
Definition ug_state : state :=
  mkstate [(ug_a, mkfile KReg [111] 420); (tmp_name ug_a, mkfile KReg [112; 114; 101] 420)] [] 18.

Lemma trunc_tmp_refuted : ~ trunc_tmp_crash_atomic.
Proof.
  intro H. specialize (H ug_state ug_a [110] (firstn 1 (trunc_tmp_ops ug_a [110])) (crash_prefix _ 1)).
  destruct (H (tmp_name ug_a) (mkfile KReg [112; 114; 101] 420) eq_refl) as [f1 [Hl Hin]].
  vm_compute in Hl. inversion Hl; subst f1. vm_compute in Hin.
  destruct Hin as [Hin|[]]. discriminate.
Qed.

(* O_EXCL on the same tree: the open fails, both files keep their content *)
Definition ug_prog : list action := [ASave ug_a [110]].

Lemma excl_keeps_both :
  prog_ops ug_state ug_prog = [OpenExcl 0 (tmp_name ug_a) 438] /\
  exec (prog_ops ug_state ug_prog) ug_state = ug_state.
Proof. vm_compute. split; reflexivity. Qed.

(* the mode fix is one system call *)
Lemma chmod_atomic : forall (s : state) (f : path) (mode : N) (t : list op),
  crash_of (prog_ops s [AChmod f mode]) t ->
  (exec t s = s \/ exec t s = fst (step s (Chmod f (N.ldiff mode 73)))) /\
  mode_atomic_at (st_fs s) f (N.ldiff mode 73) (st_fs (exec t s)).
Proof.
  intros s f mode t Hc. apply crash_of_single in Hc; [|discriminate]. destruct Hc as [->| ->].
  - split; [left; reflexivity|]. intros f0 Hl. exists f0. auto.
  - split; [right; reflexivity|]. intros f0 Hl. unfold exec. cbn [fold_left step fst].
    rewrite Hl. cbn [fst st_fs]. exists (mkfile (f_kind f0) (f_data f0) (N.ldiff mode 73)).
    rewrite lookup_set_eq. auto.
Qed.
