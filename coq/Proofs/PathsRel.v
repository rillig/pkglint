(* C19: filepath.Rel / Path.Rel on cleaned paths: the elements of the result are
   [rel_list base target]. *)
From PV Require Import Lib.Bytes Model.Paths Spec.PathDenote Proofs.PathsBase Proofs.PathsClean
  Proofs.PathsRender.
Open Scope N_scope.

Lemma drop_last_empty_id l : Forall elem l -> drop_last_empty l = l.
Proof.
  induction 1 as [|x l Hx _ IH]; [reflexivity|]. destruct l as [|y l].
  - apply elem_nonempty in Hx. destruct x; [contradiction|reflexivity].
  - change (drop_last_empty (x :: y :: l)) with (x :: drop_last_empty (y :: l)). rewrite IH. reflexivity.
Qed.

Lemma rel_elems_render rt e :
  Forall elem e -> (rt = true \/ e <> []) -> rel_elems (render rt e) = root_mark rt ++ e.
Proof.
  intros He Hne. unfold rel_elems. rewrite split_render by exact He.
  destruct rt, e as [|x t]; try reflexivity.
  - change (drop_last_empty ([] :: x :: t)) with ([] :: drop_last_empty (x :: t)).
    rewrite drop_last_empty_id by exact He. reflexivity.
  - destruct Hne; [discriminate|contradiction].
  - apply drop_last_empty_id. exact He.
Qed.

Fixpoint diverge (b t : list str) : list str * list str :=
  match b, t with
  | x :: b', y :: t' => if str_eqb x y then diverge b' t' else (b, t)
  | _, _ => (b, t)
  end.

Definition rel_list (b t : list str) : list str :=
  let (b', t') := diverge b t in repeat dotdot (length b') ++ t'.

Lemma diverge_spec b t : exists c, b = c ++ fst (diverge b t) /\ t = c ++ snd (diverge b t).
Proof.
  revert t. induction b as [|x b IH]; intro t; [exists []; auto|].
  destruct t as [|y t]; [exists []; auto|]. simpl. destruct (str_eqb x y) eqn:E; [|exists []; auto].
  apply str_eqb_spec in E. subst y. destruct (IH t) as (c & Hb & Ht). exists (x :: c). simpl. split; congruence.
Qed.

Lemma diverge_prefix b rest : diverge b (b ++ rest) = ([], rest).
Proof.
  induction b as [|x b IH]; [destruct rest; reflexivity|]. simpl. rewrite str_eqb_refl. exact IH.
Qed.

Lemma diverge_same b : diverge b b = ([], []).
Proof. rewrite <- (app_nil_r b) at 2. apply diverge_prefix. Qed.

Lemma rel_strip_mark rt b t : rel_strip (root_mark rt ++ b) (root_mark rt ++ t) = rel_strip b t.
Proof. destruct rt; reflexivity. Qed.

Lemma rel_strip_diverge b : forall t, Forall elem b -> Forall elem t -> b <> t ->
  rel_strip b t = Some (diverge b t).
Proof.
  induction b as [|x b IH]; intros t Hb Ht Hne.
  - destruct t as [|y t]; [contradiction|]. apply Forall_inv, elem_nonempty in Ht.
    destruct y; [contradiction|reflexivity].
  - pose proof (elem_nonempty x (Forall_inv Hb)) as Hx. apply Forall_inv_tail in Hb.
    destruct t as [|y t]; simpl.
    + destruct x; [contradiction|reflexivity].
    + destruct (str_eqb x y) eqn:E; [|reflexivity]. apply str_eqb_spec in E. subst y.
      apply IH; [exact Hb|apply (Forall_inv_tail Ht)|congruence].
Qed.

Lemma rel_list_prefix b rest : rel_list b (b ++ rest) = rest.
Proof. unfold rel_list. rewrite diverge_prefix. reflexivity. Qed.

Lemma rel_list_Forall (P : str -> Prop) b t : P dotdot -> Forall P t -> Forall P (rel_list b t).
Proof.
  intros Pd Pt. unfold rel_list. destruct (diverge_spec b t) as (c & _ & Ht).
  destruct (diverge b t) as [b' t']. simpl in Ht. rewrite Ht in Pt. apply Forall_app in Pt as [_ Pt].
  apply Forall_app. split; [apply Forall_repeat, Pd|exact Pt].
Qed.

Lemma rel_walk st c b' t' :
  Forall good b' ->
  walk (walk st (c ++ b')) (repeat dotdot (length b') ++ t') = walk st (c ++ t').
Proof.
  intro Hb. rewrite (walk_app st c b'), (walk_good _ b' Hb).
  rewrite walk_app, walk_dotdots.
  replace (skipn (length b') (rev b' ++ walk st c)) with (walk st c).
  - rewrite <- walk_app. reflexivity.
  - rewrite <- (rev_length b'). rewrite skipn_app, Nat.sub_diag, skipn_all. reflexivity.
Qed.

Lemma rel_list_walk st b t :
  Forall good (fst (diverge b t)) -> walk (walk st b) (rel_list b t) = walk st t.
Proof.
  unfold rel_list. destruct (diverge_spec b t) as (c & Eb & Et).
  destruct (diverge b t) as [b' t']. simpl in *. intro Hb. rewrite Et, Eb at 1. apply rel_walk, Hb.
Qed.

Lemma rel_list_leads st b t :
  Forall elem t -> Forall good (fst (diverge b t)) ->
  walk (walk st b) (segs (render false (rel_list b t))) = walk st t.
Proof.
  intros Ht Hb. rewrite walk_render by (apply rel_list_Forall; [apply elem_dotdot|exact Ht]).
  apply rel_list_walk, Hb.
Qed.

Lemma rel_list_down b t x l : rel_list b t = x :: l -> x <> dotdot -> t = b ++ x :: l.
Proof.
  unfold rel_list. destruct (diverge_spec b t) as (c & Eb & Et).
  destruct (diverge b t) as [[|y b'] t']; simpl in *; intros E Hx.
  - rewrite app_nil_r in Eb. congruence.
  - injection E as E _. congruence.
Qed.

Lemma diverge_good b t : Forall good b -> Forall good (fst (diverge b t)).
Proof.
  intro Hb. destruct (diverge_spec b t) as (c & Eb & _). rewrite Eb in Hb. apply Forall_app in Hb. apply Hb.
Qed.

Lemma rel_go_render rt e1 e2 :
  shape rt e1 -> shape rt e2 -> (rt = true \/ e2 <> []) ->
  rel_go (render rt e1) (render rt e2) =
  if str_eqb (hd [] (fst (diverge e1 e2))) dotdot then RelErr else RelOk (render false (rel_list e1 e2)).
Proof.
  intros S1 S2 Hrt. pose proof (shape_elems _ _ S1) as H1. pose proof (shape_elems _ _ S2) as H2.
  unfold rel_go. rewrite (clean_of_render rt e1 S1), (clean_of_render rt e2 S2).
  destruct (str_eqb (render rt e2) (render rt e1)) eqn:E.
  { apply str_eqb_spec, render_inj in E as [_ <-]; [|assumption..].
    unfold rel_list. rewrite diverge_same. reflexivity. }
  assert (Hne : e1 <> e2) by (intros ->; rewrite str_eqb_refl in E; discriminate). clear E.
  set (base := if str_eqb (render rt e1) dotstr then [] else render rt e1).
  assert (Hbase : starts_slash base = rt /\ rel_elems base = root_mark rt ++ e1).
  { subst base. destruct (str_eqb (render rt e1) dotstr) eqn:Ed.
    - apply str_eqb_spec in Ed. apply (render_inj rt false e1 []) in Ed as [-> ->]; auto.
    - split; [apply (rooted_render rt e1 H1)|]. apply rel_elems_render; [exact H1|].
      destruct rt; [left; reflexivity|right]. intros ->. discriminate. }
  destruct Hbase as [-> ->].
  change (starts_slash (render rt e2)) with (rooted (render rt e2)). rewrite (rooted_render rt e2 H2), eqb_reflx.
  rewrite (rel_elems_render rt e2 H2 Hrt), rel_strip_mark, (rel_strip_diverge e1 e2 H1 H2 Hne).
  unfold rel_list. destruct (diverge_spec e1 e2) as (c & E1 & E2). destruct (diverge e1 e2) as [b' t'].
  simpl in *. destruct (repeat dotdot (length b') ++ t') as [|x l] eqn:El; [|reflexivity].
  apply app_eq_nil in El as [Hb' ->]. destruct b'; [|discriminate]. congruence.
Qed.

Lemma new_rel_path_ok r : rooted r = false -> nocolon r -> new_rel_path r = Ok r.
Proof. intros H1 H2. unfold new_rel_path. rewrite (nocolon_is_abs r H2), H1. reflexivity. Qed.

Lemma path_rel_same x : path_rel x x = Ok dotstr.
Proof. unfold path_rel, rel_go. rewrite str_eqb_refl. reflexivity. Qed.

Lemma path_rel_render rt e1 e2 :
  shape rt e1 -> shape rt e2 -> (rt = true \/ e2 <> []) -> Forall nocolon e2 ->
  Forall good (fst (diverge e1 e2)) ->
  path_rel (render rt e1) (render rt e2) = Ok (render false (rel_list e1 e2)).
Proof.
  intros S1 S2 Hrt Hc Hg. unfold path_rel. rewrite rel_go_render by assumption.
  replace (str_eqb _ dotdot) with false.
  - apply new_rel_path_ok.
    + apply rooted_render, rel_list_Forall; [apply elem_dotdot|apply (shape_elems _ _ S2)].
    + apply nocolon_render, rel_list_Forall; [apply nocolon_dotdot|exact Hc].
  - symmetry. apply str_eqb_false. destruct Hg as [|x l [Hx _] _]; [discriminate|]. simpl. intros ->. discriminate.
Qed.
