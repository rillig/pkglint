(* Proofs about Model/ShTok.v, part 1: one call of ShAtom.
   Every primitive is advancing; every atom function returns either nothing or an
   atom whose text is a non-empty prefix of the input, the rest being the
   remainder; no Panic, no OutOfFuel.  In the plain state the atom is moreover a
   space atom that stays in the plain state, or one whose blanks are escaped
   unless it is an expression or a comment (plain_info). *)
From PV Require Lib.LinesLib.
From PV Require Import Lib.Bytes Model.ShTok Spec.ShWords.
From Coq Require Import ZifyBool ZifyN ZifyNat.
Open Scope N_scope.

Lemma since_app c r : since (c ++ r) r = Ok c.
Proof.
  unfold since. rewrite LinesLib.firstn_app_len, app_length, (proj2 (Nat.leb_le _ _) (Nat.le_add_l _ _)). reflexivity.
Qed.

Lemma since_self s : since s s = Ok [].
Proof. exact (since_app [] s). Qed.

Lemma skip_app c r : skip (length c) (c ++ r) = Ok r.
Proof.
  unfold skip. rewrite app_length, (proj2 (Nat.leb_le _ _) (Nat.le_add_r _ _)).
  rewrite skipn_app, Nat.sub_diag, skipn_all. reflexivity.
Qed.

Lemma skip_all s : skip (length s) s = Ok [].
Proof. rewrite <- (app_nil_r s) at 2. apply skip_app. Qed.

Lemma app_nonempty_shorter (c r : str) : c <> [] -> (length r < length (c ++ r))%nat.
Proof. destruct c; [congruence|]. rewrite app_length. cbn. lia. Qed.

Definition adv (o : op) : Prop :=
  forall s r, o s = Some r -> exists c, c <> [] /\ s = c ++ r.

Lemma adv_byte b : adv (op_byte b).
Proof.
  intros [|c s] r H; cbn in H; [discriminate|].
  destruct (c =? b); [|discriminate]. injection H as ->.
  exists [c]. split; [discriminate|reflexivity].
Qed.

Lemma adv_string p : p <> [] -> adv (op_string p).
Proof. intros Hp s r H. apply strip_prefix_some in H. exists p. auto. Qed.

Lemma adv_suffix o s r : adv o -> o s = Some r -> is_suffix r s.
Proof. intros Ha E. destruct (Ha s r E) as (c & _ & ->). exists c. reflexivity. Qed.

Lemma adv_opt_suffix o (t : str) : adv o -> is_suffix (match o t with Some t' => t' | None => t end) t.
Proof. intro Ha. destruct (o t) eqn:E; [exact (adv_suffix _ _ _ Ha E)|apply is_suffix_refl]. Qed.

Lemma span_eq f s a r : span f s = (a, r) -> s = a ++ r.
Proof. intro H. rewrite <- (span_app f s), H. reflexivity. Qed.

Lemma op_span_some f s r :
  op_span f s = Some r -> exists c, c <> [] /\ s = c ++ r /\ forallb f c = true.
Proof.
  unfold op_span. pose proof (span_all f s) as A. destruct (span f s) as [[|x a] b] eqn:E; [discriminate|].
  intro H; injection H as <-. exists (x :: a). split; [discriminate|]. split; [exact (span_eq _ _ _ _ E)|exact A].
Qed.

Lemma adv_span f : adv (op_span f).
Proof. intros s r H. destruct (op_span_some _ _ _ H) as (c & ? & ? & _). eauto. Qed.

Lemma adv_cons (c : N) (t r : str) : is_suffix r t -> exists x, x <> [] /\ c :: t = x ++ r.
Proof. intros [x ->]. exists (c :: x). split; [discriminate|reflexivity]. Qed.

Lemma snd_span_suffix f (t : str) : is_suffix (snd (span f t)) t.
Proof. exists (fst (span f t)). symmetry. apply span_app. Qed.

Lemma re_bs_any_some s r : re_bs_any s = Some r ->
  exists d t, s = 92 :: d :: t /\ r = skipn (utf8_width (d :: t)) (d :: t).
Proof.
  unfold re_bs_any. destruct s as [|c0 [|d t]]; try discriminate.
  destruct (N.eqb_spec c0 92) as [->|]; [|discriminate]. destruct (d =? 36); [discriminate|].
  intro H; injection H as <-. eauto.
Qed.

Lemma adv_re_comment_until stop : adv (re_comment_until stop).
Proof.
  intros [|c t] r H; unfold re_comment_until in H; [discriminate|].
  destruct (c =? 35); [|discriminate]. injection H as <-. apply adv_cons, snd_span_suffix.
Qed.

Lemma first_prefix_some ps s r :
  first_prefix ps s = Some r -> exists p, In p ps /\ s = p ++ r.
Proof.
  induction ps as [|p ps IH]; cbn; [discriminate|].
  destruct (strip_prefix p s) as [r'|] eqn:E.
  - intro H; injection H as ->. apply strip_prefix_some in E. exists p. auto.
  - intro H. destruct (IH H) as (p' & ? & ?). exists p'. auto.
Qed.

Lemma adv_re_shvarname : adv re_shvarname.
Proof.
  intros [|c t] r H; unfold re_shvarname in H; [discriminate|].
  destruct (in_set _ c); [injection H as <-; apply adv_cons, is_suffix_refl|].
  destruct (c =? 36).
  { destruct t as [|c1 t1]; [discriminate|]. destruct (c1 =? 36); [|discriminate].
    injection H as <-. apply adv_cons, is_suffix_cons. }
  destruct (is_alpha c || (c =? 95)); [injection H as <-; apply adv_cons, snd_span_suffix|].
  destruct (is_digit c); [|discriminate].
  injection H as <-. apply adv_cons, snd_span_suffix.
Qed.

Lemma adv_re_shmodifier : adv re_shmodifier.
Proof.
  intros [|c t] r H; unfold re_shmodifier in H; cbv zeta in H; [discriminate|].
  assert (T : forall u, is_suffix u t -> Some (snd (span is_shmod_byte u)) = Some r ->
              exists x, x <> [] /\ c :: t = x ++ r).
  { intros u Hu E. injection E as <-. apply adv_cons.
    exact (is_suffix_trans _ _ _ (snd_span_suffix _ u) Hu). }
  destruct (c =? 35); [exact (T _ (adv_opt_suffix _ t (adv_byte 35)) H)|].
  destruct (c =? 37); [exact (T _ (adv_opt_suffix _ t (adv_byte 37)) H)|].
  destruct (c =? 58).
  { destruct t as [|c1 t1]; [discriminate|]. destruct (is_shmod_op c1); [|discriminate].
    exact (T t1 (is_suffix_cons c1 t1) H). }
  destruct (is_shmod_op c); [|discriminate].
  exact (T t (is_suffix_refl t) H).
Qed.

Definition atom_good (s : str) (a : atom) (r : str) : Prop :=
  s = a_text a ++ r /\ a_text a <> [] /\
  (a_type a = ShtSpace -> forallb is_hspace (a_text a) = true).

Lemma atom_good_shorter s a r : atom_good s a r -> (length r < length s)%nat.
Proof. intros (-> & Hn & _). apply app_nonempty_shorter, Hn. Qed.

Definition step_sat (P : atom -> str -> Prop) (x : res (option (atom * str))) : Prop :=
  match x with
  | Ok None => True
  | Ok (Some (a, r)) => P a r
  | _ => False
  end.

Definition atom_sat (P : atom -> str -> Prop) (x : res (option atom * state)) : Prop :=
  match x with
  | Ok (None, _) => True
  | Ok (Some a, (_, r)) => P a r
  | _ => False
  end.

Lemma step_sat_impl (P Q : atom -> str -> Prop) x :
  (forall a r, P a r -> Q a r) -> step_sat P x -> step_sat Q x.
Proof. intro H. destruct x as [[[a r]|]| |]; cbn; auto. Qed.

Lemma atom_sat_impl (P Q : atom -> str -> Prop) x :
  (forall a r, P a r -> Q a r) -> atom_sat P x -> atom_sat Q x.
Proof. intro H. destruct x as [[[a|] [iw r]]| |]; cbn; auto. Qed.

(* `switch { case X: return atom }; return rest()` *)
Lemma or_else_sat P x iw k : step_sat P x -> atom_sat P k ->
  atom_sat P (bind x (fun o => match o with Some (a, r) => Ok (Some a, (iw, r)) | None => k end)).
Proof. destruct x as [[[a r]|]| |]; cbn; tauto. Qed.

Definition alt_sat (P : str -> atom -> str -> Prop) (a : alt) : Prop :=
  let '(o, t, q) := a in
  forall s r, o s = Some r -> exists c, s = c ++ r /\ P s (mk_atom t c q) r.

Lemma first_alt_sat P alts s : Forall (alt_sat P) alts -> step_sat (P s) (first_alt alts s).
Proof.
  induction 1 as [|[[o t] q] alts Ha _ IH]; cbn [first_alt]; [exact I|].
  destruct (o s) as [r|] eqn:E; [|exact IH].
  destruct (Ha s r E) as (c & -> & Hc). rewrite since_app. exact Hc.
Qed.

Lemma alt_good_adv o t q : t <> ShtSpace -> adv o -> alt_sat atom_good (o, t, q).
Proof.
  intros Ht Ha s r H. destruct (Ha s r H) as (c & Hc & ->).
  exists c. repeat split; auto.
Qed.

Lemma alt_good_hspace t q : alt_sat atom_good (op_hspace, t, q).
Proof.
  intros s r H. destruct (op_span_some _ _ _ H) as (c & ? & ? & ?). exists c. repeat split; auto.
Qed.

Lemma sh_expr_ok q s :
  step_sat (fun a r => exists c, a = mk_atom ShtShExpr c q /\ c <> [] /\ s = c ++ r) (sh_expr q s).
Proof.
  unfold sh_expr.
  destruct (op_string dollars s) as [s1|] eqn:E1; [|exact I].
  apply strip_prefix_some in E1. subst s.
  assert (G : forall r, is_suffix r s1 ->
     step_sat (fun a r => exists c, a = mk_atom ShtShExpr c q /\ c <> [] /\ dollars ++ s1 = c ++ r)
       (bind (since (dollars ++ s1) r) (fun text => Ok (Some (mk_atom ShtShExpr text q, r))))).
  { intros r [x ->]. rewrite (app_assoc dollars x r), since_app.
    exists (dollars ++ x). repeat split. discriminate. }
  destruct (match s1 with [] => false | c :: _ => is_digit c end) eqn:D.
  - destruct s1 as [|c t]; [discriminate|].
    change (skip 1 (c :: t)) with (Ok t). cbn [bind].
    change (dollars ++ c :: t) with ([36; 36; c] ++ t).
    rewrite since_app. exists [36; 36; c]. repeat split. discriminate.
  - destruct (op_byte 123 s1) as [s2|] eqn:E2.
    + pose proof (adv_suffix _ _ _ (adv_byte _) E2) as S2.
      destruct (re_shvarname s2) as [s3|] eqn:E3; [|exact I].
      pose proof (adv_suffix _ _ _ adv_re_shvarname E3) as S3.
      pose proof (adv_opt_suffix re_shmodifier s3 adv_re_shmodifier) as S4.
      destruct (op_byte 125 _) as [s5|] eqn:E5; [|exact I].
      apply G. eauto using is_suffix_trans, adv_suffix, adv_byte.
    + destruct (re_shvarname s1) as [s3|] eqn:E3; [|exact I].
      apply G. exact (adv_suffix _ _ _ adv_re_shvarname E3).
Qed.

Definition transparent (c : str) : Prop := forall t, blanks_escaped (c ++ t) = blanks_escaped t.

Lemma transparent_app c c' : transparent c -> transparent c' -> transparent (c ++ c').
Proof. intros H H' t. rewrite <- app_assoc, H, H'. reflexivity. Qed.

Lemma transparent_escaped c : transparent c -> blanks_escaped c = true.
Proof. intro H. rewrite <- (app_nil_r c). apply H. Qed.

Definition clean_byte (b : N) : bool := negb (is_hspace b) && negb (b =? 92).
Definition clean (c : str) : Prop := forallb clean_byte c = true.

Lemma clean_transparent c : clean c -> transparent c.
Proof.
  intros H t. induction c as [|b c IH]; [reflexivity|].
  unfold clean in H. cbn [forallb] in H. apply andb_true_iff in H as [Hb Hc].
  unfold clean_byte in Hb. apply andb_true_iff in Hb as [H1 H2].
  cbn [app blanks_escaped]. destruct (b =? 92); [discriminate|].
  rewrite H1. exact (IH Hc).
Qed.

Lemma clean_forall f c : (forall b, f b = true -> clean_byte b = true) -> forallb f c = true -> clean c.
Proof.
  intros Hf A. apply forallb_forall. intros b Hb. rewrite forallb_forall in A. auto.
Qed.

Lemma utf8_width_cont c t :
  exists w, utf8_width (c :: t) = S w /\ forallb (fun b => 128 <=? b) (firstn w t) = true.
Proof.
  assert (One : forall t' : str, exists w, 1%nat = S w /\ forallb (fun b => 128 <=? b) (firstn w t') = true)
    by (exists 0%nat; auto).
  unfold utf8_width, is_cont.
  destruct (c <? 194); [apply One|]. destruct (c <=? 223).
  { destruct t as [|c1 t]; [apply One|]. destruct (_ && _) eqn:E; [|apply One].
    exists 1%nat. split; [reflexivity|]. cbn. lia. }
  destruct (c <=? 239).
  { destruct t as [|c1 [|c2 t]]; try apply One. destruct (_ && _) eqn:E; [|apply One].
    exists 2%nat. split; [reflexivity|]. cbn. destruct (c =? 224); lia. }
  destruct (c <=? 244); [|apply One].
  destruct t as [|c1 [|c2 [|c3 t]]]; try apply One. destruct (_ && _) eqn:E; [|apply One].
  exists 3%nat. split; [reflexivity|]. cbn. destruct (c =? 240); lia.
Qed.

Lemma rune_transparent d t : transparent (92 :: firstn (utf8_width (d :: t)) (d :: t)).
Proof.
  destruct (utf8_width_cont d t) as (w & -> & Hw). intro x.
  change (blanks_escaped (firstn w t ++ x) = blanks_escaped x).
  apply clean_transparent. refine (clean_forall _ _ _ Hw). intros b Hb. unfold clean_byte, is_hspace. lia.
Qed.

Definition adv_clean (o : op) : Prop :=
  forall s r, o s = Some r -> exists c, c <> [] /\ s = c ++ r /\ clean c.

Lemma adv_clean_byte b : clean_byte b = true -> adv_clean (op_byte b).
Proof.
  intros Hb [|c s] r H; cbn [op_byte] in H; [discriminate|].
  destruct (N.eqb_spec c b) as [->|]; [|discriminate]. injection H as ->.
  exists [b]. repeat split; [discriminate|]. unfold clean. cbn. rewrite Hb. reflexivity.
Qed.

Lemma adv_clean_string p : p <> [] -> clean p -> adv_clean (op_string p).
Proof. intros Hn Hp s r H. apply strip_prefix_some in H. exists p. auto. Qed.

Lemma adv_clean_span f : (forall b, f b = true -> clean_byte b = true) -> adv_clean (op_span f).
Proof.
  intros Hf s r H. destruct (op_span_some _ _ _ H) as (c & Hn & E & A).
  exists c. split; [exact Hn|]. split; [exact E|exact (clean_forall f c Hf A)].
Qed.

Lemma adv_clean_newline : adv_clean (op_span (fun b => b =? 10)).
Proof. apply adv_clean_span. intros b Hb. apply N.eqb_eq in Hb. subst b. reflexivity. Qed.

Lemma digit_clean b : is_digit b = true -> clean_byte b = true.
Proof. unfold is_digit, clean_byte, is_hspace. lia. Qed.

Lemma adv_clean_redirect : adv_clean re_redirect.
Proof.
  intros s r H. unfold re_redirect in H.
  destruct (first_prefix_some _ _ _ H) as (p & Hin & E). cbn in Hin.
  exists (fst (span is_digit s) ++ p). split; [|split].
  - intro Z. apply app_eq_nil in Z as [_ ->].
    repeat (destruct Hin as [Hin|Hin]; [discriminate|]). exact Hin.
  - rewrite <- app_assoc, <- E. symmetry. apply span_app.
  - unfold clean. rewrite forallb_app. apply andb_true_iff. split.
    + exact (clean_forall _ _ digit_clean (span_all is_digit s)).
    + repeat (destruct Hin as [<-|Hin]; [reflexivity|]). contradiction.
Qed.

Definition plain_info (a : atom) : Prop :=
  (a_type a = ShtSpace /\ a_quot a = QPlain) \/
  (a_type a <> ShtSpace /\
   (a_type a = ShtExpr \/ a_type a = ShtShExpr \/ a_type a = ShtComment \/
    blanks_escaped (a_text a) = true)).

Lemma is_space_type_true t : is_space_type t = true -> t = ShtSpace.
Proof. destruct t; simpl; congruence. Qed.

Lemma plain_info_cases a : plain_info a ->
  if is_space_type (a_type a) then a_quot a = QPlain else atom_blank_ok QPlain a.
Proof.
  intros [[Hs Hq]|H]; [rewrite Hs; exact Hq|].
  destruct (is_space_type (a_type a)) eqn:E; [apply is_space_type_true in E; tauto|intros _; exact H].
Qed.

Definition atom_fit (q : quoting) (s : str) (a : atom) (r : str) : Prop :=
  atom_good s a r /\ (q = QPlain -> plain_info a).

Lemma alt_fit_clean q' o t q : t <> ShtSpace -> adv_clean o -> alt_sat (atom_fit q') (o, t, q).
Proof.
  intros Ht Ho s r E. destruct (Ho s r E) as (c & Hn & -> & Hc). exists c. split; [reflexivity|]. split.
  - split; [reflexivity|]. split; [exact Hn|]. intro Z. destruct (Ht Z).
  - intros _. right. split; [exact Ht|]. do 3 right. apply transparent_escaped, clean_transparent, Hc.
Qed.

Lemma alt_fit_space : alt_sat (atom_fit QPlain) (op_hspace, ShtSpace, QPlain).
Proof.
  intros s r E. destruct (alt_good_hspace ShtSpace QPlain s r E) as (c & Es & Hg). exists c.
  split; [exact Es|]. split; [exact Hg|]. intros _. left. split; reflexivity.
Qed.

Create HintDb shalt discriminated.
#[export] Hint Resolve alt_good_adv alt_good_hspace adv_byte adv_re_comment_until
  alt_fit_clean alt_fit_space adv_clean_byte adv_clean_string adv_clean_newline adv_clean_redirect : shalt.
#[export] Hint Extern 1 (_ <> _) => discriminate : shalt.
#[export] Hint Extern 1 (clean_byte _ = true) => reflexivity : shalt.
#[export] Hint Extern 1 (clean _) => reflexivity : shalt.

Lemma sh_operator_fit q' q s : step_sat (atom_fit q' s) (sh_operator q s).
Proof. apply (first_alt_sat (atom_fit q')). repeat apply Forall_cons; auto with shalt. Qed.

Lemma sh_operator_ok q s : step_sat (atom_good s) (sh_operator q s).
Proof. exact (step_sat_impl _ _ _ (fun a r => @proj1 _ _) (sh_operator_fit q q s)). Qed.

(* What one iteration of the loop of shAtomInternal consumes: never nothing, and
   outside quotes nothing that changes the escaping of the blanks that follow. *)
Definition chunk (dq sq : bool) (c : str) : Prop :=
  c <> [] /\ (dq = false -> sq = false -> transparent c).

Definition istep_ok (dq sq : bool) (s : str) (x : res (option str)) : Prop :=
  match x with
  | Ok None => True
  | Ok (Some r) => exists c, chunk dq sq c /\ s = c ++ r
  | _ => False
  end.

Lemma str_eqb_eq a b : str_eqb a b = true -> a = b.
Proof. apply str_eqb_spec. Qed.

Lemma internal_step_ok dq sq s : istep_ok dq sq s (internal_step dq sq s).
Proof.
  (* inside quotes any advancing op will do *)
  assert (Quoted : forall o r, adv o -> o s = Some r -> (dq = false -> sq = false -> False) ->
                     exists c, chunk dq sq c /\ s = c ++ r).
  { intros o r Ha E Hq. destruct (Ha s r E) as (c & Hc & Es). exists c. repeat split; auto. intros; tauto. }
  assert (Lit : forall c r, c <> [] -> transparent c -> s = c ++ r -> exists c, chunk dq sq c /\ s = c ++ r).
  { intros c r ? ? ?. exists c. repeat split; auto. }
  unfold internal_step.
  destruct (re_text s) as [r|] eqn:E0.
  { destruct (op_span_some _ _ _ E0) as (c & Hn & Es & A). refine (Lit c r Hn _ Es).
    apply clean_transparent. refine (clean_forall _ _ _ A). intros b Hb.
    unfold is_text_byte in Hb. unfold clean_byte, is_hspace. lia. }
  destruct (if dq then re_dq s else None) as [r|] eqn:E1.
  { destruct dq; [|discriminate]. apply (Quoted _ r (adv_span _) E1). easy. }
  destruct (if sq then op_byte 96 s else None) as [r|] eqn:E2.
  { destruct sq; [|discriminate]. apply (Quoted _ r (adv_byte _) E2). easy. }
  destruct (if sq then re_sq s else None) as [r|] eqn:E3.
  { destruct sq; [|discriminate]. apply (Quoted _ r (adv_span _) E3). easy. }
  destruct (if sq then op_string dollars s else None) as [r|] eqn:E4.
  { destruct sq; [|discriminate]. refine (Quoted _ r (adv_string dollars _) E4 _); easy. }
  destruct sq; [exact I|].
  destruct (op_string bs_dollars s) as [r|] eqn:E5.
  { apply strip_prefix_some in E5. refine (Lit bs_dollars r _ _ E5); [discriminate|intro; reflexivity]. }
  destruct (re_bs_any s) as [r|] eqn:E6.
  { destruct (re_bs_any_some _ _ E6) as (d & t & -> & ->).
    refine (Lit (92 :: firstn (utf8_width (d :: t)) (d :: t)) _ _ (rune_transparent d t) _); [discriminate|].
    cbn [app]. rewrite firstn_skipn. reflexivity. }
  destruct (re_dollars_other s) eqn:E7.
  { unfold re_dollars_other in E7. destruct s as [|a [|b [|c t]]]; try discriminate.
    apply andb_true_iff in E7 as [E7 _]. apply andb_true_iff in E7 as [Ea Eb].
    apply N.eqb_eq in Ea, Eb. subst a b.
    refine (Lit dollars (c :: t) _ _ eq_refl); [discriminate|intro; reflexivity]. }
  destruct (str_eqb s dollars) eqn:E8.
  { apply str_eqb_eq in E8. subst s. refine (Lit dollars [] _ _ eq_refl); [discriminate|intro; reflexivity]. }
  destruct (str_eqb s [36]) eqn:E9.
  { apply str_eqb_eq in E9. subst s. refine (Lit [36] [] _ _ eq_refl); [discriminate|intro; reflexivity]. }
  exact I.
Qed.

Lemma internal_loop_chunks dq sq fuel : forall s, (length s < fuel)%nat ->
  exists c r, internal_loop fuel dq sq s = Ok r /\ s = c ++ r /\
              (c = [] -> internal_step dq sq s = Ok None) /\
              (dq = false -> sq = false -> transparent c).
Proof.
  induction fuel as [|f IH]; intros s Hf; [lia|]. cbn [internal_loop].
  pose proof (internal_step_ok dq sq s) as H.
  destruct (internal_step dq sq s) as [[r|]| |]; cbn in *; try contradiction.
  - destruct H as (c & [Hc Tc] & ->). pose proof (app_nonempty_shorter c r Hc).
    destruct (IH r ltac:(lia)) as (c' & r' & E & -> & _ & Tc').
    exists (c ++ c'), r'. split; [exact E|]. split; [apply app_assoc|]. split.
    + intro Z. apply app_eq_nil in Z as [Z _]. contradiction.
    + intros. apply transparent_app; auto.
  - exists [], s. repeat split; auto.
Qed.

Lemma internal_loop_ok dq sq fuel s : (length s < fuel)%nat ->
  exists c r, internal_loop fuel dq sq s = Ok r /\ s = c ++ r /\
              (c = [] -> internal_step dq sq s = Ok None).
Proof.
  intro Hf. destruct (internal_loop_chunks dq sq fuel s Hf) as (c & r & E & Es & Hc & _). eauto.
Qed.

Lemma sh_atom_internal_info q dq sq iw s :
  atom_sat (fun a r => atom_good s a r /\ (dq = false -> sq = false -> plain_info a))
           (sh_atom_internal q dq sq (iw, s)).
Proof.
  unfold sh_atom_internal. apply or_else_sat.
  - refine (step_sat_impl _ _ _ _ (sh_expr_ok q s)). intros a r (c & -> & Hc & ->).
    split; [repeat split; [exact Hc|discriminate]|]. intros _ _. right. split; [discriminate|cbn; auto].
  - destruct (internal_loop_chunks dq sq (S (length s)) s (Nat.lt_succ_diag_r _)) as (c & r & E & -> & _ & Tc).
    rewrite E. cbn [bind]. rewrite since_app. cbn [bind].
    destruct c as [|x c]; cbn [atom_sat]; [exact I|].
    split; [repeat split; discriminate|]. intros Hd Hs. right. split; [discriminate|]. do 3 right.
    apply transparent_escaped, Tc; assumption.
Qed.

Lemma sh_atom_internal_ok q dq sq iw s : atom_sat (atom_good s) (sh_atom_internal q dq sq (iw, s)).
Proof. exact (atom_sat_impl _ _ _ (fun a r => @proj1 _ _) (sh_atom_internal_info q dq sq iw s)). Qed.

Lemma sh_atom_internal_plain iw s : atom_sat (atom_fit QPlain s) (sh_atom_internal QPlain false false (iw, s)).
Proof.
  refine (atom_sat_impl _ _ _ _ (sh_atom_internal_info QPlain false false iw s)).
  intros a r [Hg Hp]. split; auto.
Qed.

Lemma alts_then_internal_sat (P : str -> atom -> str -> Prop) alts q dq sq iw s :
  Forall (alt_sat P) alts -> atom_sat (P s) (sh_atom_internal q dq sq (iw, s)) ->
  atom_sat (P s) (alts_then_internal alts q dq sq (iw, s)).
Proof.
  intros Ha Hi. unfold alts_then_internal. apply or_else_sat; [apply first_alt_sat, Ha|exact Hi].
Qed.

Lemma alts_then_internal_ok alts q dq sq iw s :
  Forall (alt_sat atom_good) alts -> atom_sat (atom_good s) (alts_then_internal alts q dq sq (iw, s)).
Proof. intro Ha. apply alts_then_internal_sat; [exact Ha|apply sh_atom_internal_ok]. Qed.

Lemma sh_atom_plain_fit iw s : atom_sat (atom_fit QPlain s) (sh_atom_plain (iw, s)).
Proof.
  unfold sh_atom_plain.
  apply or_else_sat; [apply sh_operator_fit|].
  apply or_else_sat; [apply (first_alt_sat (atom_fit QPlain)); repeat apply Forall_cons; auto with shalt|].
  destruct ((match s with [] => false | c :: _ => c =? 35 end) && negb iw) eqn:C.
  - (* a comment up to the end of the text *)
    rewrite skip_all. destruct s; [discriminate|]. split.
    + repeat split; try discriminate. symmetry. apply app_nil_r.
    + intros _. right. split; [discriminate|]. cbn. auto.
  - apply alts_then_internal_sat; [repeat apply Forall_cons; auto with shalt|apply sh_atom_internal_plain].
Qed.

Lemma sh_atom_backt_ok iw s : atom_sat (atom_good s) (sh_atom_backt (iw, s)).
Proof.
  unfold sh_atom_backt. apply or_else_sat; [apply sh_operator_ok|].
  apply alts_then_internal_ok. repeat apply Forall_cons; auto with shalt.
Qed.

Lemma sh_atom_dquot_backt_ok iw s : atom_sat (atom_good s) (sh_atom_dquot_backt (iw, s)).
Proof.
  unfold sh_atom_dquot_backt. apply or_else_sat; [apply sh_operator_ok|].
  apply alts_then_internal_ok. repeat apply Forall_cons; auto with shalt.
Qed.

Lemma sh_atom_subsh_ok iw s : atom_sat (atom_good s) (sh_atom_subsh (iw, s)).
Proof.
  unfold sh_atom_subsh.
  apply or_else_sat; [apply (first_alt_sat atom_good); repeat apply Forall_cons; auto with shalt|].
  apply or_else_sat; [apply sh_operator_ok|apply sh_atom_internal_ok].
Qed.

Lemma sh_atom_dispatch_ok q iw s : atom_sat (atom_fit q s) (sh_atom_dispatch q (iw, s)).
Proof.
  destruct q; cbn [sh_atom_dispatch]; [exact (sh_atom_plain_fit iw s)|..];
    (apply (atom_sat_impl (atom_good s)); [intros a r H; split; [exact H|discriminate]|]);
    auto using sh_atom_backt_ok, sh_atom_subsh_ok, sh_atom_dquot_backt_ok;
    apply alts_then_internal_ok; repeat apply Forall_cons; auto with shalt.
Qed.

Section WithExpr.

Variable expr : str -> option (str * str).

(* the advance contract of MkLexer.Expr *)
Definition expr_contract : Prop :=
  forall s t r, expr s = Some (t, r) -> s = t ++ r /\ t <> [].

Hypothesis Hexpr : expr_contract.

Lemma sh_atom_fit q iw s :
  exists iw',
    sh_atom expr q (iw, s) = Ok (None, (iw', s)) \/
    exists a r, sh_atom expr q (iw, s) = Ok (Some a, (iw', r)) /\ atom_fit q s a r.
Proof.
  unfold sh_atom.
  destruct s as [|c s]; [exists iw; left; reflexivity|].
  destruct (expr (c :: s)) as [[t r]|] eqn:E.
  - destruct (Hexpr _ _ _ E) as [E1 E2]. exists true. right. exists (mk_atom ShtExpr t q), r.
    split; [reflexivity|]. split; [repeat split; auto; discriminate|].
    intros _. right. split; [discriminate|]. cbn. auto.
  - pose proof (sh_atom_dispatch_ok q iw (c :: s)) as H.
    destruct (sh_atom_dispatch q _) as [[[a|] [iw' r]]| |]; cbn [bind atom_sat] in *; try contradiction.
    + exists iw'. right. exists a, r. auto.
    + exists iw'. left. reflexivity.
Qed.

Definition shatom_result (q : quoting) (iw : bool) (s : str) : Prop :=
  exists iw',
    sh_atom expr q (iw, s) = Ok (None, (iw', s)) \/
    exists a r, sh_atom expr q (iw, s) = Ok (Some a, (iw', r)) /\ atom_good s a r.

Lemma sh_atom_spec q iw s : shatom_result q iw s.
Proof.
  destruct (sh_atom_fit q iw s) as (iw' & [E|(a & r & E & Hg & _)]); exists iw'; [left; exact E|right; eauto].
Qed.

End WithExpr.
