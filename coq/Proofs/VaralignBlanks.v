(* Every fix of VaralignBlock changes blanks only and keeps the parts
   (Model/Varalign.v), for ALL inputs including continuation lines.
   Hypothesis on the input = the post-condition of VaralignSplitter.split:
   spaceBeforeValue and spaceAfterValue are blank, and an empty value has no
   spaceAfterValue (`wf`). *)
From PV Require Import Lib.Bytes Model.Tabs Model.Varalign Proofs.Tabs.
From Coq Require Import ZifyBool ZifyN ZifyNat.
Open Scope Z_scope.

Definition wf (p : parts) : Prop :=
  blankb (sbv p) = true /\ blankb (sav p) = true /\ (val p = [] -> sav p = []).
Definition good (i : info) : Prop := text i = parts_string (ps i) /\ wf (ps i).
Definition same_core (p p' : parts) : Prop :=
  lc p' = lc p /\ vo p' = vo p /\ val p' = val p /\ cont p' = cont p.
Definition preserved (i i' : info) : Prop := good i' /\ same_core (ps i) (ps i').

Lemma same_core_refl p : same_core p p.
Proof. repeat split. Qed.
Lemma same_core_trans a b c : same_core a b -> same_core b c -> same_core a c.
Proof. unfold same_core. intuition congruence. Qed.
Lemma preserved_refl i : good i -> preserved i i.
Proof. intro G. split; [exact G|apply same_core_refl]. Qed.
Lemma preserved_trans a b c : preserved a b -> preserved b c -> preserved a c.
Proof. intros [_ S1] [G S2]. split; [exact G|eapply same_core_trans; eauto]. Qed.

Lemma len_app a b : len (a ++ b) = len a + len b.
Proof. unfold len. rewrite app_length. lia. Qed.
Lemma len_nonneg a : 0 <= len a.
Proof. unfold len. lia. Qed.
Lemma to_nat_len a : Z.to_nat (len a) = length a.
Proof. unfold len. lia. Qed.

Lemma replace_at_app a s from to :
  replace_at (a ++ s) (len a) from to =
  if str_eqb from to then Panic
  else match strip_prefix from s with Some r => Ok (a ++ to ++ r) | None => Panic end.
Proof.
  unfold replace_at. destruct (str_eqb from to); [reflexivity|].
  pose proof (len_nonneg a). pose proof (len_nonneg s).
  replace (len a <? len (a ++ s) + 1) with true by (rewrite len_app; lia).
  replace (len a <? 0) with false by lia. cbn [negb].
  rewrite to_nat_len, skipn_app, firstn_app, skipn_all, firstn_all, Nat.sub_diag.
  simpl. rewrite app_nil_r. reflexivity.
Qed.

Lemma replace_at_ok a s from to t :
  replace_at (a ++ s) (len a) from to = Ok t ->
  exists r, s = from ++ r /\ t = a ++ to ++ r /\ from <> to.
Proof.
  rewrite replace_at_app. destruct (str_eqb from to) eqn:E; [discriminate|].
  destruct (strip_prefix from s) as [r|] eqn:P; [|discriminate].
  apply strip_prefix_some in P. intros [= <-]. exists r. repeat split; [exact P|].
  intros ->. rewrite str_eqb_refl in E. discriminate.
Qed.

Lemma replace_at_succeeds a from r to : from <> to ->
  replace_at (a ++ from ++ r) (len a) from to = Ok (a ++ to ++ r).
Proof.
  intro Hne. rewrite replace_at_app.
  destruct (str_eqb from to) eqn:E; [apply str_eqb_spec in E; congruence|].
  now rewrite (proj2 (strip_prefix_some from (from ++ r) r) eq_refl).
Qed.

Lemma do_replace_ok i a s from to f p' i' : text i = a ++ s ->
  do_replace i (len a) from to f p' = Ok i' ->
  exists r, s = from ++ r /\ text i' = a ++ to ++ r /\ ps i' = p'.
Proof.
  intros T. unfold do_replace. rewrite T.
  destruct (replace_at _ _ _ _) as [t|] eqn:R; [|discriminate].
  apply replace_at_ok in R as (r & E1 & E2 & _). intros [= <-]. exists r. auto.
Qed.

Lemma sbv_index p : spaceBeforeValueIndex p = len (lc p ++ vo p).
Proof. unfold spaceBeforeValueIndex, varnameOpIndex. rewrite len_app. lia. Qed.

Lemma sav_index p : spaceAfterValueIndex p = len (lc p ++ vo p ++ sbv p ++ val p).
Proof. unfold spaceAfterValueIndex, valueIndex. rewrite sbv_index, !len_app. lia. Qed.

Lemma replace_sbv i new f i' : good i -> blankb new = true ->
  do_replace i (spaceBeforeValueIndex (ps i)) (sbv (ps i)) new f (set_sbv (ps i) new) = Ok i' ->
  preserved i i'.
Proof.
  intros [T (B1 & B2 & B3)] Bn H. rewrite sbv_index in H.
  unfold parts_string in T. rewrite app_assoc in T.
  destruct (do_replace_ok _ _ _ _ _ _ _ _ T H) as (r & E1%app_inv_head & E2 & P).
  unfold preserved, good, wf, same_core. rewrite E2, P, <- E1, <- app_assoc. cbn. auto 8.
Qed.

(* the blanks after the value, alone or together with the bytes x that follow them *)
Lemma replace_sav i new x f i' : good i -> blankb new = true -> val (ps i) <> [] ->
  do_replace i (spaceAfterValueIndex (ps i)) (sav (ps i) ++ x) (new ++ x) f (set_sav (ps i) new) = Ok i' ->
  preserved i i'.
Proof.
  intros [T (B1 & B2 & B3)] Bn Hv H. rewrite sav_index in H.
  assert (T' : text i = (lc (ps i) ++ vo (ps i) ++ sbv (ps i) ++ val (ps i)) ++ sav (ps i) ++ cont (ps i))
    by (rewrite T, <- !app_assoc; reflexivity).
  destruct (do_replace_ok _ _ _ _ _ _ _ _ T' H) as (r & E1 & E2 & P).
  rewrite <- app_assoc in E1. apply app_inv_head in E1.
  unfold preserved, good, wf, same_core, parts_string. rewrite E2, P. cbn.
  rewrite E1, <- !app_assoc. repeat split; auto. contradiction.
Qed.

Lemma is_nil_true {A} (s : list A) : is_nil s = true <-> s = [].
Proof. destruct s; simpl; split; intro; congruence. Qed.
Lemma is_nil_false {A} (s : list A) : is_nil s = false <-> s <> [].
Proof. destruct s; simpl; split; intro; congruence. Qed.

Lemma lift_ok {A} (o : option A) a : lift o = Ok a -> o = Some a.
Proof. destruct o; simpl; intro H; inversion H; reflexivity. Qed.

Ltac bind_ok H x E :=
  match type of H with
  | bind ?m _ = Ok _ => destruct m as [x|] eqn:E; [cbn [bind] in H | discriminate H]
  end.

Ltac if_ok H E :=
  match type of H with (if ?b then _ else _) = _ => destruct b eqn:E end.

Lemma unchanged_preserved i i' : good i -> Ok i = Ok i' -> preserved i i'.
Proof. intros G [= <-]. apply preserved_refl, G. Qed.

Lemma alignValueSingle_preserved i w i' : good i -> alignValueSingle i w = Ok i' -> preserved i i'.
Proof.
  intros G H. unfold alignValueSingle in H. bind_ok H ns E. apply lift_ok in E.
  destruct (is_nil ns && isCanonicalInitial (ps i) w); [now apply unchanged_preserved|].
  cbv zeta in H.
  if_ok H BK; [now apply unchanged_preserved|].
  if_ok H EQ; [now apply unchanged_preserved|].
  apply replace_sbv in H; [exact H|exact G|].
  match goal with |- blankb (if ?b then _ else _) = true => destruct b end; [reflexivity|].
  destruct (is_nil ns); [reflexivity|]. eapply alignmentToWidths_blank, E.
Qed.

Lemma alignValue_preserved i w i' : good i -> alignValue i w = Ok i' -> preserved i i'.
Proof.
  intros G H. unfold alignValue in H. bind_ok H ns E. apply lift_ok in E.
  apply replace_sbv in H; [exact H|exact G|]. eapply alignmentToWidths_blank, E.
Qed.

Lemma alignValueInitial_preserved i w i' : good i -> alignValueInitial i w = Ok i' -> preserved i i'.
Proof.
  intros G H. unfold alignValueInitial in H.
  destruct (_ && _); [now apply unchanged_preserved|].
  bind_ok H ns E. destruct (str_eqb _ _); [now apply unchanged_preserved|].
  eapply alignValue_preserved; eauto.
Qed.

Lemma replaceSBCS_preserved i col i' : good i ->
  replaceSpaceBeforeContinuationSilently i col = Ok i' -> preserved i i'.
Proof.
  intros G H. unfold replaceSpaceBeforeContinuationSilently in H.
  unfold spaceBeforeContinuation, setSpaceBeforeContinuation, spaceBeforeContinuationIndex in H.
  destruct (is_nil (val (ps i))) eqn:V; [now apply unchanged_preserved|].
  apply is_nil_false in V.
  destruct (str_eqb (sav (ps i)) [SP]); [now apply unchanged_preserved|].
  bind_ok H ns E. apply lift_ok in E.
  destruct (str_eqb _ _); [now apply unchanged_preserved|].
  destruct (negb _); [discriminate|]. cbn [bind] in H.
  apply replace_sav in H; auto.
  destruct (is_nil ns); [reflexivity|]. eapply alignmentToWidths_blank, E.
Qed.

Lemma alignFollow_preserved i ns i' : good i -> blankb ns = true ->
  alignFollow i ns = Ok i' -> preserved i i'.
Proof.
  intros G B H. unfold alignFollow in H.
  destruct (isEmpty (ps i)); [now apply unchanged_preserved|].
  bind_ok H i1 E. apply replace_sbv in E; [|exact G|exact B].
  destruct (isContinuation (ps i1)); [|now injection H as <-].
  eapply preserved_trans; [exact E|]. eapply replaceSBCS_preserved; [apply E|exact H].
Qed.

Lemma alignValueMultiFollow_preserved i w i' : good i ->
  alignValueMultiFollow i w = Ok i' -> preserved i i'.
Proof.
  intros G H. unfold alignValueMultiFollow in H. bind_ok H ns E. apply lift_ok in E.
  destruct (str_eqb _ _); [now apply unchanged_preserved|].
  eapply alignFollow_preserved; eauto. eapply indent_blank, E.
Qed.

Lemma alignContinuation_preserved i vc rm i' : good i ->
  alignContinuation i vc rm = Ok i' -> preserved i i'.
Proof.
  intros G H. unfold alignContinuation in H.
  destruct (negb (isContinuation (ps i))); [now apply unchanged_preserved|].
  destruct (str_eqb (spaceBeforeContinuation (ps i)) [SP]); [now apply unchanged_preserved|].
  destruct (_ && _); [now apply unchanged_preserved|].
  destruct (_ || _ || _); [now apply unchanged_preserved|].
  bind_ok H ns E.
  assert (B : blankb ns = true).
  { destruct (_ || _); [now injection E as <-|].
    destruct (isTooLongFor _ _); [now injection E as <-|].
    apply lift_ok in E. eapply alignmentToWidths_blank, E. }
  clear E. pose proof G as [T (B1 & B2 & B3)].
  unfold spaceBeforeContinuation, setSpaceBeforeContinuation in H.
  destruct (is_nil (val (ps i))) eqn:V.
  - (* no value: the blanks before the continuation marker are spaceBeforeValue *)
    apply is_nil_true in V. pose proof (B3 V) as S.
    replace (continuationIndex (ps i) - len (sbv (ps i))) with (spaceBeforeValueIndex (ps i)) in H
      by (unfold continuationIndex, spaceAfterValueIndex, valueIndex; rewrite V, S; unfold len; simpl; lia).
    now apply replace_sbv in H.
  - apply is_nil_false in V.
    replace (continuationIndex (ps i) - len (sav (ps i))) with (spaceAfterValueIndex (ps i)) in H
      by (unfold continuationIndex; lia).
    rewrite <- (app_nil_r (sav (ps i))), <- (app_nil_r ns) in H at 1. now apply replace_sav in H.
Qed.

Lemma realignDetails_preserved i first w d me i' d' : good i ->
  realignDetails i first w d me = Ok (i', d') -> preserved i i'.
Proof.
  intros G H. unfold realignDetails in H.
  destruct (first && isContinuation (ps i)).
  { bind_ok H x E. injection H as <- _. eapply alignValueInitial_preserved; eauto. }
  destruct me.
  { bind_ok H dd E0. bind_ok H x E. injection H as <- _. eapply alignValueMultiFollow_preserved; eauto. }
  destruct (negb first).
  { bind_ok H dd E0. bind_ok H x E. injection H as <- _. eapply alignValueMultiFollow_preserved; eauto. }
  bind_ok H x E. injection H as <- _. eapply alignValueSingle_preserved; eauto.
Qed.

Lemma realign_loop_preserved l : forall first w d me rm l',
  Forall good l -> realign_loop l first w d me rm = Ok l' -> Forall2 preserved l l'.
Proof.
  induction l as [|i l IH]; intros first w d me rm l' G H; simpl in H.
  - inversion H; constructor.
  - inversion G as [|? ? Gi Gl]; subst.
    bind_ok H r E1. bind_ok H i2 E2. bind_ok H rest E3. inversion H; subst; clear H.
    assert (P1 : preserved i (fst r)).
    { destruct (_ || _).
      - destruct r as [a b]. eapply realignDetails_preserved; eauto.
      - inversion E1; subst. apply preserved_refl, Gi. }
    assert (P2 : preserved i i2).
    { destruct (negb (fixedSBC (fst r))).
      - eapply preserved_trans; [exact P1|]. eapply alignContinuation_preserved; [apply P1|exact E2].
      - inversion E2; subst. exact P1. }
    constructor; [exact P2|]. eapply IH; eauto.
Qed.

Lemma realign_preserved l w l' : Forall good l -> realign l w = Ok l' -> Forall2 preserved l l'.
Proof.
  intros G H. unfold realign in H. destruct l as [|i0 l0]; [discriminate|].
  bind_ok H rm E. eapply realign_loop_preserved; eauto.
Qed.

Lemma map_res_Forall2 {A B} (f : A -> res B) (R : A -> B -> Prop) l : forall l',
  (forall a b, In a l -> f a = Ok b -> R a b) -> map_res f l = Ok l' -> Forall2 R l l'.
Proof.
  induction l as [|a l IH]; intros l' HR H; simpl in H.
  - inversion H; constructor.
  - bind_ok H b E1. bind_ok H r E2. inversion H; subst.
    constructor; [apply HR; [left; reflexivity|exact E1]|].
    apply IH; [|reflexivity]. intros; apply HR; [right|]; assumption.
Qed.

Definition line_rel (i i' : info) : Prop :=
  strip_blanks (text i') = strip_blanks (text i) /\ same_core (ps i) (ps i') /\
  (text i = parts_string (ps i) -> text i' = parts_string (ps i')).

Lemma line_rel_refl i : line_rel i i.
Proof. repeat split; auto. Qed.

Lemma strip_parts p : wf p ->
  strip_blanks (parts_string p) = strip_blanks (lc p) ++ strip_blanks (vo p) ++ strip_blanks (val p) ++ strip_blanks (cont p).
Proof.
  intros (B1 & B2 & _). unfold parts_string. rewrite !strip_blanks_app.
  rewrite (strip_blanks_blank _ B1), (strip_blanks_blank _ B2). reflexivity.
Qed.

Lemma preserved_line_rel i i' : good i -> preserved i i' -> line_rel i i'.
Proof.
  intros [T W] [[T' W'] (S1 & S2 & S3 & S4)]. split; [|split].
  - rewrite T, T', !strip_parts by assumption. rewrite S1, S2, S3, S4. reflexivity.
  - repeat split; assumption.
  - intro; exact T'.
Qed.

Lemma Forall2_impl {A B} (R S : A -> B -> Prop) l l' :
  (forall a b, In a l -> R a b -> S a b) -> Forall2 R l l' -> Forall2 S l l'.
Proof.
  intros H F. induction F; constructor.
  - apply H; [left; reflexivity|assumption].
  - apply IHF. intros; apply H; [right|]; assumption.
Qed.

Lemma Forall2_refl {A} (R : A -> A -> Prop) l : (forall a, R a a) -> Forall2 R l l.
Proof. intro H. induction l; constructor; auto. Qed.

Definition wf_block (ms : list (list info)) : Prop := Forall (Forall (fun i => wf (ps i))) ms.

Lemma existsb_false {A} (f : A -> bool) l x : existsb f l = false -> In x l -> f x = false.
Proof.
  intros H Hx. destruct (f x) eqn:E; [|reflexivity].
  rewrite <- H. symmetry. apply existsb_exists. eauto.
Qed.

(* C15: fix_changes_blanks_only and parts_preserved in one, for VaralignBlock.Finish *)
Theorem finish_blanks_only ms skip ms' : wf_block ms ->
  finish ms skip = Ok ms' -> Forall2 (Forall2 line_rel) ms ms'.
Proof.
  intros W H. unfold finish in H.
  assert (ID : Forall2 (Forall2 line_rel) ms ms) by (apply Forall2_refl; intro; apply Forall2_refl, line_rel_refl).
  if_ok H E0; [now injection H as <-|].
  if_ok H EX; [now injection H as <-|].
  if_ok H ENL; [discriminate|].
  bind_ok H firsts E.
  (* every line is consistent, since the check above passed *)
  assert (C : forall l, In l ms -> Forall good l).
  { intros l Hl. apply Forall_forall. intros i Hi. split.
    - apply str_eqb_spec, negb_false_iff. exact (existsb_false _ _ i (existsb_false _ _ l EX Hl) Hi).
    - unfold wf_block in W. rewrite Forall_forall in W. specialize (W l Hl).
      rewrite Forall_forall in W. apply W, Hi. }
  eapply map_res_Forall2; [|exact H].
  intros l l' Hl R. apply realign_preserved in R; [|apply C, Hl].
  eapply Forall2_impl; [|exact R]. intros a b Ha P. apply preserved_line_rel; [|exact P].
  specialize (C l Hl). rewrite Forall_forall in C. apply C, Ha.
Qed.

Lemma Forall2_length {A B} (R : A -> B -> Prop) l l' : Forall2 R l l' -> length l = length l'.
Proof. induction 1; simpl; congruence. Qed.
