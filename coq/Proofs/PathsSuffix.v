(* C19: HasSuffixPath agrees with the suffix relation on component lists. *)
From PV Require Import Lib.Bytes Model.Paths Spec.PathDenote Proofs.PathsBase Proofs.PathsPrefix.
Open Scope N_scope.

Lemma suffix_by_skipn a b :
  (if (length b <? length a)%nat then false else list_prefixb a (skipn (length b - length a) b))
  = list_suffixb a b.
Proof.
  apply Bool.eq_true_iff_eq. rewrite list_suffixb_spec.
  destruct (length b <? length a)%nat eqn:El.
  - apply Nat.ltb_lt in El. split; [discriminate|]. intros [pre ->]. rewrite app_length in El. lia.
  - apply Nat.ltb_ge in El. rewrite list_prefixb_spec. split.
    + intros [c H]. exists (firstn (length b - length a) b).
      assert (Hl : length (skipn (length b - length a) b) = length a) by (rewrite skipn_length; lia).
      rewrite H, app_length in Hl. destruct c; [|simpl in Hl; lia]. rewrite app_nil_r in H.
      pose proof (firstn_skipn (length b - length a) b) as F. rewrite H in F. symmetry. exact F.
    + intros [pre ->]. exists []. rewrite app_length, Nat.add_sub.
      rewrite skipn_app, Nat.sub_diag, skipn_all. rewrite app_nil_r. reflexivity.
Qed.

Lemma text_suffix_spec p suf :
  text_suffix p suf = true -> p = suf \/ exists a, p = a ++ slash :: suf /\ starts_slash suf = false.
Proof.
  unfold text_suffix.
  destruct (strip_prefix (rev suf) (rev p)) as [r|] eqn:E; [|discriminate].
  apply strip_prefix_some in E.
  assert (Hp : p = rev r ++ suf).
  { rewrite <- (rev_involutive p), E, rev_app_distr, rev_involutive. reflexivity. }
  destruct r as [|c r]; intro H.
  - left. exact Hp.
  - right. apply andb_true_iff in H as [H1 H2]. apply N.eqb_eq in H1. subst c. apply negb_true_iff in H2.
    exists (rev r). split; [|exact H2]. rewrite Hp. simpl. rewrite <- app_assoc. reflexivity.
Qed.

Theorem has_suffix_path_components p suf :
  suf <> [] -> components suf <> [] -> has_suffix_path p suf = path_suffixb suf p.
Proof.
  intros Hs Hc. unfold has_suffix_path, path_suffixb.
  replace (is_empty suf) with false by (destruct suf; [contradiction|reflexivity]). rewrite orb_false_r.
  destruct p as [|c0 p0] eqn:Ep.
  { replace (str_eqb [] suf) with false by (destruct suf; [contradiction|reflexivity]).
    destruct (list_suffixb _ _) eqn:E; [|reflexivity].
    apply list_suffixb_spec in E as [[|? ?] E]; [|discriminate]. symmetry in E. contradiction. }
  rewrite <- Ep. assert (Hp : p <> []) by (subst; discriminate). clear Ep.
  replace (is_empty p) with false by (destruct p; [contradiction|reflexivity]).
  destruct (text_suffix p suf) eqn:Et.
  - symmetry. apply list_suffixb_spec. apply text_suffix_spec in Et as [->|(a & -> & Hr)]; [exists []; reflexivity|].
    exists (root_mark (rooted (a ++ slash :: suf)) ++ names a).
    rewrite (components_names suf). change (rooted suf) with (starts_slash suf). rewrite Hr.
    rewrite components_names, names_app_slash. apply app_assoc.
  - rewrite (is_dot_parts_components suf Hs).
    destruct (components suf) as [|x t] eqn:Ecs; [contradiction|]. rewrite <- Ecs.
    rewrite parts_prefix_eq, (parts_components suf Hs), Ecs, <- Ecs, suffix_by_skipn, (parts_components p Hp).
    destruct (components p) as [|y u] eqn:Ecp; [|reflexivity].
    (* p has no component: Parts(p) = ["."], and no component list ends with "." *)
    apply Bool.eq_true_iff_eq. rewrite !list_suffixb_spec, Ecs.
    destruct (components_head suf x t Ecs) as [_ Hx].
    split; intros [[|z [|? ?]] E]; try discriminate E. injection E as E _. congruence.
Qed.

Theorem suffix_is_parts_suffix p suf :
  p <> [] -> suf <> [] -> components suf <> [] ->
  has_suffix_path p suf = path_suffixb suf p.
Proof. intros _. apply has_suffix_path_components. Qed.
