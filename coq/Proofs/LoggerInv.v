(* An invariant principle for the Logger machine: a predicate on the Logger state that
   survives the primitive updates (field setters, writes of complete XPrint-only lines,
   Separate, Logf) survives every event and every run.  Instances: Proofs/LoggerOut.v,
   Proofs/LoggerLines.v and, for the helpers that only write, Proofs/Logger.v. *)
From PV Require Import Lib.Bytes Model.Escape Model.Logger Proofs.Escape.
Open Scope N_scope.

(* events for which the two index expressions of the Go code are in range:
   line.fix.texts[rawIndex] in writeDiff and args[0] in ShowSummary *)
Definition wf_event (ev : event) : Prop :=
  match ev with
  | EvFix ln fv _ _ _ _ _ => (length (ln_raws ln) <= length (fv_texts fv))%nat
  | EvSummary args => args <> []
  | _ => True
  end.

Lemma changed_flags_some raws texts : (length raws <= length texts)%nat -> changed_flags raws texts <> None.
Proof.
  revert texts. induction raws as [|r raws IH]; intros texts Hl; cbn [changed_flags]; [discriminate|].
  destruct texts as [|t texts]; [simpl in Hl; lia|]. simpl in Hl.
  specialize (IH texts ltac:(lia)). destruct (changed_flags raws texts); [discriminate|congruence].
Qed.

Definition src_prefixes : list str := [[62; 9]; [9]; [43; 9]; [45; 9]].   (* ">\t" "\t" "+\t" "-\t" *)

Local Hint Extern 1 (In _ src_prefixes) => (unfold src_prefixes; simpl; auto 6) : core.

(* what writeLine(prefix, t) writes *)
Definition src_unit (p t : str) : str :=
  p ++ escape_printable t ++ (if has_suffix_nl t then [] else [10]).

(* what Explain writes for one wrapped line *)
Definition expl_unit (x : str) : str :=
  (if nonempty_list x then [9] else []) ++ escape_printable x ++ [10].

(* ShowSummary's hint: (Run "cl" to what.) *)
Definition hint_unit (cl what : str) : str :=
  [40; 82; 117; 110; 32; 34] ++ cl ++ [34; 32; 116; 111; 32] ++ what ++ [46; 41] ++ [10].

Definition hint_e : str * str := ([45; 101], [115; 104; 111; 119; 32; 101; 120; 112; 108; 97; 110; 97; 116; 105; 111; 110; 115]).
Definition hint_fs : str * str := ([45; 102; 115], [115; 104; 111; 119; 32; 119; 104; 97; 116; 32; 99; 97; 110; 32; 98; 101; 32; 102; 105; 120; 101; 100; 32; 97; 117; 116; 111; 109; 97; 116; 105; 99; 97; 108; 108; 121]).
Definition hint_F : str * str := ([45; 70], [97; 117; 116; 111; 109; 97; 116; 105; 99; 97; 108; 108; 121; 32; 102; 105; 120; 32; 115; 111; 109; 101; 32; 105; 115; 115; 117; 101; 115]).

Lemma sw_write_app w a b : sw_write w (a ++ b) = sw_write (sw_write w a) b.
Proof. apply fold_left_app. Qed.

Lemma out_write_app l a b : out_write (out_write l a) b = out_write l (a ++ b).
Proof. unfold out_write. cbn [l_out set_out]. rewrite sw_write_app. reflexivity. Qed.

Lemma out_write_line_eq l s : out_write_line l s = out_write l (s ++ [10]).
Proof. unfold out_write_line, out_write, sw_write_line. rewrite sw_write_app. reflexivity. Qed.

(* each of these units reaches the writer as one write *)
Lemma write_line_eq l p t : write_line l p t = out_write l (src_unit p t).
Proof.
  unfold write_line, src_unit. destruct (has_suffix_nl t); rewrite !out_write_app, <- ?app_assoc, ?app_nil_r; reflexivity.
Qed.

Lemma explain_line_eq l x :
  out_write_line (if nonempty_list x then out_write l [9] else l) (escape_printable x) = out_write l (expl_unit x).
Proof. rewrite out_write_line_eq. unfold expl_unit. destruct (nonempty_list x); [apply out_write_app|reflexivity]. Qed.

Lemma hint_eq l args a what :
  hint l args a what =
  match command_line args a with Some cl => out_write l (hint_unit cl what) | None => set_panicked l true end.
Proof.
  unfold hint, hint_unit. destruct (command_line args a); [|reflexivity].
  rewrite out_write_line_eq, <- !app_assoc. reflexivity.
Qed.

Definition hint_if (c : bool) (l : logger) (args : list str) (h : str * str) : logger :=
  if c then hint l args (fst h) (snd h) else l.

Lemma show_summary_eq o l args :
  show_summary o l args =
  if lo_quiet o || lo_autofix o then l
  else
    let l := if lo_show_source o then out_separate l else l in
    let l := out_write l (summary_line (l_errors l) (l_warnings l) (l_notes l)) in
    let l := hint_if (l_expl_avail l && negb (lo_explain o)) l args hint_e in
    let fa := l_fix_avail l in
    hint_if fa (hint_if (fa && negb (lo_show_autofix o)) l args hint_fs) args hint_F.
Proof.
  unfold show_summary. destruct (lo_quiet o || lo_autofix o); [reflexivity|]. cbv zeta.
  destruct (l_fix_avail _); reflexivity.
Qed.

(* logDiagnostic of Autofix.Apply; its logFix is is_autofix *)
Definition log_diagnostic (o : opts) (format : str) : bool :=
  if str_eqb format silent_autofix_format then false
  else if lo_autofix o && negb (lo_show_autofix o) then false
  else true.

Definition fix_diag (o : opts) (l : logger) (ln : line) (fv : fixview) (lv : level) (msg lnos : str) : logger :=
  logf o (if is_autofix o then l
          else let (ft, l) := first_time l (ln_file ln) lnos msg in
               if ft then write_source o l ln fv else l)
       lv (ln_file ln) lnos msg.

Definition action_lnos (a : str * Z) : str := if (snd a =? 0)%Z then [] else dec_of_Z (snd a).

Definition fix_actions (o : opts) (l : logger) (ln : line) (fv : fixview) (actions : list (str * Z)) : logger :=
  write_source o (fold_left (fun l a => logf o l LAutofix (ln_file ln) (action_lnos a) (fst a)) actions l) ln fv.

Lemma apply_fix_eq o l ln fv lv f m e actions :
  apply_fix o l ln fv lv f m e actions =
  let l := snd (relevant o l f) in
  if negb (shall_be_logged o f && (nonempty_list actions || negb (is_autofix o))) then l
  else
    let d := log_diagnostic o f in
    let l := if d then fix_diag o l ln fv lv m (affected_linenos ln actions) else l in
    let l := if is_autofix o then fix_actions o l ln fv actions else l in
    if d && nonempty_list e then explain o l e else l.
Proof. reflexivity. Qed.

Section Invariant.
  Variable o : opts.
  Variable P : logger -> Prop.
  (* PanicOK: P does not care about the ghost flag l_panicked; otherwise the events must be well-formed *)
  Variable PanicOK : Prop.
  (* GL u: u is an acceptable unit of output -- the bytes written between two line boundaries *)
  Variable GL : str -> Prop.

  (* what the helpers that only write need of P (writeSource, ShowSummary and what they call) *)
  Hypothesis P_prev_line : forall l v, P l -> P (set_prev_line l v).
  Hypothesis P_panicked : forall l, PanicOK -> P l -> P (set_panicked l true).
  Hypothesis P_write : forall l u, GL u -> P l -> P (out_write l u).
  Hypothesis P_out_separate : forall l, P l -> P (out_separate l).
  Hypothesis GL_summary_line : forall e w n, GL (summary_line e w n).

  Definition src_ok (t : str) : Prop := forall p, In p src_prefixes -> GL (src_unit p t).
  Definition view_ok (ln : line) (fv : fixview) : Prop :=
    Forall src_ok (ln_raws ln) /\ Forall src_ok (fv_above fv) /\ Forall src_ok (fv_texts fv) /\ Forall src_ok (fv_below fv).
  Definition hint_ok (args : list str) (h : str * str) : Prop :=
    forall cl, command_line args (fst h) = Some cl -> GL (hint_unit cl (snd h)).
  Definition summary_ok (args : list str) : Prop := hint_ok args hint_e /\ hint_ok args hint_fs /\ hint_ok args hint_F.

  Lemma inv_fold {A} (Q : A -> Prop) (f : logger -> A -> logger) xs l :
    (forall l x, Q x -> P l -> P (f l x)) -> Forall Q xs -> P l -> P (fold_left f xs l).
  Proof.
    intros Hf Hxs. revert l. induction Hxs as [|x xs Hx Hxs IH]; intros l Hl; simpl; [assumption|].
    apply IH, Hf; assumption.
  Qed.

  Lemma inv_if (c : bool) (f : logger -> logger) l : (P l -> P (f l)) -> P l -> P (if c then f l else l).
  Proof. destruct c; auto. Qed.

  Lemma inv_let_pair {A} (x : A * logger) (k : A -> logger -> logger) :
    P (snd x) -> (forall a l, P l -> P (k a l)) -> P (let (a, l) := x in k a l).
  Proof. destruct x. auto. Qed.

  Lemma inv_write_line l p t : In p src_prefixes -> src_ok t -> P l -> P (write_line l p t).
  Proof. intros Hp Ht Hl. rewrite write_line_eq. apply P_write; auto. Qed.

  Lemma inv_write_lines l p ts : In p src_prefixes -> Forall src_ok ts -> P l -> P (write_lines l p ts).
  Proof. intro Hp. apply inv_fold. intros. apply inv_write_line; assumption. Qed.

  Lemma inv_write_diff_lines l p raws texts flags :
    In p src_prefixes -> Forall src_ok raws -> Forall src_ok texts -> P l -> P (write_diff_lines l p raws texts flags).
  Proof.
    intros Hp Hr. revert l texts flags. induction Hr as [|r raws Hr Hrs IH]; intros l texts flags Ht Hl; simpl; [assumption|].
    destruct flags as [|f flags]; [assumption|].
    apply IH; [destruct Ht; [constructor|assumption]|].
    destruct f; [|apply inv_write_line; assumption].
    assert (P (write_line l [45; 9] r)) as H by (apply inv_write_line; auto).
    destruct Ht as [|t texts Ht _]; cbn [hd nonempty_list]; [assumption|].
    destruct (nonempty_list t); [apply inv_write_line; auto|assumption].
  Qed.

  Lemma inv_write_diff l ln fv :
    PanicOK \/ (length (ln_raws ln) <= length (fv_texts fv))%nat \/ is_autofix o = false ->
    Forall src_ok (ln_raws ln) -> Forall src_ok (fv_texts fv) ->
    P l -> P (write_diff o l ln fv).
  Proof.
    intros Hw Hr Ht Hl. unfold write_diff. destruct (is_autofix o).
    - destruct (changed_flags (ln_raws ln) (fv_texts fv)) as [flags|] eqn:E.
      + apply inv_write_diff_lines; try assumption. destruct (existsb (fun b => b) flags); auto.
      + destruct Hw as [Hw|[Hw|Hw]]; [apply P_panicked; assumption| |discriminate].
        exfalso. exact (changed_flags_some _ _ Hw E).
    - apply inv_write_diff_lines; auto.
  Qed.

  Lemma inv_write_source l ln fv :
    PanicOK \/ (length (ln_raws ln) <= length (fv_texts fv))%nat \/ is_autofix o = false ->
    view_ok ln fv -> P l -> P (write_source o l ln fv).
  Proof.
    intros Hw (Hr & Ha & Ht & Hb) Hl. unfold write_source. destruct (negb (lo_show_source o)); [assumption|].
    destruct (is_autofix o) eqn:Em.
    - apply P_out_separate, inv_write_lines, inv_write_diff, inv_write_lines; auto. rewrite Em. assumption.
    - destruct (match l_prev_line l with Some p => p =? ln_id ln | None => false end); [assumption|].
      apply inv_write_diff; auto.
  Qed.

  Lemma inv_hint c l args h : PanicOK \/ args <> [] -> hint_ok args h -> P l -> P (hint_if c l args h).
  Proof.
    intros Hw Hh Hl. destruct c; [|assumption]. cbn [hint_if]. rewrite hint_eq.
    destruct (command_line args (fst h)) as [cl|] eqn:E; [apply P_write; auto|].
    destruct args; [|discriminate]. destruct Hw as [Hw|Hw]; [apply P_panicked; assumption|congruence].
  Qed.

  Lemma inv_show_summary l args : PanicOK \/ args <> [] -> summary_ok args -> P l -> P (show_summary o l args).
  Proof.
    intros Hw (He & Hfs & HF) Hl. rewrite show_summary_eq. destruct (lo_quiet o || lo_autofix o); [assumption|].
    cbv zeta. do 3 (apply inv_hint; [assumption|assumption|]).
    apply P_write; [apply GL_summary_line|]. destruct (lo_show_source o); auto.
  Qed.

  (* and of the helpers that touch the rest of the state *)
  Hypothesis P_suppress_diag : forall l v, P l -> P (set_suppress_diag l v).
  Hypothesis P_suppress_expl : forall l v, P l -> P (set_suppress_expl l v).
  Hypothesis P_logged : forall l v, P l -> P (set_logged l v).
  Hypothesis P_explained : forall l v, P l -> P (set_explained l v).
  Hypothesis P_expl_avail : forall l v, P l -> P (set_expl_avail l v).
  Hypothesis P_fix_avail : forall l v, P l -> P (set_fix_avail l v).
  Hypothesis P_err_write : forall l s, safe s -> P l -> P (set_err l (sw_write (l_err l) s)).
  (* Logf after its write: the counter and the ghost tuple *)
  Hypothesis P_count : forall l lv f n m, P l -> P (set_emitted (bump l lv) (l_emitted (bump l lv) ++ [(lv, f, n, m)])).

  Definition explanation_ok (e : list str) : Prop :=
    GL [10] /\ Forall (fun x => GL (expl_unit x)) (wrap explanation_width e).

  Definition log_ok (lv : level) (f n m : str) : Prop :=
    let f' := if str_eqb f [46] then [] else f in
    GL (escape_printable (format_diag o lv f' (if nonempty_list f' then n else []) m)).

  Definition actions_ok (ln : line) (actions : list (str * Z)) : Prop :=
    Forall (fun a => log_ok LAutofix (ln_file ln) (action_lnos a) (fst a)) actions.

  Definition ev_ok (ev : event) : Prop :=
    (PanicOK \/ wf_event ev) /\
    match ev with
    | EvDiag ln lv f m => view_ok ln no_fix /\ log_ok lv (ln_file ln) (linenos ln) m
    | EvExplain e => explanation_ok e
    | EvFix ln fv lv f m e actions =>
      view_ok ln fv /\ log_ok lv (ln_file ln) (affected_linenos ln actions) m /\ actions_ok ln actions /\ explanation_ok e
    | EvSaved _ => True
    | EvTechError _ _ => True
    | EvSummary args => summary_ok args
    end.

  Lemma inv_explain l e : explanation_ok e -> P l -> P (explain o l e).
  Proof.
    intros (Hnl & He) Hl. unfold explain. destruct (l_suppress_expl l); [assumption|].
    assert (P (set_expl_avail l true)) as H1 by (apply P_expl_avail; assumption).
    destruct (negb (lo_explain o)); [assumption|].
    destruct (once_seen _ _); [assumption|].
    rewrite out_write_line_eq. apply P_write; [assumption|].
    apply (inv_fold (fun x => GL (expl_unit x))); auto.
    intros l0 x Hx H0. rewrite explain_line_eq. apply P_write; assumption.
  Qed.

  Lemma inv_logf l lv f n m : log_ok lv f n m -> P l -> P (logf o l lv f n m).
  Proof. intros Hg Hl. unfold logf. destruct (l_suppress_diag l); [|apply P_count, P_write]; auto. Qed.

  Lemma inv_relevant l f : P l -> P (snd (relevant o l f)).
  Proof. intro Hl. apply P_suppress_expl, P_suppress_diag, Hl. Qed.

  Lemma inv_first_time l f n m : P l -> P (snd (first_time l f n m)).
  Proof. intro Hl. unfold first_time. destruct (once_seen _ _); cbn [snd]; auto. Qed.

  Lemma inv_diag l ln lv f m :
    view_ok ln no_fix -> log_ok lv (ln_file ln) (linenos ln) m -> P l -> P (diag o l ln lv f m).
  Proof.
    intros Hv Hlog Hl. unfold diag. destruct (is_autofix o) eqn:Em; [apply P_suppress_expl, Hl|].
    apply inv_let_pair; [apply inv_relevant, Hl|]. intros r la H1. destruct (negb r); [assumption|].
    apply inv_let_pair; [apply inv_first_time, H1|]. intros ft lb H2.
    destruct (negb ft); [apply P_suppress_diag, H2|].
    apply inv_logf; [assumption|]. destruct (lo_show_source o); [|assumption].
    apply inv_write_source; auto.
    destruct (match l_prev_line lb with Some p => p =? ln_id ln | None => false end); auto.
  Qed.

  Section Apply.
    Variables (ln : line) (fv : fixview).
    Hypothesis Hw : PanicOK \/ (length (ln_raws ln) <= length (fv_texts fv))%nat.
    Hypothesis Hv : view_ok ln fv.

    Lemma inv_fix_diag l lv m n : log_ok lv (ln_file ln) n m -> P l -> P (fix_diag o l ln fv lv m n).
    Proof.
      intros Hlog Hl. apply inv_logf; [assumption|]. destruct (is_autofix o); [assumption|].
      apply inv_let_pair; [apply inv_first_time, Hl|]. intros ft l' Hl'.
      destruct ft; [apply inv_write_source; tauto|assumption].
    Qed.

    Lemma inv_fix_actions l actions : actions_ok ln actions -> P l -> P (fix_actions o l ln fv actions).
    Proof.
      intros Hacts Hl. apply inv_write_source; [tauto|assumption|].
      revert Hl. apply inv_fold with (2 := Hacts). intros l0 a Ha H0. apply inv_logf; assumption.
    Qed.

    Lemma inv_apply_fix l lv f m e actions :
      log_ok lv (ln_file ln) (affected_linenos ln actions) m -> actions_ok ln actions -> explanation_ok e ->
      P l -> P (apply_fix o l ln fv lv f m e actions).
    Proof.
      intros Hlog Hacts He Hl. rewrite apply_fix_eq. cbv zeta.
      pose proof (inv_relevant l f Hl) as H0. destruct (negb _); [assumption|].
      apply (inv_if _ (fun l => explain o l e)); [apply inv_explain, He|].
      apply (inv_if _ (fun l => fix_actions o l ln fv actions)); [apply inv_fix_actions, Hacts|].
      apply (inv_if _ (fun l => fix_diag o l ln fv lv m _)); [apply inv_fix_diag, Hlog|assumption].
    Qed.
  End Apply.

  Lemma inv_step l ev : ev_ok ev -> P l -> P (log_step o l ev).
  Proof.
    intros (Hw & Hev) Hl. destruct ev; cbn [log_step]; cbn [wf_event] in Hw.
    - destruct Hev. apply inv_diag; assumption.
    - apply inv_explain; assumption.
    - destruct Hev as (? & ? & ? & ?). apply inv_apply_fix; assumption.
    - unfold saved. destruct (negb (lo_autofix o) && modified); auto.
    - apply P_err_write; [apply escape_printable_safe|assumption].
    - apply inv_show_summary; assumption.
  Qed.

  Theorem inv_run evs : Forall ev_ok evs -> P new_logger -> P (log_run o evs).
  Proof. apply inv_fold. intros l ev. apply inv_step. Qed.
End Invariant.

Lemma view_ok_all (GL : str -> Prop) ln fv : (forall p t, In p src_prefixes -> GL (src_unit p t)) -> view_ok GL ln fv.
Proof. intro H. repeat split; apply Forall_forall; intros t _ p; apply H. Qed.
