(* C19: HasPrefixPath agrees with the prefix relation on component lists. *)
From PV Require Import Lib.Bytes Model.Paths Spec.PathDenote Proofs.PathsBase.
Open Scope N_scope.

Lemma list_prefixb_spec a b : list_prefixb a b = true <-> exists c, b = a ++ c.
Proof.
  revert b; induction a as [|x a IH]; intro b; simpl.
  - split; eauto.
  - destruct b as [|y b]; [split; [discriminate|intros [c H]; discriminate]|].
    rewrite andb_true_iff, str_eqb_spec, IH. split.
    + intros [-> [c ->]]. eauto.
    + intros [c H]. injection H as -> ->. eauto.
Qed.

Lemma list_infixb_spec a b : list_infixb a b = true <-> exists pre post, b = pre ++ a ++ post.
Proof.
  induction b as [|y b IH]; cbn [list_infixb]; rewrite orb_true_iff, list_prefixb_spec.
  - split.
    + intros [[c H]|H]; [exists [], c; exact H|discriminate].
    + intros (pre & post & H). left. destruct pre; [exists post; exact H|discriminate].
  - rewrite IH. split.
    + intros [[c H]|(pre & post & ->)]; [exists [], c; exact H|exists (y :: pre), post; reflexivity].
    + intros (pre & post & H). destruct pre as [|z pre]; [left; exists post; exact H|].
      injection H as <- ->. eauto.
Qed.

Lemma list_suffixb_spec a b : list_suffixb a b = true <-> exists pre, b = pre ++ a.
Proof.
  unfold list_suffixb. rewrite list_prefixb_spec. split.
  - intros [c H]. exists (rev c). rewrite <- (rev_involutive b), H, rev_app_distr, rev_involutive. reflexivity.
  - intros [pre ->]. exists (rev pre). apply rev_app_distr.
Qed.

Lemma list_prefixb_app a c : list_prefixb a (a ++ c) = true.
Proof. apply list_prefixb_spec. eauto. Qed.

Lemma parts_prefix_eq a b : parts_prefix a b = list_prefixb a b.
Proof.
  revert b; induction a as [|x a IH]; intro b; simpl; [reflexivity|].
  destruct b as [|y b]; [reflexivity|]. rewrite IH, (str_eqb_sym y x). reflexivity.
Qed.

Lemma components_app_slash a b : a <> [] -> components (a ++ slash :: b) = components a ++ names b.
Proof.
  intro H. rewrite !components_names, names_app_slash, rooted_app by exact H. apply app_assoc.
Qed.

Lemma name_nonempty x : seg_is_name x = true -> x <> [] /\ x <> dotstr.
Proof. intro H. split; intros ->; discriminate. Qed.

Lemma components_head p x t : components p = x :: t -> is_empty x = rooted p /\ x <> dotstr.
Proof.
  rewrite components_names. pose proof (names_elem p) as Hn. destruct (rooted p); simpl; intro H.
  - injection H as <- _. split; [reflexivity|discriminate].
  - rewrite H in Hn. apply Forall_inv in Hn as [Hx _]. apply name_nonempty in Hx as [H1 H2].
    split; [destruct x; [contradiction|reflexivity]|exact H2].
Qed.

Lemma components_nil p : components p = [] <-> rooted p = false /\ names p = [].
Proof. rewrite components_names. destruct (rooted p); simpl; split; (easy || intuition). Qed.

(* q is "", ".", "./", ... *)
Lemma prefix_no_component q p : components q = [] -> path_prefixb q p = negb (rooted p).
Proof.
  intro H. unfold path_prefixb. rewrite H. apply components_nil in H as [-> _]. destruct (rooted p); reflexivity.
Qed.

Lemma prefix_same_root q p :
  components q <> [] -> list_prefixb (components q) (components p) = true -> rooted q = rooted p.
Proof.
  intros Hq H. apply list_prefixb_spec in H as [c H].
  destruct (components q) as [|x t] eqn:Eq; [contradiction|].
  destruct (components_head q x t Eq) as [H1 _].
  destruct (components_head p x (t ++ c) H) as [H2 _]. congruence.
Qed.

Lemma text_prefix_sound p q : q <> [] -> text_prefix p q = true -> path_prefixb q p = true.
Proof.
  intros Hq H. unfold text_prefix in H. destruct (strip_prefix q p) as [r|] eqn:E; [|discriminate].
  apply strip_prefix_some in E. subst p. unfold path_prefixb. destruct r as [|c r].
  - rewrite app_nil_r, eqb_reflx. apply list_prefixb_spec. exists []. symmetry. apply app_nil_r.
  - apply N.eqb_eq in H. subst c.
    rewrite rooted_app, eqb_reflx, components_app_slash by exact Hq. apply list_prefixb_app.
Qed.

(* what the quick-reject loop compares: the strings with dots and slashes removed *)
Definition strip (s : str) : str := filter (fun c => negb (dot_or_slash c)) s.

Lemma strip_cons c s : strip (c :: s) = if dot_or_slash c then strip s else c :: strip s.
Proof. unfold strip. simpl. destruct (dot_or_slash c); reflexivity. Qed.

Lemma quick_reject_sound p : forall q,
  quick_reject p q = true -> forall r, strip p <> strip q ++ r.
Proof.
  induction p as [|c p IH]; intros q H; [discriminate|].
  simpl in H. rewrite strip_cons. destruct (dot_or_slash c); [apply IH, H|].
  revert H. induction q as [|d q IHq]; intro H; [discriminate|].
  rewrite strip_cons. destruct (dot_or_slash d); [apply IHq, H|].
  intros r Hr. injection Hr as -> Hr. rewrite N.eqb_refl in H. apply (IH _ H _ Hr).
Qed.

Lemma strip_join l : strip (join_slash l) = flat_map strip l.
Proof.
  induction l as [|x l IH]; [reflexivity|]. destruct l as [|y l]; [symmetry; apply app_nil_r|].
  rewrite join_cons. unfold strip at 1. rewrite filter_app. exact (f_equal (app (strip x)) IH).
Qed.

Lemma strip_not_name x : seg_is_name x = false -> strip x = [].
Proof.
  unfold seg_is_name. destruct x as [|c x]; [reflexivity|]. simpl. intro H.
  apply negb_false_iff, str_eqb_spec in H. injection H as -> ->. reflexivity.
Qed.

Lemma strip_names l : flat_map strip (filter seg_is_name l) = flat_map strip l.
Proof.
  induction l as [|x l IH]; [reflexivity|]. simpl. destruct (seg_is_name x) eqn:E; simpl.
  - rewrite IH. reflexivity.
  - rewrite strip_not_name by exact E. exact IH.
Qed.

Lemma strip_components p : flat_map strip (components p) = strip p.
Proof.
  unfold components. rewrite flat_map_app, strip_names, segs_split, <- (strip_join (split_slash p)), join_split.
  destruct (rooted p); reflexivity.
Qed.

Lemma quick_reject_ok p q : quick_reject p q = true -> path_prefixb q p = false.
Proof.
  intro H. unfold path_prefixb. destruct (list_prefixb (components q) (components p)) eqn:E; [|apply andb_false_r].
  apply list_prefixb_spec in E as [c E]. apply (f_equal (flat_map strip)) in E.
  rewrite flat_map_app, !strip_components in E. destruct (quick_reject_sound p q H _ E).
Qed.

Lemma parts_compare p q :
  q <> [] -> components q <> [] -> parts_prefix (parts q) (parts p) = path_prefixb q p.
Proof.
  intros Hq Hcq. rewrite parts_prefix_eq, (parts_components q Hq). unfold path_prefixb.
  destruct (components q) as [|x t] eqn:Eq; [contradiction|].
  destruct (components_head q x t Eq) as [_ Hx]. apply str_eqb_false in Hx.
  destruct p as [|c s] eqn:Ep; [symmetry; apply andb_false_r|]. rewrite <- Ep, <- Eq.
  rewrite parts_components by (subst; discriminate).
  destruct (components p) as [|y u] eqn:Ecp.
  - (* p has no component: Parts(p) = ["."], and the first component of q is not "." *)
    rewrite Eq. simpl. rewrite Hx, andb_false_r. reflexivity.
  - rewrite <- Ecp. destruct (list_prefixb (components q) (components p)) eqn:E.
    + rewrite (prefix_same_root q p) by (congruence || exact E). rewrite eqb_reflx. reflexivity.
    + rewrite andb_false_r. reflexivity.
Qed.

Lemma is_dot_parts_components q : q <> [] ->
  is_dot_parts (parts q) = match components q with [] => true | _ => false end.
Proof.
  intro Hq. rewrite (parts_components q Hq). destruct (components q) as [|x t] eqn:E; [reflexivity|].
  destruct (components_head q x t E) as [_ Hx]. destruct t; [|reflexivity]. apply str_eqb_false, Hx.
Qed.

Theorem has_prefix_path_components p q :
  q <> [] -> (components q = [] -> is_abs p = rooted p) ->
  has_prefix_path p q = path_prefixb q p.
Proof.
  intros Hq Habs. unfold has_prefix_path.
  destruct (text_prefix p q) eqn:Et; [symmetry; apply text_prefix_sound; assumption|].
  replace (is_empty q) with false by (destruct q; [contradiction|reflexivity]).
  destruct (str_eqb q dotstr) eqn:Ed.
  { apply str_eqb_spec in Ed. subst q. rewrite prefix_no_component, Habs; reflexivity. }
  destruct (quick_reject p q) eqn:Eqr; [symmetry; apply quick_reject_ok, Eqr|].
  rewrite (is_dot_parts_components q Hq). destruct (components q) eqn:Ec.
  - (* "./", "./.": no component, relative *)
    rewrite prefix_no_component, Habs; auto.
  - apply parts_compare; [exact Hq|]. rewrite Ec. discriminate.
Qed.

(* the empty path arises as the rest after a trailing slash *)
Lemma has_prefix_path_nil q : q <> [] ->
  has_prefix_path [] q = match components q with [] => true | _ => false end.
Proof.
  intro Hq. rewrite has_prefix_path_components by auto. unfold path_prefixb.
  destruct (components q) eqn:E; [|apply andb_false_r]. apply components_nil in E as [-> _]. reflexivity.
Qed.

Theorem prefix_is_parts_prefix p q :
  p <> [] -> q <> [] -> (components q = [] -> is_abs p = rooted p) ->
  has_prefix_path p q = path_prefixb q p.
Proof. intros _. apply has_prefix_path_components. Qed.
