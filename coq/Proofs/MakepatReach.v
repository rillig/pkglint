(* reachable() computes graph reachability from state 0 and never runs out of
   fuel; CanMatch is true exactly when some byte string is accepted. *)
From PV Require Import Lib.Bytes Lib.ByteRange Model.Makepat
  Proofs.MakepatBasics Proofs.MakepatNFA.
From Coq Require Import ZifyBool ZifyN ZifyNat.
Open Scope N_scope.

(* byte ranges are ignored, as in the Go code *)
Inductive path (a : pattern) : N -> N -> Prop :=
| path_refl q : path a q q
| path_step q st t q' : nth_n a q = Some st -> In t (trans st) -> path a (tto t) q' -> path a q q'.

Lemma path_snoc a q q1 st t : path a q q1 -> nth_n a q1 = Some st -> In t (trans st) -> path a q (tto t).
Proof.
  induction 1 as [q|q st0 t0 q' N0 I0 P IH]; intros N1 I1.
  - eapply path_step; [exact N1|exact I1|apply path_refl].
  - eapply path_step; [exact N0|exact I0|]. apply IH; assumption.
Qed.

Definition dn (p : progress_state) : nat := match p with Done => 1 | _ => 0 end.
Fixpoint ndone (l : list progress_state) : nat :=
  match l with [] => 0 | p :: t => dn p + ndone t end.

Lemma ndone_le l : (ndone l <= length l)%nat.
Proof. induction l as [|p l IH]; cbn [ndone length]; [lia|]. destruct p; cbn [dn]; lia. Qed.

Lemma ndone_upd l : forall i v l' old, upd_n l i (fun _ => v) = Some l' -> nth_n l i = Some old ->
  (ndone l' + dn old = ndone l + dn v)%nat.
Proof.
  induction l as [|p l IH]; intros i v l' old H N; [discriminate|].
  rewrite upd_n_cons in H. rewrite nth_n_cons in N. destruct (i =? 0).
  - injection H as <-. injection N as <-. cbn [ndone]. lia.
  - destruct (upd_n l (N.pred i) (fun _ => v)) as [t'|] eqn:E; [|discriminate]. injection H as <-.
    cbn [ndone]. specialize (IH _ _ _ _ E N). lia.
Qed.

Definition seen (pr : list progress_state) (i : N) : Prop :=
  nth_n pr i = Some Todo \/ nth_n pr i = Some Done.

Lemma set_progress pr i v old : nth_n pr i = Some old ->
  exists pr', upd_n pr i (fun _ => v) = Some pr' /\ nlen pr' = nlen pr
    /\ (ndone pr' + dn old = ndone pr + dn v)%nat
    /\ forall j, nth_n pr' j = if j =? i then Some v else nth_n pr j.
Proof.
  intro Np. destruct (upd_n_at pr i (fun _ => v) old Np) as (pr' & E & L & H). exists pr'.
  split; [exact E|]. split; [exact L|]. split; [exact (ndone_upd _ _ _ _ _ E Np)|exact H].
Qed.

Lemma mark_targets_spec n ts : (forall t, In t ts -> tto t < n) -> forall pr, nlen pr = n ->
  exists pr', mark_targets ts pr = Some pr' /\ nlen pr' = n /\ ndone pr' = ndone pr
    /\ (forall j, nth_n pr' j = Some Done <-> nth_n pr j = Some Done)
    /\ (forall j, seen pr' j <-> seen pr j \/ In j (map tto ts)).
Proof.
  induction ts as [|t ts IH]; intros Ht pr Ln; cbn [mark_targets map In].
  - exists pr. tauto.
  - specialize (IH (fun t' H => Ht t' (or_intror H))).
    destruct (nth_n_lt pr (tto t)) as [p Np]; [rewrite Ln; apply Ht; left; reflexivity|]. rewrite Np.
    destruct p.
    2,3: destruct (IH pr Ln) as (pr' & E' & L' & D' & Hd & Hs); exists pr';
      repeat (split; [assumption|]); intro j; rewrite Hs; split; [tauto|];
      intros [H|[<-|H]]; auto; left; unfold seen; auto.
    destruct (set_progress pr (tto t) Todo _ Np) as (pr1 & E1 & L1 & D1 & N1). rewrite E1. cbn [dn] in D1.
    destruct (IH pr1) as (pr' & E' & L' & D' & Hd & Hs); [congruence|].
    exists pr'. split; [exact E'|]. split; [exact L'|]. split; [lia|].
    split; intro j; [rewrite Hd|rewrite Hs]; unfold seen; rewrite N1;
      destruct (N.eqb_spec j (tto t)) as [->|]; rewrite ?Np; intuition congruence.
Qed.

(* The invariant of the `goto again` loop. *)
Record inv (a : pattern) (pr : list progress_state) (rc : list bool) : Prop := {
  inv_lp : nlen pr = nlen a;
  inv_lr : nlen rc = nlen a;
  inv_rc : forall i, on rc i <-> nth_n pr i = Some Done;
  inv_sound : forall i, seen pr i -> path a 0 i;
  inv_closed : forall i st t, nth_n pr i = Some Done -> nth_n a i = Some st -> In t (trans st) ->
                              seen pr (tto t);
  inv_start : seen pr 0
}.

Lemma handle_spec a pr rc i st : targets_ok (nlen a) a -> inv a pr rc ->
  nth_n a i = Some st -> nth_n pr i = Some Todo ->
  exists rc1 pr1 pr2, set_true rc i = Some rc1 /\ upd_n pr i (fun _ => Done) = Some pr1
    /\ mark_targets (trans st) pr1 = Some pr2 /\ inv a pr2 rc1 /\ ndone pr2 = S (ndone pr).
Proof.
  intros Hwf [Lp Lr Hrc Hsound Hclosed Hstart] Na Np.
  destruct (set_true_spec rc i) as (rc1 & Erc & Lrc1 & Orc1); [rewrite Lr; exact (nth_n_some_lt _ _ _ Na)|].
  destruct (set_progress pr i Done _ Np) as (pr1 & Epr & L1 & D1 & N1). cbn [dn] in D1.
  destruct (mark_targets_spec (nlen a) (trans st) (Hwf st (nth_n_In _ _ _ Na)) pr1)
    as (pr2 & E2 & L2 & D2 & Hd & Hs); [congruence|].
  exists rc1, pr1, pr2. repeat (split; [assumption|]). split; [|lia].
  assert (Hd2 : forall j, nth_n pr2 j = Some Done <-> nth_n pr j = Some Done \/ i = j).
  { intro j. rewrite Hd, N1. destruct (N.eqb_spec j i) as [->|]; [rewrite Np|]; intuition congruence. }
  assert (Hs2 : forall j, seen pr2 j <-> seen pr j \/ In j (map tto (trans st))).
  { intro j. rewrite Hs. unfold seen. rewrite N1.
    destruct (N.eqb_spec j i) as [->|]; [rewrite Np|]; intuition congruence. }
  constructor.
  - exact L2.
  - congruence.
  - intro j. rewrite Orc1, Hd2, Hrc. reflexivity.
  - intros j H. apply Hs2 in H as [H|H]; [exact (Hsound j H)|].
    apply in_map_iff in H as (t & <- & It). eapply path_snoc; [|exact Na|exact It].
    apply Hsound. left; exact Np.
  - intros j st' t Hj Nj It. apply Hs2. apply Hd2 in Hj as [Hj|<-].
    + left. exact (Hclosed j st' t Hj Nj It).
    + right. replace st' with st in It by congruence. apply in_map. exact It.
  - apply Hs2. left. exact Hstart.
Qed.

Lemma reach_pass_spec a : targets_ok (nlen a) a -> forall sts pre pr rc again,
  a = pre ++ sts -> inv a pr rc ->
  exists pr' rc' again', reach_pass sts (nlen pre) pr rc again = Some (pr', rc', again') /\ inv a pr' rc'
    /\ ((ndone pr < ndone pr')%nat /\ again' = true
        \/ pr' = pr /\ rc' = rc /\ again' = again /\ forall j, nlen pre <= j -> nth_n pr j <> Some Todo).
Proof.
  intros Hwf. induction sts as [|st sts IH]; intros pre pr rc again Ea I; cbn [reach_pass].
  - exists pr, rc, again. split; [reflexivity|]. split; [exact I|]. right. repeat (split; [reflexivity|]).
    intros j Hj. rewrite app_nil_r in Ea. subst pre.
    rewrite nth_n_ge by (rewrite (inv_lp _ _ _ I); exact Hj). discriminate.
  - assert (Na : nth_n a (nlen pre) = Some st).
    { rewrite Ea, nth_n_app_r, N.sub_diag by lia. reflexivity. }
    specialize (IH (pre ++ [st])). rewrite <- app_assoc, nlen_app, N.add_1_r in IH. specialize (fun pr rc again => IH pr rc again Ea).
    destruct (nth_n_lt pr (nlen pre)) as [p Np]; [rewrite (inv_lp _ _ _ I); exact (nth_n_some_lt _ _ _ Na)|].
    rewrite Np. destruct p.
    1,3: destruct (IH pr rc again I) as (pr' & rc' & again' & E & I' & H); exists pr', rc', again';
      split; [exact E|]; split; [exact I'|]; destruct H as [H|(-> & -> & -> & H)]; [left; exact H|right];
      repeat (split; [reflexivity|]); intros j Hj;
      destruct (N.eq_dec j (nlen pre)) as [->|]; [congruence|apply H; lia].
    destruct (handle_spec a pr rc _ st Hwf I Na Np) as (rc1 & pr1 & pr2 & -> & -> & -> & I2 & D2).
    destruct (IH pr2 rc1 true I2) as (pr' & rc' & again' & E & I' & H). exists pr', rc', again'.
    split; [exact E|]. split; [exact I'|]. left.
    destruct H as [[H ->]|(-> & _ & -> & _)]; split; (lia || reflexivity).
Qed.

Definition reach_ok (a : pattern) (rc : list bool) : Prop :=
  nlen rc = nlen a /\ forall i, on rc i <-> (i < nlen a /\ path a 0 i).

Lemma inv_final a pr rc : inv a pr rc -> (forall j, nth_n pr j <> Some Todo) -> reach_ok a rc.
Proof.
  intros [Lp Lr Hrc Hsound Hclosed Hstart] Hno.
  assert (Dn : forall j, seen pr j -> nth_n pr j = Some Done) by (intros j [H|H]; [destruct (Hno j H)|exact H]).
  split; [exact Lr|]. intro i. rewrite Hrc. split.
  - intro Hd. split; [rewrite <- Lp; exact (nth_n_some_lt _ _ _ Hd)|apply Hsound; right; exact Hd].
  - intros [_ P]. apply Dn in Hstart. clear Hsound. revert Hstart.
    induction P as [q|q st t q' N0 I0 P IHp]; intro Hd; [exact Hd|]. apply IHp, Dn. exact (Hclosed q st t Hd N0 I0).
Qed.

Lemma reach_loop_spec a : targets_ok (nlen a) a -> forall fuel pr rc,
  inv a pr rc -> (length a < fuel + ndone pr)%nat ->
  exists rc', reach_loop fuel a pr rc = Ok rc' /\ reach_ok a rc'.
Proof.
  intros Hwf. induction fuel as [|f IH]; intros pr rc I Hf.
  - pose proof (ndone_le pr). pose proof (inv_lp _ _ _ I) as L. rewrite !nlen_length in L. lia.
  - cbn [reach_loop].
    destruct (reach_pass_spec a Hwf a [] pr rc false eq_refl I) as (pr' & rc' & again' & E & I' & H).
    cbn [nlen] in E. rewrite E. destruct H as [[D ->]|(-> & -> & -> & Hno)].
    + apply IH; [exact I'|lia].
    + exists rc. split; [reflexivity|]. apply (inv_final a pr rc I). intro j. apply Hno. cbn [nlen]. lia.
Qed.

Theorem reachable_total a : wf a -> exists rc, reachable a = Ok rc /\ reach_ok a rc.
Proof.
  intros [Hne Hwf]. unfold reachable. destruct a as [|st0 a']; [contradiction|].
  set (a := st0 :: a') in *. change (zeros_like Unseen a) with (Unseen :: zeros_like Unseen a').
  cbn [upd_n N.eqb]. set (pr0 := Todo :: zeros_like Unseen a').
  assert (P0 : forall j p, nth_n pr0 j = Some p -> p = Unseen \/ (j = 0 /\ p = Todo)).
  { intros j p. unfold pr0. rewrite nth_n_cons. destruct (N.eqb_spec j 0) as [->|]; intro H.
    - injection H as <-. auto.
    - apply zeros_like_nth in H. auto. }
  apply reach_loop_spec; [exact Hwf| |lia].
  constructor.
  - unfold pr0, a. rewrite !nlen_cons, zeros_like_nlen. reflexivity.
  - apply zeros_like_nlen.
  - intro i. split; [intro H; destruct (on_zeros _ _ H)|].
    intro H. apply P0 in H as [H|[_ H]]; discriminate.
  - intros i [H|H]; apply P0 in H as [H|[-> _]]; try discriminate; apply path_refl.
  - intros i st t H. apply P0 in H as [H|[_ H]]; discriminate.
  - left. reflexivity.
Qed.

Definition ranges_ok (a : pattern) : Prop :=
  forall st, In st a -> forall t, In t (trans st) -> tmin t <= tmax t /\ tmax t < 256.

Lemma accepts_path a : forall s q, accepts a q s = true ->
  exists q' st, path a q q' /\ nth_n a q' = Some st /\ fin st = true.
Proof.
  induction s as [|c s IH]; intros q H.
  - rewrite accepts_nil in H. destruct (nth_n a q) as [st|] eqn:N0; [|discriminate].
    exists q, st. auto using path_refl.
  - rewrite accepts_cons in H. destruct (nth_n a q) as [st|] eqn:N0; [|discriminate].
    apply existsb_exists in H as (t & It & H). apply andb_true_iff in H as [_ H].
    destruct (IH _ H) as (q' & st' & P & N1 & F). exists q', st'. eauto using path_step.
Qed.

Lemma path_accepts a : ranges_ok a -> forall q q', path a q q' ->
  forall st, nth_n a q' = Some st -> fin st = true -> exists s, is_bytes s /\ accepts a q s = true.
Proof.
  intros Hr q q' P. induction P as [q|q st0 t q' N0 I0 P IH]; intros st N1 F.
  - exists []. split; [constructor|]. rewrite accepts_nil, N1. exact F.
  - destruct (IH st N1 F) as (s & Hs & A).
    destruct (Hr st0 (nth_n_In _ _ _ N0) t I0) as [R1 R2].
    exists (tmin t :: s). split; [constructor; [lia|exact Hs]|].
    rewrite accepts_cons, N0. apply existsb_exists. exists t. split; [exact I0|].
    rewrite A, andb_true_r. unfold fires. lia.
Qed.

Theorem can_match_exact a : wf a -> ranges_ok a ->
  exists b, can_match a = Ok b /\
            (b = true <-> exists s, is_bytes s /\ matchp a s = Ok true).
Proof.
  intros Hwf Hr. destruct (reachable_total a Hwf) as (rc & E & Lr & Hrc).
  unfold can_match. destruct a as [|st0 a'] eqn:Ea; [destruct Hwf as [C _]; contradiction|]. rewrite <- Ea in *.
  rewrite E. exists (any_end a rc). split; [reflexivity|]. rewrite any_end_spec. split.
  - intros (i & st & N0 & O & F). apply Hrc in O as [_ P].
    destruct (path_accepts a Hr 0 i P st N0 F) as (s & Hs & A).
    exists s. split; [exact Hs|]. rewrite matchp_accepts by exact Hwf. rewrite A. reflexivity.
  - intros (s & Hs & M). rewrite matchp_accepts in M by exact Hwf. injection M as A.
    destruct (accepts_path a s 0 A) as (q' & st & P & N1 & F).
    exists q', st. split; [exact N1|]. split; [|exact F]. apply Hrc. split; [exact (nth_n_some_lt _ _ _ N1)|exact P].
Qed.
