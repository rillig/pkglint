(* C15: the 72-column clause under the guard the code itself uses ("the line fits into 72 columns
   with its present separator, or with a single space if it has none"). *)
From PV Require Import Lib.Bytes Model.Tabs Model.Varalign Proofs.VaralignBlanks Proofs.VaralignSingle.
From Coq Require Import ZifyBool ZifyN ZifyNat Lia.
Open Scope Z_scope.

(* tabWidthSlice(leadingComment, varnameOp, condStr(oldSpace == "", " ", oldSpace), value) *)
Definition width_with_room (p : parts) : Z :=
  width_with p (if is_nil (sbv p) then [SP] else sbv p).

Lemma aligned_fits_room W p : sav p = [] -> cont p = [] ->
  width_with_room p <= 72 -> line_width (aligned W p) <= 72.
Proof.
  intros SA CO H72. unfold width_with_room in H72.
  rewrite (line_width_plain (aligned W p)) by assumption.
  change (width_with (aligned W p) (sbv (aligned W p))) with (width_with p (new_sbv W p)).
  (* the old separator and a single space fit by the guard; tabs up to W are only chosen
     when blockedb, which asks the same question, says they fit *)
  assert (width_with p (sbv p) <= 72 /\ width_with p [SP] <= 72) as [OLD SPC].
  { destruct (sbv p) eqn:E; cbn [is_nil] in H72; [pose proof (width_with_nil_le_sp p); lia|].
    rewrite <- E in *. assert (NB : sbv p <> []) by (rewrite E; discriminate).
    pose proof (width_with_sp_le p NB). lia. }
  destruct (new_sbv_cases W p) as [->|[->|(_ & _ & B & ->)]]; [assumption..|].
  unfold blockedb in B. lia.
Qed.

Theorem no_widen_72_room para para' :
  Forall single_ok para -> para <> [] ->
  realign_lines para = Ok para' ->
  Forall2 (fun p p' => sav p = [] -> width_with_room p <= 72 -> line_width p' <= 72) para para'.
Proof.
  intros S NE H. apply (realign_lines_pointwise _ para para' S NE H).
  intros _ _ p [Cp _] SA. now apply aligned_fits_room.
Qed.

(* the guard is also necessary: a line that fits but has no room for a single space
   (sbv = "", width_with_room > 72) is the refuting case of C15_no_widen_72_full *)
Lemma room_of_separated p : sbv p <> [] -> sav p = [] -> cont p = [] ->
  line_width p <= 72 -> width_with_room p <= 72.
Proof.
  intros NB%is_nil_false SA CO H. rewrite line_width_plain in H by assumption.
  unfold width_with_room. rewrite NB. exact H.
Qed.

(* C15: a line whose value is separated from the operator by at least one blank is never
   pushed beyond column 72 *)
Theorem no_widen_72_partial para para' :
  Forall single_ok para -> para <> [] ->
  realign_lines para = Ok para' ->
  Forall2 (fun p p' => sbv p <> [] -> sav p = [] -> line_width p <= 72 -> line_width p' <= 72) para para'.
Proof.
  intros S NE H. apply (realign_lines_pointwise _ para para' S NE H).
  intros _ _ p [Cp _] NB SA H72. apply aligned_fits_room; auto using room_of_separated.
Qed.
