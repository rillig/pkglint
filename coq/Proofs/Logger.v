(* For C08, about the Logger machine (Model/Logger.v).
   presentation_irrelevant: the presentation options do not touch the "core" of the Logger
   state.  One lemma per helper: a helper that only writes leaves the core alone, one that
   reads or writes the core is a congruence in it.
   only_is_subset: --only S prints a subset of what the unrestricted run prints. *)
From PV Require Import Lib.Bytes Model.Logger Proofs.LoggerInv.
Open Scope N_scope.

Definition core (l : logger) :=
  (l_suppress_diag l, l_suppress_expl l, l_logged l, l_errors l, l_warnings l, l_notes l,
   l_expl_avail l, l_fix_avail l, l_emitted l).

(* two option records that differ at most in -e -s -g -q *)
Definition agree (o1 o2 : opts) : Prop :=
  lo_show_autofix o1 = lo_show_autofix o2 /\ lo_autofix o1 = lo_autofix o2 /\ lo_only o1 = lo_only o2.

Lemma agree_is_autofix o1 o2 : agree o1 o2 -> is_autofix o1 = is_autofix o2.
Proof. intros (H1 & H2 & _). unfold is_autofix. rewrite H1, H2. reflexivity. Qed.

Lemma core_set_out l v : core (set_out l v) = core l. Proof. reflexivity. Qed.
Lemma core_set_err l v : core (set_err l v) = core l. Proof. reflexivity. Qed.
Lemma core_set_prev_line l v : core (set_prev_line l v) = core l. Proof. reflexivity. Qed.
Lemma core_set_explained l v : core (set_explained l v) = core l. Proof. reflexivity. Qed.
Lemma core_set_panicked l v : core (set_panicked l v) = core l. Proof. reflexivity. Qed.

Lemma core_out_write l s : core (out_write l s) = core l. Proof. reflexivity. Qed.
Lemma core_out_write_line l s : core (out_write_line l s) = core l. Proof. reflexivity. Qed.
Lemma core_out_separate l : core (out_separate l) = core l. Proof. reflexivity. Qed.

(* "the same core as l" survives every step of a helper that only writes: the write-only part
   of the invariant principle of Proofs/LoggerInv.v, with every unit of output acceptable *)
Lemma core_write_source o l ln fv : core (write_source o l ln fv) = core l.
Proof.
  apply (inv_write_source o (fun l' => core l' = core l) True (fun _ => True)); auto.
  apply view_ok_all. auto.
Qed.

Lemma core_show_summary o l args : core (show_summary o l args) = core l.
Proof.
  apply (inv_show_summary o (fun l' => core l' = core l) True (fun _ => True)); auto.
  unfold summary_ok, hint_ok. auto.
Qed.

(* H : core l1 = core l2 for two records in constructor form: identifies their core fields *)
Ltac core_inv H :=
  unfold core in H; cbn in H; inversion H; subst; clear H.

Lemma logged_of_core l1 l2 : core l1 = core l2 -> l_logged l1 = l_logged l2 /\ l_emitted l1 = l_emitted l2.
Proof. unfold core. intro H. inversion H. split; congruence. Qed.

Lemma agree_shall_be_logged o1 o2 f : agree o1 o2 -> shall_be_logged o1 f = shall_be_logged o2 f.
Proof. intros (_ & _ & Ho). unfold shall_be_logged. rewrite Ho. reflexivity. Qed.

Lemma logf_congr o1 o2 l1 l2 lv f n m :
  core l1 = core l2 -> core (logf o1 l1 lv f n m) = core (logf o2 l2 lv f n m).
Proof.
  intros H. unfold logf. destruct l1, l2. core_inv H. cbn.
  destruct l_suppress_diag0; [reflexivity|].
  destruct lv; reflexivity.
Qed.

Lemma core_fold_out {A} (f : logger -> A -> logger) (xs : list A) l :
  (forall l x, core (f l x) = core l) -> core (fold_left f xs l) = core l.
Proof.
  intro Hf. revert l. induction xs as [|x xs IH]; intro l; simpl; [reflexivity|].
  rewrite IH. apply Hf.
Qed.

Lemma core_explain o l e :
  core (explain o l e) = if l_suppress_expl l then core l else core (set_expl_avail l true).
Proof.
  unfold explain. destruct (l_suppress_expl l); [reflexivity|].
  destruct (negb (lo_explain o)); [reflexivity|].
  destruct (once_seen _ _); [reflexivity|].
  rewrite core_out_write_line, core_fold_out; [reflexivity|].
  intros l0 x. destruct (nonempty_list x); reflexivity.
Qed.

Lemma explain_congr o1 o2 l1 l2 e :
  core l1 = core l2 -> core (explain o1 l1 e) = core (explain o2 l2 e).
Proof.
  intro H. rewrite !core_explain. destruct l1, l2. core_inv H. cbn. reflexivity.
Qed.

Lemma set_suppress_expl_congr l1 l2 v : core l1 = core l2 -> core (set_suppress_expl l1 v) = core (set_suppress_expl l2 v).
Proof. intro H. destruct l1, l2. core_inv H. reflexivity. Qed.
Lemma set_suppress_diag_congr l1 l2 v : core l1 = core l2 -> core (set_suppress_diag l1 v) = core (set_suppress_diag l2 v).
Proof. intro H. destruct l1, l2. core_inv H. reflexivity. Qed.
Lemma set_logged_congr l1 l2 v : core l1 = core l2 -> core (set_logged l1 v) = core (set_logged l2 v).
Proof. intro H. destruct l1, l2. core_inv H. reflexivity. Qed.
Lemma set_fix_avail_congr l1 l2 v : core l1 = core l2 -> core (set_fix_avail l1 v) = core (set_fix_avail l2 v).
Proof. intro H. destruct l1, l2. core_inv H. reflexivity. Qed.

Create HintDb congr.
#[local] Hint Resolve set_suppress_expl_congr set_suppress_diag_congr set_logged_congr set_fix_avail_congr
  logf_congr explain_congr : congr.

Lemma first_time_congr (k1 k2 : bool -> logger -> logger) l1 l2 f n m :
  (forall ft a b, core a = core b -> core (k1 ft a) = core (k2 ft b)) -> core l1 = core l2 ->
  core (let (ft, l) := first_time l1 f n m in k1 ft l) = core (let (ft, l) := first_time l2 f n m in k2 ft l).
Proof.
  intros Hk H. unfold first_time. rewrite (proj1 (logged_of_core _ _ H)).
  destruct (once_seen (l_logged l2) _); auto 6 with congr.
Qed.

Lemma core_diag_source o l ln :
  core (if lo_show_source o
        then write_source o (if match l_prev_line l with Some p => p =? ln_id ln | None => false end
                             then l else out_separate l) ln no_fix
        else l) = core l.
Proof.
  destruct (lo_show_source o); [|reflexivity]. rewrite core_write_source.
  destruct (match l_prev_line l with Some p => p =? ln_id ln | None => false end); [reflexivity|apply core_out_separate].
Qed.

Lemma diag_congr o1 o2 l1 l2 ln lv f m :
  agree o1 o2 -> core l1 = core l2 -> core (diag o1 l1 ln lv f m) = core (diag o2 l2 ln lv f m).
Proof.
  intros Ha H. unfold diag, relevant. rewrite (agree_is_autofix _ _ Ha), (agree_shall_be_logged _ _ f Ha).
  destruct (is_autofix o2); [auto with congr|].
  destruct (shall_be_logged o2 f); cbn [negb]; [|auto with congr].
  apply first_time_congr; [|auto with congr]. intros ft a b Hab.
  destruct (negb ft); [auto with congr|]. apply logf_congr. rewrite !core_diag_source. assumption.
Qed.

Lemma fold_congr {A} (f1 f2 : logger -> A -> logger) xs l1 l2 :
  (forall a b x, core a = core b -> core (f1 a x) = core (f2 b x)) ->
  core l1 = core l2 -> core (fold_left f1 xs l1) = core (fold_left f2 xs l2).
Proof.
  intro Hf. revert l1 l2. induction xs as [|x xs IH]; intros l1 l2 H; simpl; [assumption|].
  apply IH, Hf, H.
Qed.

Lemma if_congr (c : bool) (f1 f2 : logger -> logger) l1 l2 :
  (forall a b, core a = core b -> core (f1 a) = core (f2 b)) ->
  core l1 = core l2 -> core (if c then f1 l1 else l1) = core (if c then f2 l2 else l2).
Proof. intros Hf H. destruct c; [apply Hf|]; assumption. Qed.

Lemma agree_log_diagnostic o1 o2 f : agree o1 o2 -> log_diagnostic o1 f = log_diagnostic o2 f.
Proof. intros (H1 & H2 & _). unfold log_diagnostic. rewrite H1, H2. reflexivity. Qed.

Lemma fix_diag_congr o1 o2 l1 l2 ln fv lv m n :
  agree o1 o2 -> core l1 = core l2 -> core (fix_diag o1 l1 ln fv lv m n) = core (fix_diag o2 l2 ln fv lv m n).
Proof.
  intros Ha H. unfold fix_diag. rewrite (agree_is_autofix _ _ Ha). apply logf_congr.
  destruct (is_autofix o2); [assumption|]. apply first_time_congr; [|assumption].
  intros ft a b Hab. destruct ft; [rewrite !core_write_source|]; assumption.
Qed.

Lemma fix_actions_congr o1 o2 l1 l2 ln fv actions :
  core l1 = core l2 -> core (fix_actions o1 l1 ln fv actions) = core (fix_actions o2 l2 ln fv actions).
Proof. intro H. unfold fix_actions. rewrite !core_write_source. apply fold_congr; auto with congr. Qed.

Lemma apply_fix_congr o1 o2 l1 l2 ln fv lv f m e actions :
  agree o1 o2 -> core l1 = core l2 ->
  core (apply_fix o1 l1 ln fv lv f m e actions) = core (apply_fix o2 l2 ln fv lv f m e actions).
Proof.
  intros Ha H. rewrite !apply_fix_eq. cbv zeta. unfold relevant. cbn [snd].
  rewrite (agree_is_autofix _ _ Ha), (agree_shall_be_logged _ _ f Ha), (agree_log_diagnostic _ _ f Ha).
  destruct (negb (_ && _)); [auto with congr|].
  apply (if_congr _ (fun l => explain o1 l e) (fun l => explain o2 l e)); [auto with congr|].
  apply (if_congr _ (fun l => fix_actions o1 l ln fv actions) (fun l => fix_actions o2 l ln fv actions));
    [intros; apply fix_actions_congr; assumption|].
  apply (if_congr _ (fun l => fix_diag o1 l ln fv lv m _) (fun l => fix_diag o2 l ln fv lv m _));
    [intros; apply fix_diag_congr; assumption|auto with congr].
Qed.

Lemma step_congr o1 o2 l1 l2 ev :
  agree o1 o2 -> core l1 = core l2 -> core (log_step o1 l1 ev) = core (log_step o2 l2 ev).
Proof.
  intros Ha H. destruct ev; cbn [log_step].
  - apply diag_congr; assumption.
  - apply explain_congr; assumption.
  - apply apply_fix_congr; assumption.
  - unfold saved. destruct Ha as (_ & Ha2 & _). rewrite Ha2.
    destruct (negb (lo_autofix o2) && modified); [apply set_fix_avail_congr|]; assumption.
  - unfold tech_error. rewrite !core_set_err. assumption.
  - rewrite !core_show_summary. assumption.
Qed.

(* for ALL event lists: option records that agree on ShowAutofix, Autofix and Only
   give the same diagnostic tuples, counters, availability flags and exit status,
   whatever -e -s -g -q are *)
Theorem presentation_irrelevant o1 o2 evs :
  agree o1 o2 ->
  let a := log_run o1 evs in let b := log_run o2 evs in
  l_emitted a = l_emitted b /\
  l_errors a = l_errors b /\ l_warnings a = l_warnings b /\ l_notes a = l_notes b /\
  l_expl_avail a = l_expl_avail b /\ l_fix_avail a = l_fix_avail b /\
  forall werror, exit_status werror a = exit_status werror b.
Proof.
  intros Ha a b.
  assert (core a = core b) as H by (apply fold_congr; [intros; apply step_congr; assumption|reflexivity]).
  unfold core in H. inversion H as [[H1 H2 H3 H4 H5 H6 H7 H8 H9]].
  repeat split; try assumption. intro werror. unfold exit_status. rewrite H4, H5. reflexivity.
Qed.

Definition with_only (o : opts) (only : list str) : opts :=
  mk_opts (lo_show_autofix o) (lo_autofix o) (lo_explain o) (lo_show_source o) (lo_gcc o) (lo_quiet o) only.

(* the tuple Logf records for (level, file, linenos, msg) *)
Definition tuple_of (lv : level) (file lnos msg : str) : diag_tuple :=
  let file' := if str_eqb file [46] then [] else file in
  (lv, file', if nonempty_list file' then lnos else [], msg).

Definition ev_diag (e : event) : option (str * level * str * str * str) :=
  match e with
  | EvDiag ln lv f m => Some (f, lv, ln_file ln, linenos ln, m)
  | EvFix ln fv lv f m ex actions =>
    if str_eqb f silent_autofix_format then None
    else Some (f, lv, ln_file ln, affected_linenos ln actions, m)
  | _ => None
  end.

Definition d_key (d : str * level * str * str * str) : str :=
  let '(f, lv, file, lnos, m) := d in once_key [file; lnos; m].
Definition d_tuple (d : str * level * str * str * str) : diag_tuple :=
  let '(f, lv, file, lnos, m) := d in tuple_of lv file lnos m.
Definition d_format (d : str * level * str * str * str) : str :=
  let '(f, lv, file, lnos, m) := d in f.

(* two events with the same duplicate-suppression key say the same thing
   ("equal message => equal level", and the NUL-joined key is unambiguous) *)
Definition key_determines_tuple (evs : list event) : Prop :=
  forall e1 e2 d1 d2, In e1 evs -> In e2 evs -> ev_diag e1 = Some d1 -> ev_diag e2 = Some d2 ->
    d_key d1 = d_key d2 -> d_tuple d1 = d_tuple d2.

Lemma suppress_of_core l1 l2 : core l1 = core l2 -> l_suppress_diag l1 = l_suppress_diag l2.
Proof. unfold core. intro H. inversion H. congruence. Qed.

(* NB: wherever this file is imported the name hides Coq's le (the order on nat) *)
Definition le (l : logger) := (l_logged l, l_emitted l).

Lemma le_of_core l1 l2 : core l1 = core l2 -> le l1 = le l2.
Proof. intro H. unfold le. destruct (logged_of_core _ _ H) as [-> ->]. reflexivity. Qed.

Lemma le_explain o l e : le (explain o l e) = le l.
Proof. pose proof (core_explain o l e) as H. destruct (l_suppress_expl l); apply le_of_core in H; exact H. Qed.

Lemma le_logf o l lv f n m :
  le (logf o l lv f n m) =
  (l_logged l, if l_suppress_diag l then l_emitted l else l_emitted l ++ [tuple_of lv f n m]).
Proof.
  unfold logf, le, tuple_of. destruct l; cbn. destruct l_suppress_diag; [reflexivity|].
  destruct lv; reflexivity.
Qed.

Lemma emitted_logf o l lv f n m :
  l_emitted (logf o l lv f n m) = if l_suppress_diag l then l_emitted l else l_emitted l ++ [tuple_of lv f n m].
Proof. pose proof (le_logf o l lv f n m) as H. apply (f_equal snd) in H. exact H. Qed.

Lemma emitted_of_le l1 l2 : le l1 = le l2 -> l_emitted l1 = l_emitted l2.
Proof. intro H. apply (f_equal snd) in H. exact H. Qed.

Lemma suppress_logf o l lv f n m : l_suppress_diag (logf o l lv f n m) = false.
Proof.
  unfold logf. destruct l; cbn. destruct l_suppress_diag; [reflexivity|]. destruct lv; reflexivity.
Qed.

(* the effect of one event on (logged, emitted) without -f / -F *)
Definition default_effect (o : opts) (st : list str * list diag_tuple) (e : event) : list str * list diag_tuple :=
  match ev_diag e with
  | None => st
  | Some d =>
    if shall_be_logged o (d_format d) then
      if once_seen (fst st) (d_key d) then st
      else (d_key d :: fst st, snd st ++ [d_tuple d])
    else st
  end.

Lemma le_set_suppress_expl l v : le (set_suppress_expl l v) = le l. Proof. destruct l; reflexivity. Qed.
Lemma le_set_suppress_diag l v : le (set_suppress_diag l v) = le l. Proof. destruct l; reflexivity. Qed.
Lemma le_write_source o l ln fv : le (write_source o l ln fv) = le l.
Proof. apply le_of_core, core_write_source. Qed.
Lemma le_out_separate l : le (out_separate l) = le l.
Proof. apply le_of_core, core_out_separate. Qed.

Lemma relevant_le o l f : le (snd (relevant o l f)) = le l /\ fst (relevant o l f) = shall_be_logged o f /\
  l_suppress_diag (snd (relevant o l f)) = negb (shall_be_logged o f).
Proof. unfold relevant. destruct l; cbn. auto. Qed.

Lemma first_time_le l f n m :
  let k := once_key [f; n; m] in
  fst (first_time l f n m) = negb (once_seen (l_logged l) k) /\
  le (snd (first_time l f n m)) = (if once_seen (l_logged l) k then l_logged l else k :: l_logged l, l_emitted l) /\
  l_suppress_diag (snd (first_time l f n m)) = (if once_seen (l_logged l) k then true else l_suppress_diag l).
Proof.
  cbv zeta. unfold first_time. destruct (once_seen (l_logged l) (once_key [f; n; m])); destruct l; cbn; auto.
Qed.

Lemma le_logf_first o l X lv f n m ks :
  core X = core (set_logged l ks) -> l_suppress_diag l = false ->
  le (logf o X lv f n m) = (ks, l_emitted l ++ [tuple_of lv f n m]).
Proof.
  intros Hc Hs. rewrite le_logf, (suppress_of_core _ _ Hc). destruct (logged_of_core _ _ Hc) as [-> ->].
  cbn. rewrite Hs. reflexivity.
Qed.

Lemma le_if_explain o (c : bool) l e : le (if c then explain o l e else l) = le l.
Proof. destruct c; [apply le_explain|reflexivity]. Qed.

Lemma step_default_effect o l e :
  is_autofix o = false -> le (log_step o l e) = default_effect o (le l) e.
Proof.
  intro Hm. unfold default_effect. destruct e; cbn [log_step ev_diag].
  - unfold diag, relevant, first_time. rewrite Hm. cbn [d_format d_key d_tuple fst snd le].
    destruct (shall_be_logged o format); cbn [negb]; [|reflexivity].
    cbn [l_logged set_suppress_expl set_suppress_diag].
    destruct (once_seen (l_logged l) _); cbn [negb]; [reflexivity|].
    apply (le_logf_first o (set_suppress_expl (set_suppress_diag l false) false)); [apply core_diag_source|reflexivity].
  - apply le_explain.
  - rewrite apply_fix_eq. unfold relevant, log_diagnostic, fix_diag, first_time. rewrite Hm, orb_true_r, andb_true_r.
    replace (lo_autofix o) with false by (unfold is_autofix in Hm; destruct (lo_autofix o); [discriminate|reflexivity]).
    cbn [andb]. destruct (str_eqb format silent_autofix_format).
    + destruct (shall_be_logged o format); reflexivity.
    + cbn [d_format d_key d_tuple fst snd le].
      destruct (shall_be_logged o format); cbn [negb andb]; [|reflexivity].
      rewrite le_if_explain. cbn [l_logged set_suppress_expl set_suppress_diag].
      destruct (once_seen (l_logged l) _); [rewrite le_logf; reflexivity|].
      apply (le_logf_first o (set_suppress_expl (set_suppress_diag l false) false)); [apply core_write_source|reflexivity].
  - unfold saved. destruct (negb (lo_autofix o) && modified); reflexivity.
  - reflexivity.
  - apply le_of_core, core_show_summary.
Qed.

Lemma shall_be_logged_no_only o f : shall_be_logged (with_only o []) f = true.
Proof. reflexivity. Qed.

Lemma once_seen_In set k : once_seen set k = true <-> In k set.
Proof.
  unfold once_seen. rewrite existsb_exists. split.
  - intros (x & Hin & Heq). apply str_eqb_spec in Heq. subst. assumption.
  - intro Hin. exists k. split; [assumption|apply str_eqb_refl].
Qed.

(* sS, s0 = (logged, emitted) of the run with --only S and of the unrestricted run: what the
   first has printed the second has printed, and for every key the second has logged, the
   tuple of every event of evs with that key is among those it has printed *)
Definition subset_inv (evs : list event) (sS s0 : list str * list diag_tuple) : Prop :=
  incl (snd sS) (snd s0) /\
  (forall k, In k (fst s0) -> forall e d, In e evs -> ev_diag e = Some d -> d_key d = k -> In (d_tuple d) (snd s0)).

Lemma default_effect_inv o S evs e sS s0 :
  key_determines_tuple evs -> In e evs -> subset_inv evs sS s0 ->
  subset_inv evs (default_effect (with_only o S) sS e) (default_effect (with_only o []) s0 e).
Proof.
  intros Hk Hin (Hincl & Hlog). unfold default_effect.
  destruct (ev_diag e) as [d|] eqn:Hd; [|split; assumption].
  rewrite shall_be_logged_no_only.
  (* the unrestricted run *)
  assert (subset_inv evs sS (if once_seen (fst s0) (d_key d) then s0 else (d_key d :: fst s0, snd s0 ++ [d_tuple d]))) as Hinv0.
  { destruct (once_seen (fst s0) (d_key d)) eqn:Es0; [split; assumption|]. split; cbn [fst snd].
    - intros x Hx. apply in_or_app. left. auto.
    - intros k [<-|Hk0] e' d' Hin' Hd' Hkey; apply in_or_app.
      + right. left. apply (Hk e e' d d' Hin Hin' Hd Hd'). congruence.
      + left. apply (Hlog k Hk0 e' d' Hin' Hd' Hkey). }
  destruct (shall_be_logged (with_only o S) (d_format d)); [|assumption].
  destruct (once_seen (fst sS) (d_key d)); [assumption|].
  (* the restricted run prints d: the unrestricted one prints it now or has printed it *)
  destruct Hinv0 as (Hincl0 & Hlog0). split; [|assumption]. cbn [snd].
  intros x Hx. apply in_app_or in Hx as [Hx|[<-|[]]]; [auto|].
  destruct (once_seen (fst s0) (d_key d)) eqn:Es0.
  - apply once_seen_In in Es0. apply (Hlog (d_key d) Es0 e d Hin Hd eq_refl).
  - cbn [snd]. apply in_or_app. right. left. reflexivity.
Qed.

Lemma run_default_subset o S evs all lS l0 :
  is_autofix o = false -> key_determines_tuple all -> incl evs all ->
  subset_inv all (le lS) (le l0) ->
  subset_inv all (le (fold_left (log_step (with_only o S)) evs lS)) (le (fold_left (log_step (with_only o [])) evs l0)).
Proof.
  intros Hm Hk. revert lS l0. induction evs as [|e evs IH]; intros lS l0 Hsub Hinv; simpl; [assumption|].
  apply IH; [intros x Hx; apply Hsub; right; assumption|].
  rewrite !step_default_effect by assumption.
  apply default_effect_inv; [assumption|apply Hsub; left; reflexivity|assumption].
Qed.

(* with -f or -F Diag is silent, and Apply prints whenever it is relevant and has actions *)
Definition fix_tuples (o : opts) (e : event) : list diag_tuple :=
  match e with
  | EvFix ln fv lv f m ex actions =>
    (if log_diagnostic o f then [tuple_of lv (ln_file ln) (affected_linenos ln actions) m] else []) ++
    map (fun a => tuple_of LAutofix (ln_file ln) (action_lnos a) (fst a)) actions
  | _ => []
  end.

Definition fix_passes (o : opts) (e : event) : bool :=
  match e with
  | EvFix ln fv lv f m ex actions => shall_be_logged o f && nonempty_list actions
  | _ => false
  end.

Lemma emitted_fix_actions o l ln fv actions :
  l_suppress_diag l = false ->
  l_emitted (fix_actions o l ln fv actions) =
  l_emitted l ++ map (fun a => tuple_of LAutofix (ln_file ln) (action_lnos a) (fst a)) actions.
Proof.
  intro Hs. unfold fix_actions. rewrite (emitted_of_le _ _ (le_write_source _ _ _ _)).
  revert l Hs. induction actions as [|a actions IH]; intros l Hs; simpl; [symmetry; apply app_nil_r|].
  rewrite IH by apply suppress_logf. rewrite emitted_logf, Hs, <- app_assoc. reflexivity.
Qed.

Lemma step_autofix_emitted o l e :
  is_autofix o = true ->
  l_emitted (log_step o l e) = l_emitted l ++ (if fix_passes o e then fix_tuples o e else []).
Proof.
  intro Hm. destruct e; cbn [log_step fix_passes fix_tuples]; rewrite ?app_nil_r.
  - unfold diag. rewrite Hm. reflexivity.
  - apply emitted_of_le, le_explain.
  - rewrite apply_fix_eq. cbv zeta. rewrite Hm, orb_false_r.
    destruct (relevant_le o l format) as (He%emitted_of_le & _ & Hs).
    destruct (shall_be_logged o format && nonempty_list actions) eqn:Eg; cbn [negb]; [|rewrite app_nil_r; exact He].
    apply andb_true_iff in Eg as [Er _]. rewrite Er in Hs.
    rewrite (emitted_of_le _ _ (le_if_explain _ _ _ _)), app_assoc, <- He.
    destruct (log_diagnostic o format).
    + rewrite emitted_fix_actions by apply suppress_logf. unfold fix_diag. rewrite Hm, emitted_logf, Hs. reflexivity.
    + rewrite emitted_fix_actions, app_nil_r by exact Hs. reflexivity.
  - unfold saved. destruct (negb (lo_autofix o) && modified); reflexivity.
  - reflexivity.
  - apply emitted_of_le, le_of_core, core_show_summary.
Qed.

Lemma run_autofix_subset o S evs lS l0 :
  is_autofix o = true -> incl (l_emitted lS) (l_emitted l0) ->
  incl (l_emitted (fold_left (log_step (with_only o S)) evs lS)) (l_emitted (fold_left (log_step (with_only o [])) evs l0)).
Proof.
  intros Hm. revert lS l0. induction evs as [|e evs IH]; intros lS l0 Hincl; simpl; [assumption|].
  apply IH. rewrite !step_autofix_emitted by assumption. apply incl_app_app; [assumption|].
  (* without --only every format passes, and the tuples do not depend on --only *)
  destruct e; cbn [fix_passes]; try (intros x []).
  destruct (shall_be_logged (with_only o S) format); [apply incl_refl|intros x []].
Qed.

(* every tuple printed with --only S is printed by the unrestricted run *)
Theorem only_is_subset o S evs :
  (is_autofix o = true \/ key_determines_tuple evs) ->
  incl (l_emitted (log_run (with_only o S) evs)) (l_emitted (log_run (with_only o []) evs)).
Proof.
  intros H. unfold log_run. destruct (is_autofix o) eqn:Hm.
  - apply run_autofix_subset; [assumption|intros x []].
  - destruct H as [H|Hk]; [discriminate|].
    apply (run_default_subset o S evs evs new_logger new_logger Hm Hk (incl_refl _)).
    split; [intros x []|intros k []].
Qed.
