(* The theorems about the file cache (Props/C20.v states them). *)
From PV Require Import Lib.Bytes Model.FileCache Spec.FreshLoad
  Proofs.FileCacheLists Proofs.FileCacheWf Proofs.FileCacheInv.
From Coq Require Import Arith.
Open Scope N_scope.
Arguments map_set : simpl never.

Definition load_obs (s' : state) (r : option nat) : option (list lobs) :=
  match r with
  | Some v => option_map (fun p => map obs_line (snd p)) (view_lines s' v)
  | None => None
  end.

Section Theorems.
Variable convert : str -> N -> list lval.
Variable is_mk : N -> bool.

Notation reach := (reach convert is_mk).
Notation load := (load convert is_mk).
Notation step := (step convert is_mk).

Theorem table_mapping_bijection : forall md cap disk s, (1 <= cap)%nat -> reach md cap disk s ->
  let c := st_cache s in
  (forall k eid, map_get k (c_map c) = Some eid <->
                 In eid (c_table c) /\ e_key (entry_at (c_store c) eid) = k) /\
  NoDup (c_table c) /\ NoDup (map fst (c_map c)) /\
  (forall eid, In eid (c_table c) -> (eid < length (c_store c))%nat).
Proof.
  intros md cap disk s Hc R.
  destruct (inv_wf _ _ (reach_Inv _ _ _ _ _ _ Hc R)) as [G IG ND K C]. simpl. split; [|split; [|split]]; auto.
  - intros k eid. split; [apply G|]. intros [Hin Hk]. destruct (IG _ Hin) as [_ H]. congruence.
  - intros eid H. apply IG; auto.
Qed.

Theorem capacity_respected : forall md cap disk s, (1 <= cap)%nat -> reach md cap disk s ->
  (length (c_table (st_cache s)) <= cap)%nat /\ c_cap (st_cache s) = cap.
Proof.
  intros md cap disk s Hc R. destruct (reach_Inv_cap _ _ _ _ _ _ Hc R) as [I HC].
  split; auto. rewrite <- HC. apply (inv_wf _ _ I).
Qed.

(* "res is what a Load without a cache does to heap, views, disk and pending of s" *)
Definition load_like (s : state) (fn : fname) (o : N) (res : FileCache.res (state * option nat)) : Prop :=
  match fresh_lines convert (st_disk s) fn o with
  | None =>
    if has_opt o MustSucceed then res = Stop Fatal else exists c, res = Ok (with_cache s c, None)
  | Some nl => exists c, res = Ok (add_view s c fn nl, Some (length (st_views s)))
  end.

Lemma fresh_read_unfold disk fn o :
  fresh_read convert disk fn o =
  match map_get (key fn) disk with
  | None => None
  | Some raw => if (is_empty raw && has_opt o NotEmpty)%bool then None
                else Some (map fresh_line (convert raw o))
  end.
Proof.
  unfold fresh_read. destruct (map_get (key fn) disk) as [raw|]; auto.
  destruct raw; simpl; auto.
Qed.

Lemma obs_line_new_line fn v : obs_line (new_line fn v) = fresh_line v.
Proof. destruct v as [[no text] raw]. reflexivity. Qed.

Lemma load_like_obs s fn o s' r : load_like s fn o (Ok (s', r)) ->
  load_obs s' r = fresh_read convert (st_disk s) fn o /\ st_disk s' = st_disk s.
Proof.
  unfold load_like, fresh_lines. rewrite fresh_read_unfold.
  destruct (map_get (key fn) (st_disk s)) as [raw|]; [destruct (is_empty raw && has_opt o NotEmpty)%bool|].
  2: { intros (c & H); inversion H; subst. split; auto.
       unfold load_obs. rewrite view_lines_new. simpl. f_equal.
       rewrite map_map. apply map_ext, obs_line_new_line. }
  all: destruct (has_opt o MustSucceed); [discriminate|]; intros (c & H); inversion H; auto.
Qed.

Lemma load_like_stop s fn o w : load_like s fn o (Stop w) -> w = Fatal /\ has_opt o MustSucceed = true.
Proof.
  unfold load_like. destruct (fresh_lines convert (st_disk s) fn o); [intros (c & H); discriminate|].
  destruct (has_opt o MustSucceed); [intros H; inversion H; auto|intros (c & H); discriminate].
Qed.

(* a miss: the invariant is needed only for Put not to panic *)
Lemma miss_load_like s fn o : wf_cache (st_cache s) -> (1 <= c_cap (st_cache s))%nat ->
  (forall eid, map_get (key fn) (c_map (st_cache s)) = Some eid ->
               e_opts (entry_at (c_store (st_cache s)) eid) <> o) ->
  load_like s fn o (load s fn o).
Proof.
  intros W Hcap Hmiss.
  destruct (load_spec convert is_mk s fn o W Hcap) as (c' & _ & _ & [(eid & E & Ho & _)|(_ & H)]).
  { exfalso. eapply Hmiss; eauto. }
  unfold load_like. destruct (fresh_lines convert (st_disk s) fn o); destruct H as [_ ->]; eauto.
  destruct (has_opt o MustSucceed); eauto.
Qed.

Theorem load_never_panics : forall md cap disk s fn o w, (1 <= cap)%nat -> reach md cap disk s ->
  load s fn o = Stop w -> w = Fatal /\ has_opt o MustSucceed = true.
Proof.
  intros md cap disk s fn o w Hc R L. pose proof (reach_Inv _ _ _ _ _ _ Hc R) as I.
  destruct (load_cases convert is_mk s fn o) as (c1 & _ & [(eid & _ & _ & _ & L')|(M & _ & _)]).
  - congruence.
  - apply (load_like_stop s fn o). rewrite <- L. apply miss_load_like; auto; apply I.
Qed.

Lemma guard_no_pending s fn o v fv av :
  guard_step s (OLoad fn o) = true -> nth_error (st_views s) v = Some (fv, av) ->
  In v (st_pending s) -> key fv <> key fn.
Proof.
  simpl. intros G V P. rewrite forallb_forall in G. specialize (G v P).
  unfold view_key in G. rewrite V in G. destruct (N.eqb_spec (key fv) (key fn)); [discriminate|auto].
Qed.

(* under the guard the entry of the file is clean: a modified line of it would
   belong to its first view, which would be pending *)
Lemma guarded_entry_clean s fn o eid : Inv convert s -> guard_step s (OLoad fn o) = true ->
  map_get (key fn) (c_map (st_cache s)) = Some eid ->
  entry_clean convert s (entry_at (c_store (st_cache s)) eid).
Proof.
  intros I Gd E. destruct (wf_get_in _ (inv_wf _ _ I) _ _ E) as [Hin Hkey].
  apply (inv_clean _ _ I _ Hin). intros a Ha.
  destruct (is_modified (line_at (st_heap s) a)) eqn:M; auto. exfalso.
  destruct (inv_pending _ _ I _ _ Hin Ha M) as (v & fv & av & V & Hav & P).
  destruct (inv_first _ _ I _ Hin) as (u & fu & U & Hk).
  assert (v = u) by (eapply (inv_disj _ _ I); eauto). subst u.
  rewrite V in U. inversion U; subst fu.
  eapply guard_no_pending; eauto. congruence.
Qed.

(* a hit hands out copies of the lines of a clean entry *)
Lemma guarded_load_like s fn o : Inv convert s -> guard_step s (OLoad fn o) = true ->
  load_like s fn o (load s fn o).
Proof.
  intros I Gd.
  destruct (load_cases convert is_mk s fn o) as (c1 & _ & [(eid & E & Ho & _ & ->)|(M & _ & _)]);
    [|apply miss_load_like; auto; apply I].
  destruct (guarded_entry_clean s fn o eid I Gd E) as (raw & R1 & R2 & R3).
  destruct (wf_get_in _ (inv_wf _ _ I) _ _ E) as [_ Hkey].
  unfold load_like, fresh_lines. rewrite <- Hkey, R1, <- Ho, R2. exists c1. do 3 f_equal.
  rewrite <- R3, map_map. apply map_ext. reflexivity.
Qed.

Theorem load_transparent : forall md cap disk s fn o s' r, (1 <= cap)%nat -> reach md cap disk s ->
  guard_step s (OLoad fn o) = true ->
  load s fn o = Ok (s', r) ->
  load_obs s' r = fresh_read convert (st_disk s) fn o /\ st_disk s' = st_disk s.
Proof.
  intros md cap disk s fn o s' r Hc R Gd L. apply load_like_obs. rewrite <- L.
  apply guarded_load_like; auto. apply (reach_Inv _ _ _ _ _ _ Hc R).
Qed.

Theorem no_stale_after_save : forall md cap disk s v fl s' w, (1 <= cap)%nat -> reach md cap disk s ->
  step md s (OSave v fl) = Ok (s', ObsSave w) ->
  (* every rewritten file, and in every mode the file of every modified line, is out of the cache *)
  (forall k x, In (k, x) w -> map_get k (c_map (st_cache s')) = None) /\
  (forall fn ls l, view_lines s v = Some (fn, ls) -> In l ls -> is_modified l = true ->
     map_get (key (ln_file l)) (c_map (st_cache s')) = None) /\
  (* so the next Load of such a file reads the disk, whatever happened before *)
  (forall fn o s'' r,
     (In (key fn) (map fst w) \/
      exists f ls l, view_lines s v = Some (f, ls) /\ In l ls /\ is_modified l = true /\
                     key (ln_file l) = key fn) ->
     load s' fn o = Ok (s'', r) ->
     load_obs s'' r = fresh_read convert (st_disk s') fn o).
Proof.
  intros md cap disk s v fl s' w Hc R. pose proof (reach_Inv _ _ _ _ _ _ Hc R) as I.
  simpl. destruct (view_lines s v) as [[fn ls]|] eqn:V; [|intros H; inversion H].
  destruct (save_lines md fl (st_cache s) (st_disk s) ls) as [[c' d'] w'] eqn:S.
  intros H; inversion H; subst; clear H. simpl.
  destruct (save_lines_spec _ _ _ _ _ _ _ _ S) as (ks & -> & HK & HD & HW).
  destruct (evicts_spec ks _ (inv_wf _ _ I)) as (W' & [HC _] & HN).
  assert (P1 : forall k x, In (k, x) w -> map_get k (c_map (evicts ks (st_cache s))) = None).
  { intros k x Hin. apply HN. eapply HW; eauto. }
  assert (P2 : forall fn0 ls0 l, Some (fn, ls) = Some (fn0, ls0) -> In l ls0 -> is_modified l = true ->
            map_get (key (ln_file l)) (c_map (evicts ks (st_cache s))) = None).
  { intros fn0 ls0 l Heq Hl Hm. inversion Heq; subst. apply HN. apply HK; auto. }
  split; [auto|split; [auto|]].
  intros fn0 o s'' r Hcase L.
  eapply proj1, (load_like_obs (mkState (evicts ks (st_cache s)) (st_heap s) (st_views s) d' (remove_nat v (st_pending s)))).
  rewrite <- L.
  apply miss_load_like; simpl; auto.
  - rewrite HC. apply (inv_cap _ _ I).
  - intros eid Hget. exfalso.
    destruct Hcase as [Hin|(f & ls0 & l & Heq & Hl & Hm & Hk)].
    + apply in_map_iff in Hin. destruct Hin as ([k x] & Hk & Hin). simpl in Hk. subst k.
      rewrite (P1 _ _ Hin) in Hget. discriminate.
    + rewrite <- Hk, (P2 _ _ _ Heq Hl Hm) in Hget. discriminate.
Qed.

(* a FAILING save (the temporary file cannot be created / written / renamed):
   the next Load returns the lines of the UNCHANGED disk content, not the fixed
   lines that are still in memory *)
Theorem no_stale_after_failed_save : forall md cap disk s v fl s' w, (1 <= cap)%nat -> reach md cap disk s ->
  step md s (OSave v fl) = Ok (s', ObsSave w) ->
  (forall k, key_in k fl = true ->
     map_get k (st_disk s') = map_get k (st_disk s) /\ ~ In k (map fst w)) /\
  (forall f ls l fn o s'' r,
     view_lines s v = Some (f, ls) -> In l ls -> is_modified l = true ->
     key fn = key (ln_file l) -> key_in (key fn) fl = true ->
     load s' fn o = Ok (s'', r) ->
     map_get (key fn) (c_map (st_cache s')) = None /\
     load_obs s'' r = fresh_read convert (st_disk s) fn o).
Proof.
  intros md cap disk s v fl s' w Hc R St.
  destruct (no_stale_after_save md cap disk s v fl s' w Hc R St) as (_ & N2 & N3).
  assert (F : forall k, key_in k fl = true ->
     map_get k (st_disk s') = map_get k (st_disk s) /\ ~ In k (map fst w)).
  { revert St. simpl. destruct (view_lines s v) as [[fn ls]|] eqn:V; [|intros H; inversion H].
    destruct (save_lines md fl (st_cache s) (st_disk s) ls) as [[c' d'] w'] eqn:S.
    intros H; inversion H; subst; clear H. simpl. apply (save_lines_failed _ _ _ _ _ _ _ _ S). }
  split; auto.
  intros f ls l fn o s'' r V Hl Hm Hk Hf L. split.
  - rewrite Hk. eapply N2; eauto.
  - rewrite (N3 fn o s'' r); auto.
    + rewrite !fresh_read_unfold. destruct (F _ Hf) as [-> _]. auto.
    + right. exists f, ls, l. auto.
Qed.

Theorem fresh_lines_per_load : forall md cap disk s fn o s' v, (1 <= cap)%nat -> reach md cap disk s ->
  load s fn o = Ok (s', Some v) ->
  v = length (st_views s) /\
  exists addrs, nth_error (st_views s') v = Some (fn, addrs) /\
    (* new objects, nothing attached *)
    (forall a, In a addrs ->
       (length (st_heap s) <= a < length (st_heap s'))%nat /\ ln_fix (line_at (st_heap s') a) = None) /\
    (* no earlier view holds any of them, and the earlier views are untouched *)
    (forall w fw aw a, nth_error (st_views s) w = Some (fw, aw) -> In a aw -> ~ In a addrs) /\
    (forall w, (w < length (st_views s))%nat -> view_lines s' w = view_lines s w).
Proof.
  intros md cap disk s fn o s' v Hc R L. pose proof (reach_Inv _ _ _ _ _ _ Hc R) as I.
  destruct (load_shape _ _ _ _ _ _ _ L) as [(c & _ & [=])|(c & nl & -> & [= ->] & Hnl)].
  split; auto. simpl. exists (seq (length (st_heap s)) (length nl)).
  split; [rewrite nth_error_app2, Nat.sub_diag; auto|]. split; [|split].
  - intros a Ha. destruct (in_new_block _ _ _ Ha) as [HL Hl]. split; auto. apply Hnl; auto.
  - intros w fw aw a Hw Ha Hin. apply in_seq in Hin.
    destruct (inv_views _ _ I _ _ _ _ Hw Ha). lia.
  - intros w Hw. unfold view_lines; simpl. rewrite nth_error_app1 by auto.
    destruct (nth_error (st_views s) w) as [[fw aw]|] eqn:E; auto.
    f_equal. f_equal. apply map_ext_in. intros a Ha. apply line_at_app_l.
    destruct (inv_views _ _ I _ _ _ _ E Ha); auto.
Qed.

Lemma step_views md s o s' ob : step md s o = Ok (s', ob) ->
  st_views s' = st_views s \/ exists fn st n, st_views s' = st_views s ++ [(fn, seq st n)].
Proof.
  intros St. destruct (step_cases _ _ _ _ _ _ _ St) as [(fn & opts & r & -> & L)|[H _]]; auto.
  destruct (load_shape _ _ _ _ _ _ _ L) as [(c & -> & _)|(c & nl & -> & _)]; simpl; eauto.
Qed.

Lemma reach_views_nodup md cap disk s : reach md cap disk s ->
  forall v fn addrs, nth_error (st_views s) v = Some (fn, addrs) -> NoDup addrs.
Proof.
  intros R. induction R as [|s o s' ob R IH St].
  - intros v fn addrs H. destruct v; discriminate.
  - intros v fn addrs H.
    destruct (step_views _ _ _ _ _ St) as [E|(fn0 & st & n & E)]; rewrite E in H.
    + eapply IH; eauto.
    + apply nth_error_snoc in H. destruct H as [[_ H]|[_ H]].
      * eapply IH; eauto.
      * inversion H; subst. apply seq_NoDup.
Qed.

Theorem line_ids_never_reused : forall md cap disk s, (1 <= cap)%nat -> reach md cap disk s ->
  (forall v w fv av fw aw a,
     nth_error (st_views s) v = Some (fv, av) -> nth_error (st_views s) w = Some (fw, aw) ->
     In a av -> In a aw -> v = w) /\
  (forall v fn addrs, nth_error (st_views s) v = Some (fn, addrs) -> NoDup addrs).
Proof.
  intros md cap disk s Hc R. destruct (reach_Inv_cap _ _ _ _ _ _ Hc R) as [I _]. split.
  - apply (inv_disj _ _ I).
  - eapply reach_views_nodup; eauto.
Qed.

Theorem fix_touches_one_view : forall md cap disk s v i f s' ob, (1 <= cap)%nat -> reach md cap disk s ->
  step md s (OFix v i f) = Ok (s', ob) ->
  forall w, w <> v -> view_lines s' w = view_lines s w.
Proof.
  intros md cap disk s v i f s' ob Hc R. destruct (reach_Inv_cap _ _ _ _ _ _ Hc R) as [I _].
  intros St w Hw.
  destruct (step_fix_cases _ _ _ _ _ _ _ _ _ St) as [->|(fn & addrs & a & l' & acted & V & A & _ & ->)]; [auto|].
  unfold view_lines; simpl. destruct (nth_error (st_views s) w) as [[fw aw]|] eqn:W; auto.
  f_equal. f_equal. apply map_ext_in. intros b Hb. apply line_at_upd_other.
  intros ->. apply Hw. eapply (inv_disj _ _ I); eauto. eapply nth_error_In; eauto.
Qed.

End Theorems.

Lemma run_reach convert is_mk md cap disk h : forall s s' obs,
  reach convert is_mk md cap disk s -> run convert is_mk md s h = (s', obs, None) ->
  reach convert is_mk md cap disk s'.
Proof.
  induction h as [|o t IH]; intros s s' obs R; simpl.
  - intros H; inversion H; subst; auto.
  - destruct (step convert is_mk md s o) as [[s1 ob]|w] eqn:S; [|discriminate].
    destruct (run convert is_mk md s1 t) as [[s2 obs2] w2] eqn:Rn.
    intros H; inversion H; subst. eapply IH; [|eauto]. econstructor; eauto.
Qed.

Definition all_mk (k : N) : bool := true.

(* a.mk = "V= 1\n"; Load; ReplaceAt(0, 2, " ", "\t") through that view; Load again *)
Definition wit_disk : list (N * str) := [(0, [86; 61; 32; 49; 10])].
Definition wit_ops : list op := [OLoad (0, 0) 4; OFix 0 0 (FReplaceAt 0 2 [32] [9])].
Definition wit_state (md : mode) : state :=
  fst (fst (run convert_plain all_mk md (init_state 2 wit_disk) wit_ops)).

Lemma wit_reach md : reach convert_plain all_mk md 2 wit_disk (wit_state md).
Proof.
  unfold wit_state.
  destruct (run convert_plain all_mk md (init_state 2 wit_disk) wit_ops) as [[s obs] w] eqn:E.
  assert (w = None) by (destruct md; vm_compute in E; inversion E; auto). subst w.
  eapply run_reach; [apply reach_init|apply E].
Qed.

(* load_transparent without the guard *)
Definition load_transparent_full : Prop :=
  forall md cap disk s fn o s' r, (1 <= cap)%nat ->
    reach convert_plain all_mk md cap disk s ->
    load convert_plain all_mk s fn o = Ok (s', r) ->
    load_obs s' r = fresh_read convert_plain (st_disk s) fn o.

Theorem load_transparent_refuted : ~ load_transparent_full.
Proof.
  intros H.
  destruct (load convert_plain all_mk (wit_state ModeDefault) (0, 0) 4) as [[s' r]|w] eqn:L;
    [|vm_compute in L; discriminate].
  specialize (H ModeDefault 2%nat wit_disk (wit_state ModeDefault) (0, 0) 4 s' r (le_S _ _ (le_n 1))
                (wit_reach ModeDefault) L).
  vm_compute in L. inversion L; subst. vm_compute in H. discriminate.
Qed.

Lemma wit_guard_false md : guard_step (wit_state md) (OLoad (0, 0) 4) = false.
Proof. destruct md; vm_compute; reflexivity. Qed.
