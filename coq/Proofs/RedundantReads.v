(* The marks a line leaves on the variables: lastAction, constantState and
   Var.Refs() after check_line, stated once (check_line_reads).
   read_blocks_verdict: an assignment to x emits no verdict when the last
   mention of x before it is a use of ${x} (RedundantScope.handleExpr sets
   lastAction = 1, handleVarassign returns early). *)
From PV Require Import Lib.Bytes Model.Redundant Spec.VerdictSound Proofs.MakeEvalLemmas Proofs.Redundant.

Lemma closure_rounds_ext : forall n s ws z, In z ws -> In z (closure_rounds n s ws).
Proof.
  induction n as [|n IH]; intros s ws z H; simpl; [exact H|].
  apply IH. unfold closure_step. apply set_add_all_spec. left. exact H.
Qed.

Lemma closure_ok n s ws c : closure n s ws = Ok c -> closed_refs s c /\ incl ws c.
Proof.
  unfold closure. destruct (forallb _ _) eqn:E; [|discriminate]. intros [= <-]. split.
  - apply closed_refs_check, E.
  - intros z Hz. apply closure_rounds_ext. exact Hz.
Qed.

Lemma handle_expr_eq s a :
  handle_expr s a =
    let s1 := fold_left read_one (uses (a_val a)) s in
    if is_eager (a_op a) then
      match closure (length (s_names s1)) s1 (set_add_all [] (uses (a_val a))) with
      | Ok c => Ok (fold_left read_one c s1)
      | Panic => Panic
      | OutOfFuel => OutOfFuel
      end
    else Ok s1.
Proof. unfold handle_expr. destruct (a_op a); reflexivity. Qed.

(* for ':=' and '!=' the variables read are closed under Var.Refs(): repair 02 *)
Lemma handle_expr_reads s a s' :
  handle_expr s a = Ok s' ->
  exists rs, s' = fold_left read_one rs s /\ incl (uses (a_val a)) rs /\
             (is_eager (a_op a) = true -> closed_refs s rs).
Proof.
  rewrite handle_expr_eq. cbv zeta. set (us := uses (a_val a)). set (s1 := fold_left read_one us s).
  destruct (is_eager (a_op a)).
  - destruct (closure _ s1 _) as [c| |] eqn:Ec; try discriminate. intros [= <-].
    destruct (closure_ok _ _ _ _ Ec) as [Hcl Hinc].
    exists (us ++ c). rewrite fold_left_app. split; [reflexivity|]. split; [apply incl_appl, incl_refl|].
    intros _ z w Hz Hw. apply in_or_app. right.
    apply (Hcl z); [|unfold s1; rewrite fold_read_refs; exact Hw].
    apply in_app_or in Hz as [Hz|Hz]; [|exact Hz]. apply Hinc, set_add_all_spec. right. exact Hz.
  - intros [= <-]. exists us. split; [reflexivity|]. split; [apply incl_refl|discriminate].
Qed.

Definition cst (s : scope) (x : var) : cstate := v_state (mv s x).

Lemma fold_read_one_cst x rs s :
  cst (fold_left read_one rs s) x =
    if existsb (str_eqb x) rs then read_table (cst s x) else cst s x.
Proof.
  unfold cst. rewrite fold_read_one_var. generalize (mv s x).
  induction rs as [|w rs IH]; intro v; simpl; [reflexivity|].
  destruct (str_eqb w x) eqn:E.
  - apply str_eqb_spec in E. subst w. rewrite str_eqb_refl, IH. simpl.
    destruct (existsb (str_eqb x) rs), (v_state v); reflexivity.
  - rewrite (str_eqb_neq x w) by (intros ->; rewrite str_eqb_refl in E; discriminate). apply IH.
Qed.

Lemma check_line_reads s idx l s' vs :
  check_line s idx l = Ok (s', vs) ->
  match l_body l with
  | None => s_vars s' = s_vars s
  | Some a => exists rs,
      incl (uses (a_val a)) rs /\
      (is_eager (a_op a) = true -> closed_refs s' rs) /\
      forall x,
        last_of s' x = (if existsb (str_eqb x) rs then ARead
                        else if str_eqb (a_var a) x then AWrite else last_of s x) /\
        refs_of s' x = (if str_eqb (a_var a) x then set_add_all (refs_of s x) (uses (a_val a))
                        else refs_of s x) /\
        cst s' x = let c := if str_eqb (a_var a) x then v_state (var_write (mv s x) idx a false)
                            else cst s x in
                   if existsb (str_eqb x) rs then read_table c else c
  end.
Proof.
  unfold check_line. destruct (update_include_path s l) as [s1| |] eqn:E1; try discriminate.
  apply update_include_path_vars in E1.
  destruct (l_body l) as [a|]; [|intros [= <- _]; exact E1].
  destruct (handle_varassign s1 idx a false) as [[s2 vs2]| |] eqn:E2; try discriminate.
  destruct (handle_expr s2 a) as [s3| |] eqn:E3; try discriminate. intros [= <- _].
  apply handle_varassign_scope in E2.
  destruct (handle_expr_reads _ _ _ E3) as (rs & -> & Hinc & Hcl).
  exists rs. split; [exact Hinc|]. split.
  - intros He z w Hz Hw. rewrite fold_read_refs in Hw. exact (Hcl He z w Hz Hw).
  - intro x. rewrite fold_read_one_last, fold_read_refs, fold_read_one_cst. subst s2.
    unfold last_of, refs_of, cst, mv. simpl. unfold upd. rewrite E1.
    destruct (str_eqb (a_var a) x) eqn:E; [|auto]. apply str_eqb_spec in E. subst x.
    simpl. rewrite var_write_refs. auto.
Qed.

Lemma check_line_last s idx l s' vs x acc :
  check_line s idx l = Ok (s', vs) ->
  (acc = ARead -> last_of s x = ARead) ->
  mention x acc l = ARead -> last_of s' x = ARead.
Proof.
  intros Hck Hacc. apply check_line_reads in Hck. unfold mention. destruct (l_body l) as [a|].
  - destruct Hck as (rs & Hinc & _ & Hx). destruct (Hx x) as (-> & _).
    destruct (existsb (str_eqb x) rs) eqn:Er; [reflexivity|].
    destruct (existsb (str_eqb x) (uses (a_val a))) eqn:Eu.
    + apply existsb_str_eqb_In, Hinc, existsb_str_eqb_In in Eu. congruence.
    + destruct (str_eqb (a_var a) x); [discriminate|exact Hacc].
  - unfold last_of. rewrite Hck. exact Hacc.
Qed.

Lemma last_mention_snoc x pre l : last_mention x (pre ++ [l]) = mention x (last_mention x pre) l.
Proof. unfold last_mention. rewrite fold_left_app. reflexivity. Qed.

(* a verdict of line idx names idx and one earlier line *)
Lemma line_verdict_at pre l s s' vs vd :
  inv_struct pre s -> check_line s (length pre) l = Ok (s', vs) -> In vd vs ->
  emitted_at vd = length pre.
Proof.
  intros Hstruct Hck Hin.
  destruct (check_line_verdicts _ _ _ _ _ _ Hck Hin) as (a & _ & _ & prev & rest & Hrev & Hcases).
  destruct (Hstruct (a_var a)) as (W1 & _). rewrite W1 in Hrev.
  destruct prev as [pidx ap].
  destruct (writes_of_last _ _ _ _ _ _ Hrev) as (pre1 & lp & mid & Epre & Hp & _).
  simpl in Hp. subst pidx.
  assert (Hlt : (length pre1 < length pre)%nat) by (subst pre; rewrite app_length; simpl; clear; lia).
  clear - Hcases Hlt. unfold emitted_at.
  destruct Hcases as [[Hvd _]|[[Hvd _]|[(Hvd & _)|(Hvd & _)]]]; subst vd; simpl; lia.
Qed.

Theorem read_blocks_verdict pre l post a vs :
  check (pre ++ l :: post) = Ok vs -> l_body l = Some a ->
  last_mention (a_var a) pre = ARead ->
  forall vd, In vd vs -> emitted_at vd <> length pre.
Proof.
  intros Hck Hb Hr vd Hin Hat.
  destruct (check_origin
              (fun pre s => inv_struct pre s /\ forall x, last_mention x pre = ARead -> last_of s x = ARead)
              (pre ++ l :: post)) with (vs := vs) (vd := vd)
    as (pre' & l' & post' & s & s' & vs0 & Ep & [Hst Hlast] & Hl & Hin0); auto.
  - split; [apply inv_struct_init|]. intros x H. discriminate H.
  - intros pre0 l0 post0 s0 s0' vs0 _ [H1 H2] Hc. split; [eapply inv_struct_step; eauto|].
    intro x. rewrite last_mention_snoc. apply (check_line_last _ _ _ _ _ x _ Hc). apply H2.
  - rewrite (line_verdict_at _ _ _ _ _ _ Hst Hl Hin0) in Hat.
    assert (E : pre' = pre).
    { apply (f_equal (firstn (length pre'))) in Ep. rewrite firstn_mid, Hat, firstn_mid in Ep. congruence. }
    subst pre'. apply app_inv_head in Ep. injection Ep as <- _.
    destruct (check_line_verdicts _ _ _ _ _ _ Hl Hin0) as (a' & Hb' & Hnr & _).
    rewrite Hb in Hb'. injection Hb' as <-. exact (Hnr (Hlast _ Hr)).
Qed.
