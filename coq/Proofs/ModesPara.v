(* The paragraph-level check of Model/ModesPara.v (VaralignBlock.Process ...
   other fixes ... Finish): as coded -- a line changed since it was split =>
   the paragraph is given up -- Finish adds no diagnostic to the -f run that
   the default run does not have; the variant that re-splits does. *)
From PV Require Import Lib.Bytes Model.Modes Model.ModesPara Proofs.Modes Proofs.ModesDiags.
Open Scope N_scope.

Definition k3 (l : lstate) := (l_file l, l_lineno l, l_raw l).
Definition k4 (l : lstate) := (l_file l, l_lineno l, l_raw l, l_texts l).

(* operations that leave Autofix.texts alone in default mode *)
Definition op_keeps (o : op) : Prop :=
  match o with OReplaceAfter _ _ _ | OInsertAbove _ | ODescribe _ _ => True | _ => False end.
(* the operations VaralignBlock uses *)
Definition op_at (o : op) : Prop :=
  match o with OReplaceAt _ _ _ _ | ODescribe _ _ => True | _ => False end.

Lemma k4_k3 a b : k4 a = k4 b -> k3 a = k3 b.
Proof. unfold k4, k3. intros H. inversion H. reflexivity. Qed.

Lemma k4_texts a b : k4 a = k4 b -> l_texts a = l_texts b.
Proof. unfold k4. congruence. Qed.

Lemma do_ops_k3 m skip ops f f' : do_ops m skip f ops = Some f' -> k3 (f_line f') = k3 (f_line f).
Proof.
  apply (do_ops_ind m skip (fun f f' => k3 (f_line f') = k3 (f_line f))); clear; [congruence..|].
  intros f o f' H. destruct o; cbn [do_op] in H; break_some H; inversion H; subst; try reflexivity;
    cbn [f_line describe]; try destruct (is_autofix m); try destruct (l_below (f_line f)); reflexivity.
Qed.

Lemma do_op_keeps skip f o f' : op_keeps o -> do_op Default skip f o = Some f' -> k4 (f_line f') = k4 (f_line f).
Proof.
  intros Hk H. destruct o; cbn in Hk; try destruct Hk; cbn [do_op] in H; break_some H; inversion H; subst; reflexivity.
Qed.
Lemma do_ops_keeps skip ops : Forall op_keeps ops -> forall f f',
  do_ops Default skip f ops = Some f' -> k4 (f_line f') = k4 (f_line f).
Proof.
  induction 1 as [|o ops Ho _ IH]; intros f f' H; cbn [do_ops] in H.
  - inversion H. reflexivity.
  - destruct (do_op Default skip f o) as [f1|] eqn:E; [|discriminate].
    rewrite (IH _ _ H). eapply do_op_keeps; eauto.
Qed.

Definition fx_sim (r1 r2 : option fx) : Prop :=
  match r1, r2 with
  | Some f1, Some f2 => k4 (f_line f1) = k4 (f_line f2) /\ f_acts f1 = f_acts f2
  | None, None => True
  | _, _ => False
  end.
Lemma do_op_at m1 m2 skip f1 f2 o : op_at o ->
  k4 (f_line f1) = k4 (f_line f2) -> f_acts f1 = f_acts f2 ->
  fx_sim (do_op m1 skip f1 o) (do_op m2 skip f2 o).
Proof.
  intros Ho Hk Ha. pose proof Hk as Hk'. unfold k4 in Hk'. injection Hk' as Hf Hn Hr Ht.
  destruct o; cbn in Ho; try destruct Ho; cbn [do_op].
  - destruct (str_eqb from to); [exact I|].
    unfold real_line. rewrite Hn. destruct (negb (1 <=? l_lineno (f_line f2))); [exact I|].
    destruct skip; [split; [exact Hk|exact Ha]|].
    rewrite Ht. destruct (nth_error (l_texts (f_line f2)) (N.to_nat rawIndex)) as [text|]; [|exact I].
    destruct (negb (textIndex <? N.of_nat (length text))); [exact I|].
    destruct (strip_prefix from (skipn (N.to_nat textIndex) text)) as [rest|]; [|exact I].
    cbn [fx_sim describe f_line f_acts set_texts]. unfold k4. cbn. rewrite Hf, Hn, Hr, Ha. split; reflexivity.
  - destruct skip; [split; [exact Hk|exact Ha]|].
    cbn [fx_sim describe f_line f_acts]. rewrite Hn, Ha. split; [exact Hk|reflexivity].
Qed.
Lemma do_ops_at m1 m2 skip ops : Forall op_at ops -> forall f1 f2,
  k4 (f_line f1) = k4 (f_line f2) -> f_acts f1 = f_acts f2 ->
  fx_sim (do_ops m1 skip f1 ops) (do_ops m2 skip f2 ops).
Proof.
  induction 1 as [|o ops Ho _ IH]; intros f1 f2 Hk Ha; cbn [do_ops].
  - split; assumption.
  - pose proof (do_op_at m1 m2 skip f1 f2 o Ho Hk Ha) as S.
    destruct (do_op m1 skip f1 o) as [g1|], (do_op m2 skip f2 o) as [g2|]; cbn in S; try contradiction; [|exact I].
    destruct S as [S1 S2]. apply IH; assumption.
Qed.
Lemma open_fix_at m1 m2 only ls1 ls2 i fmt expl ops : Forall op_at ops ->
  option_map k4 (nth_error ls1 i) = option_map k4 (nth_error ls2 i) ->
  fx_sim (open_fix m1 only ls1 i fmt expl ops) (open_fix m2 only ls2 i fmt expl ops).
Proof.
  intros Hops H. unfold open_fix.
  destruct (nth_error ls1 i), (nth_error ls2 i); cbn in H; try discriminate; [|exact I].
  destruct (expl && _); [exact I|]. destruct (match ops with [] => false | _ => _ end); [exact I|].
  apply do_ops_at; [exact Hops|cbn; congruence|reflexivity].
Qed.

Lemma close_fix_k4 f : k4 (close_fix f) = k4 (f_line f).
Proof. unfold close_fix. destruct (nonempty (f_acts f)); reflexivity. Qed.

Lemma nth_set_line ls l' : forall i j,
  nth_error (set_line ls i l') j = if Nat.eqb i j then option_map (fun _ => l') (nth_error ls i) else nth_error ls j.
Proof. induction ls as [|x ls IH]; intros [|i] [|j]; cbn; try reflexivity; [destruct (Nat.eqb i j); reflexivity|apply IH]. Qed.

Lemma set_line_proj2 {A} (p : lstate -> A) ls1 ls2 i l1 l2 j :
  option_map p (nth_error ls1 i) = option_map p (nth_error ls2 i) -> p l1 = p l2 ->
  option_map p (nth_error ls1 j) = option_map p (nth_error ls2 j) ->
  option_map p (nth_error (set_line ls1 i l1) j) = option_map p (nth_error (set_line ls2 i l2) j).
Proof.
  intros Hi Hp Hj. rewrite !nth_set_line. destruct (Nat.eqb i j); [|exact Hj].
  destruct (nth_error ls1 i), (nth_error ls2 i); cbn in *; congruence.
Qed.
Lemma set_line_proj {A} (p : lstate -> A) ls i l l' j :
  nth_error ls i = Some l -> p l' = p l ->
  option_map p (nth_error (set_line ls i l') j) = option_map p (nth_error ls j).
Proof.
  intros E Hp. rewrite nth_set_line. destruct (Nat.eqb_spec i j) as [<-|]; [|reflexivity].
  rewrite E. cbn. congruence.
Qed.

Definition same_proj {A} (p : lstate -> A) (ls1 ls2 : list lstate) : Prop :=
  forall j, option_map p (nth_error ls1 j) = option_map p (nth_error ls2 j).

Lemma same_proj_weaken {A B} (p : lstate -> A) (q : lstate -> B) ls1 ls2 :
  (forall a b, p a = p b -> q a = q b) -> same_proj p ls1 ls2 -> same_proj q ls1 ls2.
Proof.
  intros Hpq H j. specialize (H j).
  destruct (nth_error ls1 j), (nth_error ls2 j); cbn in *; try discriminate; [|reflexivity].
  f_equal. apply Hpq. congruence.
Qed.

Lemma grows_trans a b c : grows a b -> grows b c -> grows a c.
Proof. intros [x Hx] [y Hy]. exists (x ++ y). rewrite Hy, Hx, app_assoc. reflexivity. Qed.

Definition mid_event_ok (lvl : str -> level) (seen : list nat) (e : event) : Prop :=
  event_level lvl e /\ match e with EFix i _ _ _ _ ops => In i seen /\ Forall op_keeps ops | _ => True end.

Lemma step_default_mid only st e :
  match e with EFix _ _ _ _ _ ops => Forall op_keeps ops | _ => True end ->
  same_proj k4 (s_lines (step Default only st e)) (s_lines st).
Proof.
  intros Hk j. apply step_cases; try reflexivity. cbn [s_lines].
  intros i lv fmt msg expl ops f -> (l & En & Eo)%open_fix_some.
  eapply set_line_proj; [exact En|]. rewrite close_fix_k4. apply (do_ops_keeps _ ops Hk _ _ Eo).
Qed.

Definition default_side (lvl : str -> level) (lines1 : list lstate) (st : state) : Prop :=
  same_proj k4 (s_lines st) lines1 /\ LogInv lvl (s_lg st).

Lemma checks_default_mid lvl only seen lines1 (cs : list check) st :
  events_ok (mid_event_ok lvl seen) cs -> default_side lvl lines1 st ->
  default_side lvl lines1 (fold_left (run_check Default only) cs st).
Proof.
  apply (checks_inv only (mid_event_ok lvl seen) Default (default_side lvl lines1)).
  intros s e [Hlv Hm] [A B]. split; [|apply step_default_log; assumption].
  intros j. rewrite <- A. apply step_default_mid. destruct e; auto. apply Hm.
Qed.

Definition fix_in (seen : list nat) (e : event) : Prop :=
  match e with EFix i _ _ _ _ _ => In i seen | _ => True end.
Definition local_to (seen : list nat) (ls' ls : list lstate) : Prop :=
  same_proj k3 ls' ls /\ forall j, ~ In j seen -> nth_error ls' j = nth_error ls j.

Lemma local_refl seen ls : local_to seen ls ls.
Proof. split; [intros j|]; reflexivity. Qed.
Lemma local_trans seen a b c : local_to seen a b -> local_to seen b c -> local_to seen a c.
Proof. intros [A B] [A' B']. split; intros j; [rewrite A; apply A'|intros Hj; rewrite B by exact Hj; apply B', Hj]. Qed.
Lemma local_more seen seen' a b : incl seen seen' -> local_to seen a b -> local_to seen' a b.
Proof. intros Hi [A B]. split; [exact A|]. intros j Hj. apply B. intros H. apply Hj, Hi, H. Qed.

Lemma step_local m only seen st e : fix_in seen e -> local_to seen (s_lines (step m only st e)) (s_lines st).
Proof.
  intros Hi. apply step_cases; try (intros; apply local_refl). cbn [s_lines].
  intros i lv fmt msg expl ops f -> (l & En & Eo)%open_fix_some. split.
  - intros j. eapply set_line_proj; [exact En|]. rewrite (k4_k3 _ _ (close_fix_k4 f)). apply (do_ops_k3 _ _ ops _ _ Eo).
  - intros j Hj. rewrite nth_set_line. destruct (Nat.eqb_spec i j) as [<-|]; [|reflexivity]. destruct (Hj Hi).
Qed.

Lemma checks_local m only seen ls (cs : list check) st : events_ok (fix_in seen) cs ->
  local_to seen (s_lines st) ls -> local_to seen (s_lines (fold_left (run_check m only) cs st)) ls.
Proof.
  apply (checks_inv only (fix_in seen) m (fun s => local_to seen (s_lines s) ls)).
  intros s e He. apply local_trans, step_local, He.
Qed.

Lemma run_events_panic m only evs : forall s, s_panic s = true -> s_panic (run_events m only s evs) = true.
Proof.
  intros s. apply (run_events_invariant m only (fun s => s_panic s = true)).
  intros s' e H. rewrite panic_sticky; exact H.
Qed.
Lemma checks_panic m only (cs : list check) : forall s, s_panic s = true -> s_panic (fold_left (run_check m only) cs s) = true.
Proof.
  intros s. apply (checks_invariant m only (fun s => s_panic s = true)).
  intros s' e H. rewrite panic_sticky; exact H.
Qed.

Definition notes_event_ok (lvl : str -> level) (dom : list nat) (e : event) : Prop :=
  event_level lvl e /\ match e with EFix i _ _ _ _ ops => In i dom /\ Forall op_at ops | _ => True end.

Lemma own_diag_k3 f1 f2 lv msg : k3 (f_line f1) = k3 (f_line f2) -> f_acts f1 = f_acts f2 ->
  own_diag f1 lv msg = own_diag f2 lv msg.
Proof. unfold k3, own_diag, affected_linenos, line_linenos. intros [= -> -> ->] ->. reflexivity. Qed.

Definition agree (dom : list nat) (sD sS : state) : Prop :=
  same_proj k3 (s_lines sD) (s_lines sS)
  /\ forall j, In j dom -> option_map k4 (nth_error (s_lines sD) j) = option_map k4 (nth_error (s_lines sS) j).

(* while Finish runs: [base] = what the -f run had printed before Finish; every diagnostic
   of the -f run is in [base] or in the default run's output, and the two runs agree on
   the remembered lines [dom] unless the -f run has died *)
Definition QI (lvl : str -> level) (dom : list nat) (base : list item) (sD sS : state) : Prop :=
  LogInv lvl (s_lg sD) /\ covered base (s_lg sS) (s_lg sD) /\ (s_panic sS = true \/ agree dom sD sS).

Lemma step_QI lvl only dom base sD sS e :
  notes_event_ok lvl dom e -> s_panic (step Default only sD e) = false ->
  QI lvl dom base sD sS -> QI lvl dom base (step Default only sD e) (step ShowAutofix only sS e).
Proof.
  intros [Hlv Hev] Hnp (HL & Hsub & Hag).
  destruct (step_default_log lvl only sD e Hlv HL) as [HL' Hgr]. split; [exact HL'|].
  assert (EpD : s_panic sD = false).
  { destruct (s_panic sD) eqn:E; [|reflexivity]. rewrite panic_sticky in Hnp by exact E. congruence. }
  destruct (s_panic sS) eqn:EpS.
  { rewrite (panic_sticky ShowAutofix only sS e EpS). split; [eapply covered_grows; eauto|left; exact EpS]. }
  destruct Hag as [Hag|[A3 A4]]; [congruence|].
  destruct e as [i lv fmt msg| |i lv fmt msg expl ops| |];
    try (split; [eapply covered_grows; [apply covered_quiet; [exact I|exact Hsub]|exact Hgr]
                |right; unfold agree; rewrite !step_no_fix by exact I; split; assumption]).
  destruct Hev as [Hi Hops]. cbn [event_level] in Hlv.
  rewrite (step_fix Default only sD) in Hnp |- * by exact EpD. rewrite (step_fix ShowAutofix only sS) by exact EpS.
  pose proof (open_fix_at Default ShowAutofix only _ _ i fmt expl ops Hops (A4 i Hi)) as S.
  destruct (open_fix Default _ _ _ _ _ _) as [fD|]; [|discriminate Hnp].
  destruct (open_fix ShowAutofix _ _ _ _ _ _) as [fS|]; [|contradiction S].
  destruct S as [Sk Sa]. cbn [s_lg s_lines]. split.
  - apply (covered_fix lvl); auto. apply own_diag_k3; [apply k4_k3, Sk|exact Sa].
  - right. pose proof Sk as K. rewrite <- !close_fix_k4 in K. split.
    + intros j. apply set_line_proj2; [apply A3|apply k4_k3, K|apply A3].
    + intros j Hj. apply set_line_proj2; [apply A4, Hi|exact K|apply A4, Hj].
Qed.

Lemma run_events_QI lvl only dom base evs : forall sD sS,
  Forall (notes_event_ok lvl dom) evs -> s_panic (run_events Default only sD evs) = false ->
  QI lvl dom base sD sS -> QI lvl dom base (run_events Default only sD evs) (run_events ShowAutofix only sS evs).
Proof.
  induction evs as [|e evs IH]; intros sD sS Hf Hnp H; [exact H|]. rewrite !run_events_cons in *.
  inversion Hf as [|? ? He Hf']; subst.
  assert (Hs : s_panic (step Default only sD e) = false).
  { destruct (s_panic (step Default only sD e)) eqn:E; [|reflexivity].
    rewrite (run_events_panic Default only evs _ E) in Hnp. discriminate. }
  apply IH; [exact Hf'|exact Hnp|]. apply step_QI; assumption.
Qed.

Fixpoint mid_ok (lvl : str -> level) (seen : list nat) (phases : list (nat * list check)) : Prop :=
  match phases with
  | [] => True
  | ph :: r => ~ In (fst ph) seen
      /\ (forall c ls e, In c (snd ph) -> In e (c ls) -> mid_event_ok lvl (fst ph :: seen) e)
      /\ mid_ok lvl (fst ph :: seen) r
  end.

Lemma texts_eqb_true a : forall b, texts_eqb a b = true -> a = b.
Proof.
  induction a as [|x a IH]; intros [|y b] H; cbn in H; try discriminate; [reflexivity|].
  apply andb_true_iff in H as [H1 H2]. apply str_eqb_spec in H1. subst y. f_equal. apply IH. exact H2.
Qed.
Lemma texts_eqb_refl a : texts_eqb a a = true.
Proof. induction a as [|x a IH]; cbn; [reflexivity|]. rewrite IH, andb_true_r. apply str_eqb_spec. reflexivity. Qed.

(* from line to line of the paragraph: [lines1] = the lines when the paragraph begins.
   The default run still has their texts; the -f run has changed remembered lines ([seen])
   only; both have remembered the same, the texts of [lines1] *)
Record PI (lvl : str -> level) (lines1 : list lstate) (seen : list nat) (psD psS : pstate) : Prop := {
  pi_default : default_side lvl lines1 (p_st psD);
  pi_show : local_to seen (s_lines (p_st psS)) lines1;
  pi_snap : p_snap psD = p_snap psS;
  pi_texts : forall i t, In (i, t) (p_snap psD) -> In i seen /\ option_map l_texts (nth_error lines1 i) = Some t
}.

Lemma mid_fix_in lvl seen e : mid_event_ok lvl seen e -> fix_in seen e.
Proof. intros [_ H]. destruct e; cbn in *; auto. destruct H; assumption. Qed.

Lemma para_phase_snap m only ps ph :
  p_snap (para_phase m only ps ph)
  = match option_map l_texts (nth_error (s_lines (p_st ps)) (fst ph)) with
    | Some t => p_snap ps ++ [(fst ph, t)]
    | None => p_snap ps
    end.
Proof. unfold para_phase. cbn [p_snap]. destruct (nth_error _ (fst ph)); reflexivity. Qed.

Lemma phase_PI lvl only lines1 seen psD psS ph :
  ~ In (fst ph) seen ->
  (forall c ls e, In c (snd ph) -> In e (c ls) -> mid_event_ok lvl (fst ph :: seen) e) ->
  PI lvl lines1 seen psD psS ->
  PI lvl lines1 (fst ph :: seen) (para_phase Default only psD ph) (para_phase ShowAutofix only psS ph).
Proof.
  intros Hni Hok [HD HS Hsn Ht]. destruct ph as [i cs]. cbn [fst snd] in *. split.
  - apply (checks_default_mid lvl only (i :: seen)); assumption.
  - apply checks_local; [|apply (local_more seen); [apply incl_tl, incl_refl|exact HS]].
    intros c ls e H1 H2. eapply mid_fix_in, Hok; eauto.
  - (* both runs remember the texts that line i has in lines1 *)
    rewrite !para_phase_snap. cbn [fst]. rewrite (same_proj_weaken k4 l_texts _ _ k4_texts (proj1 HD) i).
    rewrite (proj2 HS i Hni), Hsn. reflexivity.
  - intros j t. rewrite para_phase_snap. cbn [fst]. rewrite (same_proj_weaken k4 l_texts _ _ k4_texts (proj1 HD) i).
    assert (Hold : In (j, t) (p_snap psD) -> In j (i :: seen) /\ option_map l_texts (nth_error lines1 j) = Some t)
      by (intros [H1 H2]%Ht; split; [right; exact H1|exact H2]).
    destruct (option_map l_texts (nth_error lines1 i)) as [t1|] eqn:Et; [|exact Hold].
    intros [Hin|[[= <- <-]|[]]]%in_app_or; [auto|]. split; [left; reflexivity|exact Et].
Qed.

Lemma phases_PI lvl only lines1 phases : forall seen psD psS,
  mid_ok lvl seen phases -> PI lvl lines1 seen psD psS ->
  exists seen', PI lvl lines1 seen' (fold_left (para_phase Default only) phases psD)
                                    (fold_left (para_phase ShowAutofix only) phases psS).
Proof.
  induction phases as [|ph r IH]; intros seen psD psS Hm H; cbn [fold_left].
  - exists seen. exact H.
  - destruct Hm as (H1 & H2 & H3). eapply IH; [exact H3|]. apply phase_PI; assumption.
Qed.

Lemma step_save_out m only st : g_out (s_lg (step m only st ESave)) = g_out (s_lg st).
Proof. unfold step. destruct (s_panic st); [reflexivity|]. cbn [s_lg]. apply save_out. Qed.
Lemma step_save_panic m only st : s_panic (step m only st ESave) = s_panic st.
Proof. unfold step. destruct (s_panic st) eqn:E; [exact E|reflexivity]. Qed.

Lemma unchanged_same lines1 ls (sn : snap) :
  same_proj k4 ls lines1 ->
  (forall i t, In (i, t) sn -> option_map l_texts (nth_error lines1 i) = Some t) ->
  unchanged ls sn = true.
Proof.
  intros A D'. apply forallb_forall. intros [i t] Hi. cbn [fst snd].
  pose proof (same_proj_weaken k4 l_texts _ _ k4_texts A i) as T. rewrite (D' i t Hi) in T.
  destruct (nth_error ls i); [injection T as ->; apply texts_eqb_refl|discriminate T].
Qed.

Lemma unchanged_agree lines1 lsD lsS (sn : snap) :
  same_proj k4 lsD lines1 -> same_proj k3 lsS lines1 ->
  (forall i t, In (i, t) sn -> option_map l_texts (nth_error lines1 i) = Some t) ->
  unchanged lsS sn = true ->
  forall j, In j (map fst sn) -> option_map k4 (nth_error lsD j) = option_map k4 (nth_error lsS j).
Proof.
  intros A B D' US j Hj. apply in_map_iff in Hj as ([i t] & <- & Hi). cbn [fst].
  specialize (D' i t Hi). specialize (A i). specialize (B i).
  unfold unchanged in US. rewrite forallb_forall in US. specialize (US _ Hi). cbn [fst snd] in US.
  destruct (nth_error lines1 i) as [l1|]; [|discriminate D'].
  destruct (nth_error lsD i) as [lD|]; [|discriminate A].
  destruct (nth_error lsS i) as [lS|]; [|discriminate US].
  apply texts_eqb_true in US. cbn [option_map] in A, B, D' |- *.
  assert (KA : k4 lD = k4 l1) by congruence. assert (KB : k3 lS = k3 l1) by congruence. injection D' as D'.
  f_equal. rewrite KA. unfold k4, k3 in *. congruence.
Qed.

Definition notes_ok (lvl : str -> level) (notes : snap -> list event) : Prop :=
  forall sn e, In e (notes sn) -> notes_event_ok lvl (map fst sn) e.

Lemma para_before_PI lvl only ls pre phases : checks_ok lvl pre -> mid_ok lvl [] phases ->
  exists lines1 seen, PI lvl lines1 seen (para_before Default only ls pre phases) (para_before ShowAutofix only ls pre phases).
Proof.
  intros Hpre Hmid. destruct (checks_DInv lvl only pre _ _ Hpre (DInv_init lvl ls)) as ([Hl _] & HL & _).
  eexists. eapply phases_PI; [exact Hmid|].
  split; cbn [p_st p_snap]; [split; [intros j; reflexivity|exact HL]|rewrite <- Hl; apply local_refl|reflexivity|intros i t []].
Qed.

(* Finish: the default run never sees a changed line; if the -f run sees one it prints
   nothing, if not it has the default run's texts on the remembered lines *)
Lemma finish_covered lvl only lines1 seen psD psS notes :
  PI lvl lines1 seen psD psS -> notes_ok lvl notes ->
  s_panic (run_check Default only (p_st psD) (para_finish notes (p_snap psD))) = false ->
  covered (g_out (s_lg (p_st psS)))
          (s_lg (run_check ShowAutofix only (p_st psS) (para_finish notes (p_snap psS))))
          (s_lg (run_check Default only (p_st psD) (para_finish notes (p_snap psD)))).
Proof.
  intros [[A E] [B C] D D'] Hnotes. unfold run_check, para_finish. rewrite <- D. set (sn := p_snap psD) in *.
  assert (Dt : forall i t, In (i, t) sn -> option_map l_texts (nth_error lines1 i) = Some t)
    by (intros i t H; apply (D' i t H)).
  rewrite (unchanged_same _ _ sn A Dt). intros Hnp.
  destruct (unchanged (s_lines (p_st psS)) sn) eqn:US; [|intros it _ H; left; exact H].
  refine (proj1 (proj2 (run_events_QI lvl only (map fst sn) _ (notes sn) _ _ _ Hnp _))).
  - apply Forall_forall. intros e He. apply (Hnotes sn e He).
  - split; [exact E|split; [intros it _ H; left; exact H|right]].
    split; [|exact (unchanged_agree _ _ _ sn A B Dt US)].
    intros j. rewrite B. apply (same_proj_weaken k4 k3 _ _ k4_k3 A).
Qed.

(* C04: Finish as coded adds no diagnostic to the -f run that the default run lacks *)
Theorem para_finish_adds_nothing lvl only ls pre phases notes :
  checks_ok lvl pre -> mid_ok lvl [] phases -> notes_ok lvl notes ->
  s_panic (run_para para_finish Default only ls pre phases notes) = false ->
  forall it, In it (diags (run_para para_finish ShowAutofix only ls pre phases notes)) ->
    In it (diags (p_st (para_before ShowAutofix only ls pre phases)))
    \/ In it (diags (run_para para_finish Default only ls pre phases notes)).
Proof.
  intros Hpre Hmid Hnotes Hnp it [Hin Hd]%filter_In. unfold diags, run_para in *.
  rewrite !filter_In, step_save_out in *. rewrite step_save_panic in Hnp.
  destruct (para_before_PI lvl only ls pre phases Hpre Hmid) as (lines1 & seen & HP).
  destruct (finish_covered lvl only lines1 seen _ _ notes HP Hnotes Hnp it Hd Hin); auto.
Qed.

Definition para_resplit_adds_nothing : Prop :=
  forall lvl only ls pre phases notes,
  checks_ok lvl pre -> mid_ok lvl [] phases -> notes_ok lvl notes ->
  s_panic (run_para para_finish_resplit Default only ls pre phases notes) = false ->
  forall it, In it (diags (run_para para_finish_resplit ShowAutofix only ls pre phases notes)) ->
    In it (diags (p_st (para_before ShowAutofix only ls pre phases)))
    \/ In it (diags (run_para para_finish_resplit Default only ls pre phases notes)).

(* witness: the line `A=v`; after Process another checker replaces "=" by "+=";
   the notes of the paragraph depend on the width of "varname+op" *)
Definition pw_line : lstate := mk_line [102] 1 [65;61;118] [[65;61;118;10]].
Definition pw_line2 : lstate := mk_line [102] 1 [65;43;61;118] [[65;43;61;118;10]].
Definition pw_lvl (msg : str) : level := if str_eqb msg [110] then Note else Warn.
Definition pw_mid : check := fun _ => [EFix 0 Warn [109] [109] false [OReplaceAfter [] [61] [43;61]]].
Definition pw_notes (sn : snap) : list event :=
  match sn with
  | [(O, [t])] => if has_prefix [65;43;61] t
                  then [EFix 0 Note [110] [110] false [OReplaceAt 0 3 [118] [32;118]]] else []
  | _ => []
  end.
Definition pw_item : item := IDiag Note [102] (1, 1) [110].

Lemma pw_notes_ok : notes_ok pw_lvl pw_notes.
Proof.
  intros sn e He. unfold pw_notes in He.
  destruct sn as [|[[|i] [|t [|t2 ts]]] [|p r]]; try destruct He.
  destruct (has_prefix _ t); [|destruct He]. destruct He as [<-|[]].
  split; [reflexivity|]. split; [left; reflexivity|repeat constructor].
Qed.
Lemma pw_mid_ok : mid_ok pw_lvl [] [(0%nat, [pw_mid])].
Proof.
  split; [intros []|]. split; [|exact I].
  intros c ls e [<-|[]] [<-|[]]. split; [reflexivity|]. split; [left; reflexivity|repeat constructor].
Qed.
Lemma pw_pre_ok : checks_ok pw_lvl [].
Proof. intros c ls e []. Qed.

Theorem para_resplit_refuted : ~ para_resplit_adds_nothing.
Proof.
  intros H.
  assert (Hnp : s_panic (run_para para_finish_resplit Default [] [pw_line] [] [(0%nat, [pw_mid])] pw_notes) = false)
    by (vm_compute; reflexivity).
  assert (Hin : In pw_item (diags (run_para para_finish_resplit ShowAutofix [] [pw_line] [] [(0%nat, [pw_mid])] pw_notes)))
    by (vm_compute; right; left; reflexivity).
  destruct (H pw_lvl [] [pw_line] [] [(0%nat, [pw_mid])] pw_notes pw_pre_ok pw_mid_ok pw_notes_ok Hnp pw_item Hin) as [X|X];
    vm_compute in X; intuition discriminate.
Qed.

(* the same witness under Finish as coded: -f gives the paragraph up (no note),
   and without the other fix both modes print the note *)
Example para_witness_as_coded :
  diags (run_para para_finish ShowAutofix [] [pw_line] [] [(0%nat, [pw_mid])] pw_notes)
  = diags (p_st (para_before ShowAutofix [] [pw_line] [] [(0%nat, [pw_mid])]))
  /\ s_panic (run_para para_finish Default [] [pw_line] [] [(0%nat, [pw_mid])] pw_notes) = false
  /\ In pw_item (diags (run_para para_finish ShowAutofix [] [pw_line2] [] [(0%nat, [])] pw_notes))
  /\ In pw_item (diags (run_para para_finish Default [] [pw_line2] [] [(0%nat, [])] pw_notes)).
Proof. vm_compute. intuition. Qed.
