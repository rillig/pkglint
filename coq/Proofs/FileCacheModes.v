(* The file cache across load modes: Model/FileCache.v instantiated with the C09
   model of convertToLogicalLines (Model/FileCacheLines.v).  Props/C20.v states these. *)
From PV Require Import Lib.Bytes Model.FileCache Model.FileCacheLines Spec.FreshLoad
  Proofs.FileCacheInv Proofs.FileCache.
From PV Require Model.Lines Spec.LinesSpec Proofs.LinesLoop.
Open Scope N_scope.

Definition lobs_of_line (l : Model.Lines.line) : lobs :=
  (Model.Lines.lineno l, Model.Lines.text l, Model.Lines.raws l, false).

(* what a cache-less Load(f, o) returns, written with the C09 model directly *)
Definition mode_read (disk : list (N * str)) (fn : fname) (o : N) (got : option (list lobs)) : Prop :=
  match map_get (key fn) disk with
  | None => got = None
  | Some raw =>
    if FileCache.is_empty raw && has_opt o NotEmpty then got = None
    else exists ls e,
        Model.Lines.convert_to_logical_lines raw (has_opt o Makefile) = Model.Lines.Ok (ls, e) /\
        got = Some (map lobs_of_line ls)
  end.

Lemma fresh_read_mode_read disk fn o : mode_read disk fn o (fresh_read convert_lines disk fn o).
Proof.
  unfold mode_read, fresh_read.
  destruct (map_get (key fn) disk) as [raw|]; [|reflexivity].
  assert (X : exists ls e,
             Model.Lines.convert_to_logical_lines raw (has_opt o Makefile) = Model.Lines.Ok (ls, e) /\
             Some (map fresh_line (convert_lines raw o)) = Some (map lobs_of_line ls)).
  { destruct (Proofs.LinesLoop.convert_total raw (has_opt o Makefile)) as [ls H].
    eexists; eexists; split; [exact H|].
    unfold convert_lines. rewrite H. rewrite map_map. reflexivity. }
  destruct raw as [|c raw].
  - cbn [FileCache.is_empty andb]. destruct (has_opt o NotEmpty); [reflexivity|exact X].
  - cbn [FileCache.is_empty andb]. exact X.
Qed.

Theorem load_transparent_mixed_modes :
  forall is_mk md cap disk s fn o s' r, (1 <= cap)%nat -> reach convert_lines is_mk md cap disk s ->
  guard_step s (OLoad fn o) = true ->
  load convert_lines is_mk s fn o = Ok (s', r) ->
  mode_read (st_disk s) fn o (load_obs s' r) /\ st_disk s' = st_disk s.
Proof.
  intros is_mk md cap disk s fn o s' r Hc R G L.
  destruct (load_transparent convert_lines is_mk md cap disk s fn o s' r Hc R G L) as [H1 H2].
  split; [|exact H2]. rewrite H1. apply fresh_read_mode_read.
Qed.

Theorem plain_load_one_line_per_physical_line :
  forall is_mk md cap disk s fn o s' r obs, (1 <= cap)%nat -> reach convert_lines is_mk md cap disk s ->
  guard_step s (OLoad fn o) = true ->
  has_opt o Makefile = false ->
  load convert_lines is_mk s fn o = Ok (s', r) ->
  load_obs s' r = Some obs ->
  Forall (fun ob : lobs => let '(no, text, raw, fx) := ob in
            exists p, raw = [p] /\ text = Spec.LinesSpec.content p /\ fx = false) obs /\
  (forall k ob, nth_error obs k = Some ob -> fst (fst (fst ob)) = 1 + N.of_nat k).
Proof.
  intros is_mk md cap disk s fn o s' r obs Hc R G Hm L Ho.
  destruct (load_transparent_mixed_modes is_mk md cap disk s fn o s' r Hc R G L) as [H _].
  unfold mode_read in H. rewrite Ho, Hm in H.
  destruct (map_get (key fn) (st_disk s)) as [raw|]; [|discriminate].
  destruct (FileCache.is_empty raw && has_opt o NotEmpty); [discriminate|].
  destruct H as (ls & e & Hconv & Heq). injection Heq as ->.
  pose proof (Proofs.LinesLoop.grouping_exact_plain raw ls e Hconv) as Hg.
  assert (Hone : Forall (fun l => exists p, Model.Lines.raws l = [p]) ls).
  { eapply Forall_impl; [|exact Hg]. intros l (p & Hp & _). exists p; exact Hp. }
  split.
  - rewrite Forall_forall in *. intros ob Hin. apply in_map_iff in Hin.
    destruct Hin as (l & <- & Hl). destruct (Hg l Hl) as (p & Hp & Ht).
    unfold lobs_of_line. exists p. auto.
  - intros k ob Hk. rewrite nth_error_map in Hk.
    destruct (nth_error ls k) as [l|] eqn:Hl; [|discriminate]. injection Hk as <-.
    destruct (nth_error_split _ _ Hl) as (pre & post & Hsplit & Hlen).
    unfold lobs_of_line; cbn [fst].
    rewrite (Proofs.LinesLoop.numbering_exact_prop raw false ls e Hconv pre l post Hsplit).
    f_equal. f_equal. subst k. rewrite Hsplit in Hone.
    apply Forall_app in Hone. destruct Hone as [Hpre _].
    clear - Hpre. induction Hpre as [|x t (p & Hp) _ IH]; [reflexivity|].
    cbn [flat_map]. rewrite Hp. cbn [app length]. f_equal. exact IH.
Qed.

Lemma remove_old_entries_hits c c' : remove_old_entries c = Ok c' -> c_hits c' = c_hits c.
Proof.
  unfold remove_old_entries, remove_old_entries_sorted.
  destruct (rev (sort_desc (c_store c) (c_table c))) as [|lst t]; [discriminate|].
  destruct (strip_min _ _ _ _) as [rkeep m']. intros H; injection H as <-. reflexivity.
Qed.

Lemma put_hits c k o ls c' : put c k o ls = Ok c' -> c_hits c' = c_hits c.
Proof.
  unfold put. destruct (map_get k (c_map c)).
  - intros H; injection H as <-. reflexivity.
  - destruct (Nat.eqb (length (c_table c)) (c_cap c)).
    + destruct (remove_old_entries c) as [c1|w] eqn:E; [|discriminate].
      cbn [bind]. intros H; injection H as <-. cbn [c_hits]. eapply remove_old_entries_hits; eauto.
    + cbn [bind]. intros H; injection H as <-. reflexivity.
Qed.

Theorem hit_same_options : forall convert is_mk s fn o s' r,
  load convert is_mk s fn o = Ok (s', r) ->
  (c_hits (st_cache s') = c_hits (st_cache s) \/ c_hits (st_cache s') = c_hits (st_cache s) + 1) /\
  (c_hits (st_cache s') = c_hits (st_cache s) + 1 <->
   exists eid, map_get (key fn) (c_map (st_cache s)) = Some eid /\
               e_opts (entry_at (c_store (st_cache s)) eid) = o).
Proof.
  intros convert is_mk s fn o s' r L.
  destruct (load_cases convert is_mk s fn o) as (c1 & _ & [(eid & E & Ho & Hh & L')|(M & Hh & L')]);
    rewrite L' in L; clear L'.
  - injection L as <- _. simpl. rewrite Hh. split; [right; auto|]. split; eauto.
  - (* a miss: neither reading the file nor Put counts a hit *)
    assert (H : c_hits (st_cache s') = c_hits (st_cache s)).
    { rewrite <- Hh. destruct (fresh_lines convert (st_disk s) fn o) as [nl|].
      - destruct (is_mk (key fn)).
        + destruct (put c1 _ _ _) as [c2|w] eqn:P; [|discriminate].
          injection L as <- _. apply (put_hits _ _ _ _ _ P).
        + injection L as <- _. reflexivity.
      - destruct (has_opt o MustSucceed); [discriminate|]. injection L as <- _. reflexivity. }
    rewrite H. split; [left; auto|]. split; [lia|].
    intros (eid & E & Ho). exfalso. eapply M; eauto.
Qed.

(* f.mk = "A= \\\n b\nC= d\n": two logical lines in Makefile mode, three in plain mode *)
Definition modes_disk : list (N * str) := [(0, [65; 61; 32; 92; 10; 32; 98; 10; 67; 61; 32; 100; 10])].

(* transparency of the variant for the shortest interesting histories: two loads
   of the same file on a fresh G, nothing else (no fix: the guard holds trivially) *)
Definition superset_hit_transparent : Prop :=
  forall disk fn o1 o2 s1 r1 s2 r2,
    load_superset convert_lines all_mk (init_state 2 disk) fn o1 = Ok (s1, r1) ->
    load_superset convert_lines all_mk s1 fn o2 = Ok (s2, r2) ->
    load_obs s2 r2 = fresh_read convert_lines disk fn o2.

Theorem superset_hit_refuted : ~ superset_hit_transparent.
Proof.
  intros H.
  destruct (load_superset convert_lines all_mk (init_state 2 modes_disk) (0, 0) 4) as [[s1 r1]|w] eqn:L1;
    [|vm_compute in L1; discriminate].
  destruct (load_superset convert_lines all_mk s1 (0, 0) 0) as [[s2 r2]|w] eqn:L2;
    [|vm_compute in L1; injection L1 as <- <-; vm_compute in L2; discriminate].
  specialize (H modes_disk (0, 0) 4 0 s1 r1 s2 r2 L1 L2).
  vm_compute in L1. injection L1 as <- <-. vm_compute in L2. injection L2 as <- <-.
  vm_compute in H. discriminate.
Qed.

(* the same two loads on the faithful model: mk then plain, plain then mk *)
Definition modes_run (o1 o2 : N) :=
  run convert_lines all_mk ModeDefault (init_state 2 modes_disk) [OLoad (0, 0) o1; OLoad (0, 1) o2].

Lemma modes_example :
  snd (fst (modes_run 4 0)) =
    [ObsLoad (fresh_read convert_lines modes_disk (0, 0) 4); ObsLoad (fresh_read convert_lines modes_disk (0, 1) 0)] /\
  snd (fst (modes_run 0 4)) =
    [ObsLoad (fresh_read convert_lines modes_disk (0, 0) 0); ObsLoad (fresh_read convert_lines modes_disk (0, 1) 4)] /\
  fresh_read convert_lines modes_disk (0, 0) 4 <> fresh_read convert_lines modes_disk (0, 0) 0 /\
  c_hits (st_cache (fst (fst (modes_run 4 0)))) = 0 /\
  c_hits (st_cache (fst (fst (modes_run 4 4)))) = 1.
Proof. vm_compute. repeat split; try reflexivity. discriminate. Qed.
