(* Whole histories: under the protocol guard the machine with the cache shows
   exactly what the machine without a cache (nothing is ever Put) shows. *)
From PV Require Import Lib.Bytes Model.FileCache
  Proofs.FileCacheWf Proofs.FileCacheInv Proofs.FileCache.
From Coq Require Import Arith.
Open Scope N_scope.
Arguments map_set : simpl never.

(* the machine without a cache: nothing is Put, so every Load is a miss *)
Definition no_mk (k : N) : bool := false.

Section Sim.
Variable convert : str -> N -> list lval.
Variable is_mk : N -> bool.

Lemma nocache_load_like s fn o : c_map (st_cache s) = [] ->
  load_like convert s fn o (load convert no_mk s fn o) /\
  forall s' r, load convert no_mk s fn o = Ok (s', r) -> c_map (st_cache s') = [].
Proof.
  intros Hm.
  destruct (load_cases convert no_mk s fn o) as (c1 & (_ & M1 & _) & [(eid & E & _)|(_ & _ & ->)]).
  { rewrite Hm in E. discriminate. }
  unfold load_like. destruct (fresh_lines convert (st_disk s) fn o) as [nl|]; simpl.
  - split; [eauto|]. intros s' r H; inversion H; subst; simpl. congruence.
  - destruct (has_opt o MustSucceed); split; auto; try discriminate; eauto.
    intros s' r H; inversion H; subst; simpl. congruence.
Qed.

Definition sim (s1 s2 : state) : Prop :=
  st_heap s1 = st_heap s2 /\ st_views s1 = st_views s2 /\ st_disk s1 = st_disk s2 /\
  st_pending s1 = st_pending s2.

Lemma sim_view_lines s1 s2 v : sim s1 s2 -> view_lines s1 v = view_lines s2 v.
Proof. intros (H1 & H2 & _). unfold view_lines. rewrite H1, H2. auto. Qed.

Lemma load_like_sim s1 s2 fn o r1 r2 : sim s1 s2 -> load_like convert s1 fn o r1 -> load_like convert s2 fn o r2 ->
  match r1, r2 with
  | Ok (s1', v1), Ok (s2', v2) => sim s1' s2' /\ v1 = v2
  | Stop w1, Stop w2 => w1 = w2
  | _, _ => False
  end.
Proof.
  intros (H1 & H2 & H3 & H4). unfold load_like, add_view, with_cache. rewrite H1, H2, H3, H4.
  destruct (fresh_lines convert (st_disk s2) fn o) as [nl|].
  - intros (c1 & ->) (c2 & ->). unfold sim; simpl. auto.
  - destruct (has_opt o MustSucceed).
    + intros -> ->. auto.
    + intros (c1 & ->) (c2 & ->). unfold sim; simpl. auto.
Qed.

Lemma save_lines_cache_free md fl c1 c2 d ls :
  snd (fst (save_lines md fl c1 d ls)) = snd (fst (save_lines md fl c2 d ls)) /\
  snd (save_lines md fl c1 d ls) = snd (save_lines md fl c2 d ls).
Proof.
  unfold save_lines. destruct (negb (opt_autofix md)); simpl; auto.
  rewrite !save_autofix_fold. simpl. auto.
Qed.

Lemma evicts_empty ks : forall c, c_map c = [] -> c_map (evicts ks c) = [].
Proof.
  unfold evicts. induction ks as [|k t IH]; intros c H; simpl; auto.
  apply IH. unfold evict. rewrite H. simpl. auto.
Qed.

Lemma save_lines_empty md fl c d ls : c_map c = [] -> c_map (fst (fst (save_lines md fl c d ls))) = [].
Proof.
  intros H. destruct (save_lines md fl c d ls) as [[c' d'] w] eqn:S.
  destruct (save_lines_spec _ _ _ _ _ _ _ _ S) as (ks & -> & _). simpl. apply evicts_empty; auto.
Qed.

Lemma step_sim md cap disk s1 s2 o : (1 <= cap)%nat -> reach convert is_mk md cap disk s1 ->
  sim s1 s2 -> c_map (st_cache s2) = [] -> guard_step s1 o = true ->
  match step convert is_mk md s1 o, step convert no_mk md s2 o with
  | Ok (s1', ob1), Ok (s2', ob2) => sim s1' s2' /\ ob1 = ob2 /\ c_map (st_cache s2') = []
  | Stop w1, Stop w2 => w1 = w2
  | _, _ => False
  end.
Proof.
  intros Hc R S M Gd. destruct o as [fn opts|v i f|v fl|k x].
  - pose proof (guarded_load_like convert is_mk s1 fn opts (reach_Inv _ _ _ _ _ _ Hc R) Gd) as L1.
    destruct (nocache_load_like s2 fn opts M) as [L2 M2].
    pose proof (load_like_sim _ _ _ _ _ _ S L1 L2) as LS.
    simpl. destruct (load convert is_mk s1 fn opts) as [[s1' r1]|w1];
      destruct (load convert no_mk s2 fn opts) as [[s2' r2]|w2]; simpl; auto.
    destruct LS as [S' ->]. split; auto. split; [|eapply M2; eauto].
    destruct r2; auto. rewrite (sim_view_lines _ _ _ S'). auto.
  - destruct S as (H1 & H2 & H3 & H4). simpl. rewrite <- H1, <- H2, <- H4.
    destruct (nth_error (st_views s1) v) as [[fn addrs]|]; [|split; [unfold sim; auto|auto]].
    destruct (nth_error addrs i) as [a|]; [|split; [unfold sim; auto|auto]].
    destruct (fix_line md (line_at (st_heap s1) a) f) as [[l' acted]|w]; simpl; auto.
    split; [unfold sim; simpl; auto|auto].
  - simpl. rewrite <- (sim_view_lines _ _ v S).
    destruct (view_lines s1 v) as [[fn ls]|]; [|split; auto].
    destruct S as (H1 & H2 & H3 & H4).
    destruct (save_lines_cache_free md fl (st_cache s1) (st_cache s2) (st_disk s1) ls) as [E1 E2].
    pose proof (save_lines_empty md fl (st_cache s2) (st_disk s1) ls M) as E3.
    rewrite <- H3.
    destruct (save_lines md fl (st_cache s1) (st_disk s1) ls) as [[c1' d1'] w1].
    destruct (save_lines md fl (st_cache s2) (st_disk s1) ls) as [[c2' d2'] w2].
    simpl in *. subst. split; [unfold sim; simpl; rewrite H4; auto|auto].
  - destruct S as (H1 & H2 & H3 & H4). simpl. rewrite H3.
    split; [unfold sim; simpl; auto|]. split; auto.
    unfold evict. rewrite M. simpl. auto.
Qed.

Fixpoint guarded (md : mode) (s : state) (h : list op) : bool :=
  match h with
  | [] => true
  | o :: t =>
    guard_step s o &&
    match step convert is_mk md s o with
    | Ok (s', _) => guarded md s' t
    | Stop _ => true
    end
  end.

Lemma run_sim md cap disk h : (1 <= cap)%nat -> forall s1 s2,
  reach convert is_mk md cap disk s1 -> sim s1 s2 -> c_map (st_cache s2) = [] ->
  guarded md s1 h = true ->
  snd (fst (run convert is_mk md s1 h)) = snd (fst (run convert no_mk md s2 h)) /\
  snd (run convert is_mk md s1 h) = snd (run convert no_mk md s2 h) /\
  st_disk (fst (fst (run convert is_mk md s1 h))) = st_disk (fst (fst (run convert no_mk md s2 h))).
Proof.
  intros Hc. induction h as [|o t IH]; intros s1 s2 R S M G; simpl.
  - destruct S as (_ & _ & H3 & _). auto.
  - simpl in G. apply andb_true_iff in G. destruct G as [G1 G2].
    pose proof (step_sim md cap disk s1 s2 o Hc R S M G1) as SS.
    destruct (step convert is_mk md s1 o) as [[s1' ob1]|w1] eqn:E1;
      destruct (step convert no_mk md s2 o) as [[s2' ob2]|w2] eqn:E2; try tauto.
    + destruct SS as (S' & -> & M').
      assert (R' : reach convert is_mk md cap disk s1') by (econstructor; eauto).
      specialize (IH s1' s2' R' S' M' G2).
      destruct (run convert is_mk md s1' t) as [[a1 b1] c1].
      destruct (run convert no_mk md s2' t) as [[a2 b2] c2]. simpl in *.
      destruct IH as (I1 & I2 & I3). subst. auto.
    + subst. simpl. destruct S as (_ & _ & H3 & _). auto.
Qed.

Theorem cache_unobservable : forall md cap disk h, (1 <= cap)%nat ->
  guarded md (init_state cap disk) h = true ->
  snd (fst (run convert is_mk md (init_state cap disk) h)) =
  snd (fst (run convert no_mk md (init_state cap disk) h)) /\
  snd (run convert is_mk md (init_state cap disk) h) = snd (run convert no_mk md (init_state cap disk) h) /\
  st_disk (fst (fst (run convert is_mk md (init_state cap disk) h))) =
  st_disk (fst (fst (run convert no_mk md (init_state cap disk) h))).
Proof.
  intros md cap disk h Hc G. apply (run_sim md cap disk h Hc); auto.
  - apply reach_init.
  - unfold sim; auto.
Qed.

End Sim.
