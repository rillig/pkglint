(* C19, basic facts: splitting and joining at slashes, walking along segments,
   Parts versus the specification's component list, writing a list of elements as a path. *)
From PV Require Import Lib.Bytes Model.Paths Spec.PathDenote.
Open Scope N_scope.

Lemma str_eqb_false a b : str_eqb a b = false <-> a <> b.
Proof. rewrite <- str_eqb_spec. destruct (str_eqb a b); split; congruence. Qed.

Definition noslash (s : str) : Prop := Forall (fun c => c <> slash) s.

Lemma noslash_cons c s : noslash (c :: s) <-> c <> slash /\ noslash s.
Proof. apply Forall_cons_iff. Qed.

Lemma noslash_dot : noslash dotstr.
Proof. repeat constructor; discriminate. Qed.
Lemma noslash_dotdot : noslash dotdot.
Proof. repeat constructor; discriminate. Qed.
Lemma noslash_nil : noslash [].
Proof. constructor. Qed.

Lemma split_cons s : exists x t, split_slash s = x :: t.
Proof.
  destruct s as [|c s]; simpl; [eauto|]. destruct (c =? slash); [eauto|]. destruct (split_slash s); eauto.
Qed.

Lemma segs_split s : segs s = split_slash s.
Proof.
  unfold segs. induction s as [|c s IH]; simpl; [reflexivity|].
  rewrite IH. reflexivity.
Qed.

Lemma split_noslash s : Forall noslash (split_slash s).
Proof.
  induction s as [|c s IH]; simpl.
  - repeat constructor.
  - destruct (N.eqb_spec c slash) as [->|Hne].
    + constructor; [constructor | exact IH].
    + destruct (split_slash s) as [|h t]; [repeat constructor; exact Hne|].
      inversion IH; subst. constructor; [|assumption]. apply noslash_cons. auto.
Qed.

Lemma split_of_noslash x : noslash x -> split_slash x = [x].
Proof.
  induction 1 as [|c x Hc _ IH]; simpl; [reflexivity|].
  apply N.eqb_neq in Hc. rewrite Hc, IH. reflexivity.
Qed.

Lemma split_app_slash a b : split_slash (a ++ slash :: b) = split_slash a ++ split_slash b.
Proof.
  induction a as [|c a IH]; simpl; [reflexivity|]. rewrite IH.
  destruct (c =? slash); [reflexivity|]. destruct (split_cons a) as (x & t & ->). reflexivity.
Qed.

Lemma join_cons x y l : join_slash (x :: y :: l) = x ++ slash :: join_slash (y :: l).
Proof. reflexivity. Qed.

Lemma split_join l : l <> [] -> Forall noslash l -> split_slash (join_slash l) = l.
Proof.
  intros Hne H. induction H as [|x l Hx _ IH]; [contradiction|]. destruct l as [|y l].
  - apply split_of_noslash, Hx.
  - rewrite join_cons, split_app_slash, IH, split_of_noslash by (discriminate || assumption). reflexivity.
Qed.

Lemma join_split s : join_slash (split_slash s) = s.
Proof.
  induction s as [|c s IH]; simpl; [reflexivity|].
  destruct (split_cons s) as (x & t & E). rewrite E in *. destruct (N.eqb_spec c slash) as [->|_].
  - rewrite join_cons, IH. reflexivity.
  - destruct t; [simpl in *|rewrite join_cons in *]; rewrite <- IH; reflexivity.
Qed.

Lemma rooted_app a b : a <> [] -> rooted (a ++ b) = rooted a.
Proof. destruct a; [contradiction|reflexivity]. Qed.

Lemma rooted_join x t : x <> [] -> noslash x -> rooted (join_slash (x :: t)) = false.
Proof.
  intros Hx Hs. destruct x as [|c x]; [contradiction|]. apply noslash_cons in Hs as [Hc _].
  destruct t; apply N.eqb_neq; exact Hc.
Qed.

Lemma rooted_split p x t : p <> [] -> split_slash p = x :: t -> rooted p = is_empty x.
Proof.
  destruct p as [|c s]; [contradiction|]. intros _. simpl. fold slash.
  destruct (c =? slash); [|destruct (split_slash s)]; intro H; injection H as <- _; reflexivity.
Qed.

Definition real_name (s : str) : bool := seg_is_name s && negb (seg_is_dotdot s).

(* a directory-entry name *)
Definition good (c : str) : Prop := real_name c = true /\ noslash c.

(* what a cleaned path is made of *)
Definition elem (x : str) : Prop := seg_is_name x = true /\ noslash x.

Lemma is_empty_seg s : is_empty s = seg_is_empty s.
Proof. reflexivity. Qed.

Lemma seg_is_dot_spec s : seg_is_dot s = true <-> s = dotstr.
Proof. apply str_eqb_spec. Qed.
Lemma seg_is_dotdot_spec s : seg_is_dotdot s = true <-> s = dotdot.
Proof. apply str_eqb_spec. Qed.

(* a segment is skipped, or goes up, or goes down *)
Lemma seg_cases s : seg_is_name s = false \/ s = dotdot \/ real_name s = true.
Proof.
  unfold real_name. destruct (seg_is_name s); [|auto].
  destruct (seg_is_dotdot s) eqn:E; [apply seg_is_dotdot_spec in E|]; auto.
Qed.

Lemma good_elem c : good c -> elem c.
Proof. intros [H Hs]. apply andb_true_iff in H. split; [apply H|exact Hs]. Qed.

Lemma good_elems e : Forall good e -> Forall elem e.
Proof. apply Forall_impl, good_elem. Qed.

Lemma elem_dotdot : elem dotdot.
Proof. split; [reflexivity|apply noslash_dotdot]. Qed.

Lemma elem_nonempty x : elem x -> x <> [].
Proof. intros [H _] ->. discriminate. Qed.

Lemma elem_noslash e : Forall elem e -> Forall noslash e.
Proof. apply Forall_impl. intros a [_ H]. exact H. Qed.

Lemma Forall_repeat {A} (P : A -> Prop) x n : P x -> Forall P (repeat x n).
Proof. intro H. apply Forall_forall. intros y Hy. apply repeat_spec in Hy. subst. exact H. Qed.

Lemma walk_step_skip st s : seg_is_name s = false -> walk_step st s = st.
Proof.
  unfold seg_is_name, walk_step. intro H.
  destruct (seg_is_empty s); [reflexivity|]. destruct (seg_is_dot s); [reflexivity|discriminate].
Qed.

Lemma walk_step_name st s : real_name s = true -> walk_step st s = s :: st.
Proof.
  unfold real_name, seg_is_name, walk_step. intro H.
  destruct (seg_is_empty s); [discriminate|]. destruct (seg_is_dot s); [discriminate|].
  destruct (seg_is_dotdot s); [discriminate|]. reflexivity.
Qed.

Lemma walk_step_dotdot st : walk_step st dotdot = tl st.
Proof. reflexivity. Qed.

Lemma walk_app st a b : walk st (a ++ b) = walk (walk st a) b.
Proof. apply fold_left_app. Qed.

Lemma walk_app_slash st a b : walk st (segs (a ++ slash :: b)) = walk (walk st (segs a)) (segs b).
Proof. rewrite !segs_split, split_app_slash. apply walk_app. Qed.

Lemma walk_cons st a l : walk st (a :: l) = walk (walk_step st a) l.
Proof. reflexivity. Qed.

Lemma walk_filter st l : walk st (filter seg_is_name l) = walk st l.
Proof.
  revert st; induction l as [|x l IH]; intro st; simpl; [reflexivity|].
  destruct (seg_is_name x) eqn:E.
  - simpl. apply IH.
  - rewrite walk_step_skip by exact E. apply IH.
Qed.

Lemma walk_good st l : Forall good l -> walk st l = rev l ++ st.
Proof.
  intro H. revert st. induction H as [|x l [Hx _] _ IH]; intro st; [reflexivity|].
  rewrite walk_cons, walk_step_name, IH by exact Hx. simpl. rewrite <- app_assoc. reflexivity.
Qed.

Lemma walk_good_nil l : Forall good l -> walk [] l = rev l.
Proof. intro H. rewrite walk_good by exact H. apply app_nil_r. Qed.

Lemma tl_skipn {A} n (l : list A) : tl (skipn n l) = skipn (S n) l.
Proof. revert l; induction n as [|n IH]; intros [|x l]; try reflexivity. apply IH. Qed.

Lemma walk_dotdots st n : walk st (repeat dotdot n) = skipn n st.
Proof.
  revert st; induction n as [|n IH]; intro st; [reflexivity|].
  cbn [repeat]. rewrite walk_cons, walk_step_dotdot, IH. destruct st; [apply skipn_nil|reflexivity].
Qed.

Definition names (p : str) : list str := filter seg_is_name (segs p).

Lemma components_names p : components p = (if rooted p then [[]] else []) ++ names p.
Proof. reflexivity. Qed.

Lemma names_elem p : Forall elem (names p).
Proof.
  apply Forall_forall. intros x Hx. apply filter_In in Hx as [Hx Hn]. split; [exact Hn|].
  rewrite segs_split in Hx. exact (proj1 (Forall_forall _ _) (split_noslash p) x Hx).
Qed.

Lemma names_app_slash a b : names (a ++ slash :: b) = names a ++ names b.
Proof. unfold names. rewrite !segs_split, split_app_slash. apply filter_app. Qed.

Lemma walk_names st p : walk st (names p) = walk st (segs p).
Proof. apply walk_filter. Qed.

Lemma walk_components st p : walk st (components p) = walk st (segs p).
Proof. unfold components. destruct (rooted p); apply walk_names. Qed.

Lemma parts_keep_false l : parts_keep false l = filter seg_is_name l.
Proof. induction l as [|x l IH]; simpl; [reflexivity|]. rewrite IH. reflexivity. Qed.

Lemma parts_components p :
  p <> [] -> parts p = match components p with [] => [dotstr] | l => l end.
Proof.
  intro Hne. destruct (split_cons p) as (x & t & E).
  assert (Hk : parts_keep true (split_slash p) = components p).
  { unfold components. rewrite (segs_split p), E, (rooted_split p x t Hne E). simpl. rewrite parts_keep_false.
    destruct x as [|d x]; [reflexivity|]. unfold seg_is_name, seg_is_dot, dotstr. simpl.
    destruct ((d =? 46) && str_eqb x []); reflexivity. }
  rewrite <- Hk. destruct p; [contradiction|reflexivity].
Qed.

Lemma parts_nil : parts [] = [].
Proof. reflexivity. Qed.

Lemma parts_nonempty p : p <> [] -> parts p <> [].
Proof.
  intro H. rewrite parts_components by exact H. destruct (components p); discriminate.
Qed.

Lemma walk_parts st p : walk st (parts p) = walk st (segs p).
Proof.
  destruct p as [|c s] eqn:E; [reflexivity|]. rewrite <- E.
  rewrite parts_components by (subst; discriminate).
  rewrite <- (walk_components st p). destruct (components p); reflexivity.
Qed.

Definition base_dir (cwd p : str) : list str := if rooted p then [] else walk [] (segs cwd).

Lemma denote_unfold cwd p : denote cwd p = rev (walk (base_dir cwd p) (segs p)).
Proof. reflexivity. Qed.

Lemma denote_names cwd p : denote cwd p = rev (walk (base_dir cwd p) (names p)).
Proof. rewrite walk_names. reflexivity. Qed.

(* Clean, CleanDot, CleanPath and filepath.Rel all end by joining a list of elements that
   are slash-free and neither "" nor ".": [render] is that last step, and what it
   produces has exactly these elements as its names. *)

Definition root_mark (rt : bool) : list str := if rt then [[]] else [].

Definition render (rt : bool) (e : list str) : str :=
  if rt then slash :: join_slash e else match e with [] => dotstr | _ => join_slash e end.

Lemma filter_all {A} (f : A -> bool) l : Forall (fun x => f x = true) l -> filter f l = l.
Proof. induction 1 as [|x l Hx _ IH]; simpl; [reflexivity|]. rewrite Hx, IH. reflexivity. Qed.

Lemma rooted_render rt e : Forall elem e -> rooted (render rt e) = rt.
Proof.
  intro H. destruct rt; [reflexivity|]. destruct H as [|x t Hx _]; [reflexivity|].
  apply rooted_join; [apply elem_nonempty|]; apply Hx.
Qed.

Lemma render_nonempty rt e : Forall elem e -> render rt e <> [].
Proof.
  intro H. destruct rt; [discriminate|]. destruct H as [|x t Hx _]; [discriminate|].
  apply elem_nonempty in Hx. destruct x; [contradiction|]. destruct t; discriminate.
Qed.

Lemma split_render rt e :
  Forall elem e ->
  split_slash (render rt e) =
  if rt then [] :: match e with [] => [[]] | _ => e end else match e with [] => [dotstr] | _ => e end.
Proof.
  intro H. apply elem_noslash in H. destruct rt, e as [|x t]; try reflexivity.
  - change (split_slash (render true (x :: t))) with ([] :: split_slash (join_slash (x :: t))).
    rewrite split_join by (discriminate || exact H). reflexivity.
  - apply split_join; (discriminate || exact H).
Qed.

Lemma names_render rt e : Forall elem e -> names (render rt e) = e.
Proof.
  intro H. rewrite <- (filter_all seg_is_name e) at 2 by (revert H; apply Forall_impl; intros a Ha; apply Ha).
  unfold names. rewrite segs_split, split_render by exact H. destruct rt, e; reflexivity.
Qed.

Lemma render_inj rt1 rt2 e1 e2 :
  Forall elem e1 -> Forall elem e2 -> render rt1 e1 = render rt2 e2 -> rt1 = rt2 /\ e1 = e2.
Proof.
  intros H1 H2 E. split.
  - rewrite <- (rooted_render rt1 e1 H1), E. apply rooted_render. exact H2.
  - rewrite <- (names_render rt1 e1 H1), E. apply names_render. exact H2.
Qed.

Lemma components_render rt e : Forall elem e -> components (render rt e) = root_mark rt ++ e.
Proof. intro H. rewrite components_names, rooted_render, names_render by exact H. reflexivity. Qed.

Lemma walk_render st rt e : Forall elem e -> walk st (segs (render rt e)) = walk st e.
Proof. intro H. rewrite <- walk_names, names_render by exact H. reflexivity. Qed.

Lemma parts_render rt e :
  Forall elem e -> parts (render rt e) = match root_mark rt ++ e with [] => [dotstr] | l => l end.
Proof.
  intro H. rewrite parts_components by (apply render_nonempty; exact H).
  rewrite components_render by exact H. reflexivity.
Qed.

Lemma render_denotes cwd p e :
  Forall elem e -> walk (base_dir cwd p) e = walk (base_dir cwd p) (segs p) ->
  denote cwd (render (rooted p) e) = denote cwd p.
Proof.
  intros He Hw. rewrite denote_names, names_render by exact He.
  unfold base_dir. rewrite rooted_render by exact He. fold (base_dir cwd p). rewrite Hw. reflexivity.
Qed.

(* how CleanDot and CleanPath write a component list: a lone "" is the root *)
Lemma render_components rt e :
  Forall elem e ->
  match root_mark rt ++ e with [] => dotstr | [[]] => [slash] | l => join_slash l end = render rt e.
Proof.
  intro H. destruct rt, e as [|[|c x] [|y t]]; try reflexivity.
  apply Forall_inv, elem_nonempty in H. contradiction.
Qed.
