(* C17: the verdicts of a program with conditional sections are verdicts of the
   same program without the sections. *)
From PV Require Import Lib.Bytes Model.Redundant Model.RedundantCond Proofs.Redundant Proofs.RedundantCond.

(* s: the state of the analysis without sections, sc: with sections *)
Definition sim_info (i ic : varinfo) : Prop :=
  vi_paths i = vi_paths ic /\ vi_last i = vi_last ic /\
  v_writes (vi_var i) = v_writes (vi_var ic) /\ v_refs (vi_var i) = v_refs (vi_var ic) /\
  v_cond (vi_var i) = false /\
  (v_cond (vi_var ic) = false -> vi_var i = vi_var ic).

Definition sim (s sc : scope) : Prop :=
  s_path s = s_path sc /\ s_names s = s_names sc /\ forall x, sim_info (s_vars s x) (s_vars sc x).

Lemma sim_refl_new : sim new_scope new_scope.
Proof. repeat split; reflexivity. Qed.

Definition written (s : scope) (i : nat) (a : assign) (d : bool) : scope :=
  mkScope (upd (s_vars s) (a_var a)
             (mkInfo (var_write (vi_var (s_vars s (a_var a))) i a d)
                     (vi_paths (s_vars s (a_var a)) ++ [s_path s]) AWrite))
          (s_path s) (set_add (s_names s) (a_var a)).

Lemma sim_written s sc i a c : sim s sc -> sim (written s i a false) (written sc i a c).
Proof.
  intros (Hp & Hn & Hv). unfold written. split; [exact Hp|]. split; [simpl; rewrite Hn; reflexivity|].
  intro x. simpl. unfold upd. destruct (str_eqb (a_var a) x); [|apply Hv].
  destruct (Hv (a_var a)) as (H1 & H2 & H3 & H4 & H5 & H6).
  unfold sim_info; simpl. rewrite !var_write_writes, !var_write_refs, !var_write_cond.
  rewrite H1, H3, H4, H5, Hp. repeat split; try reflexivity.
  intro Hc. apply Bool.orb_false_iff in Hc as [Hc1 Hc2]. subst c. rewrite (H6 Hc1). reflexivity.
Qed.

Lemma sim_read_one s sc w : sim s sc -> sim (read_one s w) (read_one sc w).
Proof.
  intros (Hp & Hn & Hv). unfold read_one. split; [exact Hp|]. split; [simpl; rewrite Hn; reflexivity|].
  intro x. simpl. unfold upd. destruct (str_eqb w x); [|apply Hv].
  destruct (Hv w) as (H1 & H2 & H3 & H4 & H5 & H6).
  unfold sim_info, var_read; simpl. rewrite H1, H3, H4, Hp. repeat split; try reflexivity; [exact H5|].
  intro Hc. rewrite (H6 Hc). reflexivity.
Qed.

Lemma sim_fold_read ws : forall s sc, sim s sc -> sim (fold_left read_one ws s) (fold_left read_one ws sc).
Proof. induction ws as [|w ws IH]; intros s sc H; simpl; [exact H|]. apply IH. apply sim_read_one; exact H. Qed.

Lemma sim_refs s sc : sim s sc -> forall w, refs_of s w = refs_of sc w.
Proof. intros (_ & _ & Hv) w. unfold refs_of. destruct (Hv w) as (_ & _ & _ & H & _). exact H. Qed.

Lemma closure_ext s sc : (forall w, refs_of s w = refs_of sc w) -> forall n ws, closure n s ws = closure n sc ws.
Proof.
  intro H.
  assert (R : forall n ws, closure_rounds n s ws = closure_rounds n sc ws).
  { induction n; intro ws; simpl; [reflexivity|]. unfold closure_step. rewrite (flat_map_ext _ _ H ws). apply IHn. }
  intros n ws. unfold closure. rewrite R. rewrite (flat_map_ext _ _ H). reflexivity.
Qed.

Lemma sim_handle_expr s sc a sc' :
  sim s sc -> handle_expr sc a = Ok sc' -> exists s', handle_expr s a = Ok s' /\ sim s' sc'.
Proof.
  intro H. unfold handle_expr.
  pose proof (sim_fold_read (uses (a_val a)) s sc H) as H1.
  assert (Hn : s_names (fold_left read_one (uses (a_val a)) s) = s_names (fold_left read_one (uses (a_val a)) sc)) by apply H1.
  rewrite Hn. rewrite (closure_ext _ _ (sim_refs _ _ H1)).
  destruct (a_op a);
    try (intros E; inversion E; subst; eexists; split; [reflexivity|exact H1]);
    (destruct (closure _ _ _); try discriminate; intros E; inversion E; subst;
     eexists; split; [reflexivity|apply sim_fold_read; exact H1]).
Qed.

Lemma sim_update_include_path s sc l sc' :
  sim s sc -> update_include_path sc l = Ok sc' -> exists s', update_include_path s l = Ok s' /\ sim s' sc'.
Proof.
  intros (Hp & Hn & Hv). unfold update_include_path. rewrite Hp.
  destruct (l_lineno l =? 1)%N.
  - intros E; inversion E; subst. eexists; split; [reflexivity|]. repeat split; simpl; try assumption; apply Hv.
  - destruct (ipath_pop_until (s_path sc) (l_file l)); try discriminate.
    intros E; inversion E; subst. eexists; split; [reflexivity|]. repeat split; simpl; try assumption; apply Hv.
Qed.

Lemma handle_varassign_verdicts_ext s sc i a d s' vs sc' vsc :
  s_vars s (a_var a) = s_vars sc (a_var a) -> s_path s = s_path sc ->
  handle_varassign s i a d = Ok (s', vs) -> handle_varassign sc i a d = Ok (sc', vsc) -> vs = vsc.
Proof.
  intros Hi Hp. unfold handle_varassign. rewrite Hi, Hp.
  repeat match goal with
         | |- context [match ?x with _ => _ end] => destruct x
         end;
    intros E1 E2; inversion E1; inversion E2; try reflexivity; try discriminate.
Qed.

Lemma varinfo_eq (i ic : varinfo) :
  vi_var i = vi_var ic -> vi_paths i = vi_paths ic -> vi_last i = vi_last ic -> i = ic.
Proof. destruct i, ic; simpl; intros; subst; reflexivity. Qed.

Lemma sim_handle_varassign s sc i a c sc' vsc :
  sim s sc -> handle_varassign sc i a c = Ok (sc', vsc) ->
  exists s' vs, handle_varassign s i a false = Ok (s', vs) /\ sim s' sc' /\ (vsc = [] \/ vsc = vs).
Proof.
  intros H E2. destruct (handle_varassign_ok s i a false) as [vs E1].
  eexists; exists vs. split; [exact E1|]. split.
  - rewrite (handle_varassign_scope _ _ _ _ _ _ E2). apply (sim_written s sc i a c H).
  - destruct (is_cond sc (a_var a) || c) eqn:Hc; [left; exact (handle_varassign_silent _ _ _ _ _ _ Hc E2)|].
    apply orb_false_iff in Hc as [Hc ->]. right. symmetry. destruct H as (Hp & _ & Hv). destruct (Hv (a_var a)) as (H1 & H2 & _ & _ & _ & H6).
    eapply handle_varassign_verdicts_ext; [| exact Hp | exact E1 | exact E2].
    apply varinfo_eq; [apply H6; exact Hc | exact H1 | exact H2].
Qed.

Lemma sim_check_line s sc i c l sc' vsc :
  sim s sc -> check_line_c sc i c l = Ok (sc', vsc) ->
  exists s' vs, check_line s i l = Ok (s', vs) /\ sim s' sc' /\ (vsc = [] \/ vsc = vs).
Proof.
  intros H E. apply check_line_c_inv in E as (sc1 & U2 & E).
  destruct (sim_update_include_path _ _ _ _ H U2) as (s1 & U1 & H1). unfold check_line. rewrite U1.
  destruct (l_body l) as [a|].
  - destruct E as (sc2 & V2 & X2).
    destruct (sim_handle_varassign _ _ _ _ _ _ _ H1 V2) as (s2 & vs2 & V1 & H2 & Hvs). rewrite V1.
    destruct (sim_handle_expr _ _ _ _ H2 X2) as (s3 & X1 & H3). rewrite X1. exists s3, vs2. auto.
  - destruct E as [-> ->]. exists s1, []. auto.
Qed.

Lemma sim_check_from : forall p s sc i per,
  sim s sc -> check_from_c sc i p = Ok per ->
  exists vs, check_from s i (map snd p) = Ok vs /\ incl (concat per) vs.
Proof.
  induction p as [|[c l] p IH]; intros s sc i per H E; simpl in *.
  - inversion E; subst. exists []. split; [reflexivity|apply incl_refl].
  - destruct (check_line_c sc i c l) as [[sc' vc1]| |] eqn:L2; try discriminate.
    destruct (check_from_c sc' (S i) p) as [rc| |] eqn:R2; try discriminate.
    inversion E; subst per.
    destruct (sim_check_line _ _ _ _ _ _ _ H L2) as (s' & v1 & L1 & H' & Hvs). rewrite L1.
    destruct (IH _ _ _ _ H' R2) as (r1 & R1 & Hinc). rewrite R1.
    exists (v1 ++ r1). split; [reflexivity|]. simpl. apply incl_app.
    + destruct Hvs as [-> | ->]; [intros ? []|apply incl_appl, incl_refl].
    + apply incl_appr. exact Hinc.
Qed.

Theorem cond_verdicts_subset_total (p : cprogram) (vsc : list verdict) :
  check_c p = Ok vsc -> exists vs, check (map snd p) = Ok vs /\ incl vsc vs.
Proof.
  unfold check, check_c, check_lines_c.
  destruct (check_from_c new_scope 0 p) as [per| |] eqn:E; try discriminate.
  intro H; inversion H; subst. exact (sim_check_from p _ _ _ _ sim_refl_new E).
Qed.
