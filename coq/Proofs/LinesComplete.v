(* C09, part 3: the specification is complete -- any observation that passes the
   five clauses is the model's output.  So "the model meets the spec" is not
   vacuous, and the harness' spec_check pins the loader down completely. *)
From PV Require Import Lib.Bytes Lib.LinesLib Model.Lines Spec.LinesSpec Proofs.LinesLoop.
Open Scope N_scope.

Definition nlfree (a : str) : Prop := existsb is_nl a = false.

Lemma raw_ok_cases r : raw_ok r = true ->
  (ends_nl r = true /\ exists a, r = a ++ [10] /\ nlfree a) \/ (ends_nl r = false /\ nlfree r /\ r <> []).
Proof.
  unfold raw_ok. intros H. apply andb_true_iff in H as [Hn Hf].
  apply negb_true_iff in Hf. destruct (list_snoc_cases r) as [->|[a [c ->]]]; [discriminate|].
  rewrite removelast_snoc in Hf. unfold ends_nl. rewrite last_snoc.
  destruct (is_nl c) eqn:Ec.
  - left. split; [reflexivity|]. exists a. apply N.eqb_eq in Ec. subst c. split; [reflexivity|exact Hf].
  - right. split; [reflexivity|]. split; [|destruct a; discriminate].
    unfold nlfree. rewrite existsb_app, Hf. simpl. rewrite Ec. reflexivity.
Qed.

Lemma all_but_last_tail p (r : str) t : all_but_last p (r :: t) = true -> all_but_last p t = true.
Proof. destruct t as [|r' t]; [reflexivity|]. cbn [all_but_last]. intros H. apply andb_true_iff in H. tauto. Qed.

Lemma all_but_last_head p (r r' : str) t : all_but_last p (r :: r' :: t) = true -> p r = true.
Proof. cbn [all_but_last]. intros H. apply andb_true_iff in H. tauto. Qed.

Definition valid_raws (L : list str) : Prop :=
  forallb raw_ok L = true /\ all_but_last ends_nl L = true.

Lemma valid_raws_tail r t : valid_raws (r :: t) -> valid_raws t.
Proof.
  intros [H1 H2]. simpl in H1. apply andb_true_iff in H1 as [_ H1].
  split; [exact H1|exact (all_but_last_tail _ _ _ H2)].
Qed.

Lemma split_after_acc_app a x : nlfree a -> forall cur,
  split_after_acc cur (a ++ x) = split_after_acc (cur ++ a) x.
Proof.
  unfold nlfree. induction a as [|c a IH]; intros Ha cur; simpl in *; [rewrite app_nil_r; reflexivity|].
  apply orb_false_iff in Ha as [Hc Ha]. unfold is_nl in Hc. unfold nl.
  rewrite Hc, (IH Ha), <- app_assoc. reflexivity.
Qed.

Theorem valid_raws_split L : valid_raws L -> raw_lines_of (concat L) = L.
Proof.
  induction L as [|r t IH]; intros V; [reflexivity|].
  assert (R : raw_ok r = true) by (destruct V as [H _]; simpl in H; apply andb_true_iff in H; tauto).
  unfold raw_lines_of, split_after_nl in *. cbn [concat].
  destruct (raw_ok_cases _ R) as [[_ [a [-> Ha]]]|[E [F N]]].
  - rewrite <- app_assoc, (split_after_acc_app _ _ Ha).
    change (split_after_acc ([] ++ a) ([10] ++ concat t)) with ((a ++ [10]) :: split_after_acc [] (concat t)).
    cbn [filter]. replace (nonempty (a ++ [10])) with true by (destruct a; reflexivity).
    f_equal. apply IH, (valid_raws_tail _ _ V).
  - destruct t as [|r' t]; [|destruct V as [_ V]; rewrite (all_but_last_head _ _ _ _ V) in E; discriminate].
    cbn [concat]. rewrite (split_after_acc_app _ _ F). destruct r; [congruence|reflexivity].
Qed.

Lemma grouping_mk_ends O : grouping_mk O = true ->
  (match O with [] => true | _ => false end) = ends_here (flat_map o_raws O).
Proof.
  destruct O as [|x O]; [reflexivity|]. cbn [grouping_mk]. intros G.
  apply andb_true_iff in G as [G _]. apply group_ok_nonempty in G.
  simpl. destruct (o_raws x); [congruence|reflexivity].
Qed.

(* Each clause makes one component of the observation a function of the input:
   the physical lines are raw_lines_of s (valid_raws_split), the groups are cut
   from them by `groups`, and number and text of a line follow from its group. *)

(* makefile mode: a line that continues belongs to the group that follows it *)
Fixpoint regroup (rs : list str) : list (list str) :=
  match rs with
  | [] => []
  | r :: t => if continues r then match regroup t with [] => [[r]] | g :: gs => (r :: g) :: gs end
              else [r] :: regroup t
  end.

Definition groups (mk : bool) (rs : list str) : list (list str) :=
  if mk then regroup rs else map (fun r => [r]) rs.

Lemma regroup_group g : forall post,
  group_ok (ends_here post) g = true -> regroup (g ++ post) = g :: regroup post.
Proof.
  induction g as [|r g IH]; intros post G; [discriminate|]. cbn [group_ok] in G. destruct g as [|r' g].
  - cbn [app regroup]. destruct (continues r); [|reflexivity]. destruct post; [reflexivity|discriminate].
  - apply andb_true_iff in G as [C G]. rewrite <- app_comm_cons. cbn [regroup].
    rewrite C, (IH _ G). reflexivity.
Qed.

Lemma grouping_mk_regroup O : grouping_mk O = true -> map o_raws O = regroup (all_raws O).
Proof.
  unfold all_raws. induction O as [|l O IH]; [reflexivity|]. cbn [grouping_mk]. intros G.
  apply andb_true_iff in G as [A B]. rewrite (grouping_mk_ends _ B) in A.
  cbn [map flat_map]. rewrite (regroup_group _ _ A), <- (IH B). reflexivity.
Qed.

Lemma grouping_mk_unique O1 O2 :
  grouping_mk O1 = true -> grouping_mk O2 = true ->
  all_raws O1 = all_raws O2 -> map o_raws O1 = map o_raws O2.
Proof. intros G1 G2 E. rewrite (grouping_mk_regroup _ G1), (grouping_mk_regroup _ G2), E. reflexivity. Qed.

Lemma grouping_groups mk O : grouping_ok mk O = true -> map o_raws O = groups mk (all_raws O).
Proof.
  destruct mk; [apply grouping_mk_regroup|].
  unfold grouping_ok, grouping_plain, groups, all_raws. induction O as [|l O IH]; [reflexivity|].
  cbn [forallb map flat_map]. intros G. apply andb_true_iff in G as [A B].
  destruct (o_raws l) as [|r [|? ?]]; try discriminate. rewrite (IH B). reflexivity.
Qed.

Fixpoint rebuild (mk : bool) (k : N) (gs : list (list str)) : list obs_line :=
  match gs with
  | [] => []
  | g :: gs' => (k, if mk then spec_text g else content (hd [] g), g)
                :: rebuild mk (k + N.of_nat (length g)) gs'
  end.

Lemma lines_rebuild mk O : forall k,
  numbering_from k O = true -> grouping_ok mk O = true -> text_ok mk O = true ->
  O = rebuild mk k (map o_raws O).
Proof.
  unfold text_ok. induction O as [|[[n t] g] O IH]; intros k N G T; [reflexivity|].
  cbn [numbering_from forallb] in N, T.
  apply andb_true_iff in N as [N1 N2]. apply andb_true_iff in T as [T1 T2].
  unfold o_lineno, o_text, o_raws in N1, N2, T1. cbn [fst snd] in N1, N2, T1.
  apply N.eqb_eq in N1 as ->. apply str_eqb_spec in T1.
  assert (G' : grouping_ok mk O = true /\ t = if mk then spec_text g else content (hd [] g)).
  { destruct mk; [cbn [grouping_ok grouping_mk] in G|unfold grouping_ok, grouping_plain in G; cbn [forallb] in G];
      apply andb_true_iff in G as [G1 G2]; (split; [exact G2|]); [exact T1|].
    unfold o_raws in G1. cbn [snd] in G1. destruct g as [|r [|? ?]]; try discriminate. exact T1. }
  destruct G' as [G' ->]. cbn [map rebuild]. f_equal. apply IH; assumption.
Qed.

(* an input has at most one observation that passes the five clauses *)
Theorem spec_functional mk s O :
  spec_holds mk s O = true -> O = rebuild mk 1 (groups mk (raw_lines_of s)).
Proof.
  intros HO. apply spec_holds_iff in HO as (P & S & N & G & T).
  apply str_eqb_spec in P. apply andb_true_iff in S.
  rewrite <- P, (valid_raws_split _ S), <- (grouping_groups _ _ G). exact (lines_rebuild mk O 1 N G T).
Qed.

Theorem spec_complete s mk ls e O :
  convert_to_logical_lines s mk = Ok (ls, e) -> spec_holds mk s O = true -> O = map obs ls.
Proof.
  intros Hc HO. rewrite (spec_functional _ _ _ HO). symmetry.
  apply spec_functional, (model_meets_spec _ _ _ _ Hc).
Qed.
