(* Proofs about Model/ShTok.v, part 6: the expression lexer of part C10mk
   (Model/MkLexer.v: Expr) as the `expr` of the shell tokenizer.  With it the
   theorems of Props/C10sh.v hold without a hypothesis about MkLexer.Expr. *)
From PV Require Model.MkLexPrim Model.MkLexer Proofs.MkLexer Gen.MkByteSets Lib.LinesLib.
From PV Require Import Lib.Bytes Model.ShTok Spec.ShWords
  Proofs.ShTok Proofs.ShTokSplit Proofs.ShTokWords.
From Coq Require Import ZifyBool ZifyN ZifyNat.
Open Scope N_scope.

Module MP := PV.Model.MkLexPrim.
Module MM := PV.Model.MkLexer.
Module BS := PV.Gen.MkByteSets.

(* MkLexer.Expr in the shape the shell tokenizer model expects: the text it consumed and the rest *)
Definition mk_expr (s : str) : option (str * str) :=
  match MM.Expr s with
  | MP.Ok (Some r) => Some (firstn (length s - length r) s, r)
  | _ => None
  end.

Lemma mk_expr_contract : expr_contract mk_expr.
Proof.
  intros s t r H. unfold mk_expr in H.
  destruct (PV.Proofs.MkLexer.expr_advance s) as [E|(r' & E & (c & Hc & Es))]; rewrite E in H; [discriminate|].
  injection H as <- <-. subst s. rewrite LinesLib.firstn_app_len. auto.
Qed.

Lemma expr_body_nodollar E c0 t : (c0 =? 36) = false -> MM.expr_body E (c0 :: t) = MP.Ok None.
Proof. intro H. unfold MM.expr_body. destruct t; [reflexivity|]. rewrite H. reflexivity. Qed.

Lemma mk_expr_none s : dollar_start s = false -> mk_expr s = None.
Proof.
  intro H. unfold mk_expr.
  assert (E : MM.Expr s = MP.Ok None).
  { unfold MM.Expr. cbn [MM.expr]. destruct s as [|c0 [|c t]]; try reflexivity.
    unfold dollar_start in H. unfold MM.expr_body.
    destruct (c0 =? 36); [|reflexivity]. cbn [andb negb] in H.
    destruct (N.eqb_spec c 36) as [->|]; [reflexivity|discriminate]. }
  rewrite E. reflexivity.
Qed.

Lemma name_byte_sets c : is_name_byte c = true ->
  MP.in_set BS.builtin_variable_spec c = false /\ MP.in_set BS.varbase_spec c = true /\ (c =? 46) = false.
Proof.
  unfold is_name_byte, is_alnum, is_alpha, is_lower, is_upper, is_digit. intro H.
  unfold BS.builtin_variable_spec, BS.varbase_spec. cbn [MP.in_set]. repeat split; lia.
Qed.

Lemma iterate_name (E : MM.exprfn) set name y fuel :
  name <> [] -> forallb (MP.in_set set) name = true -> MP.in_set set 125 = false ->
  E (125 :: y) = MP.Ok None ->
  MP.iterate (MM.bytes_or_expr E set) (S (S fuel)) (name ++ 125 :: y) = MP.Ok (125 :: y).
Proof.
  intros Hn Hf H125 HE. cbn [MP.iterate]. unfold MM.bytes_or_expr at 1. unfold MP.orelse, MP.st_bytes.
  rewrite (LinesLib.span_app_exact (MP.in_set set) name (125 :: y) Hf H125).
  destruct name as [|c name']; [congruence|].
  unfold MM.bytes_or_expr, MP.orelse, MP.st_bytes. cbn [span]. rewrite H125, HE. reflexivity.
Qed.

Lemma iterate_stop (E : MM.exprfn) set y fuel :
  MP.in_set set 125 = false -> E (125 :: y) = MP.Ok None ->
  MP.iterate (MM.bytes_or_expr E set) (S fuel) (125 :: y) = MP.Ok (125 :: y).
Proof.
  intros H125 HE. cbn [MP.iterate]. unfold MM.bytes_or_expr, MP.orelse, MP.st_bytes. cbn [span].
  rewrite H125, HE. reflexivity.
Qed.

Lemma expr_mkvar name y : name <> [] -> forallb is_name_byte name = true ->
  MM.Expr (36 :: 123 :: name ++ 125 :: y) = MP.Ok (Some y).
Proof.
  intros Hn Hf. unfold MM.Expr.
  set (n := length (36 :: 123 :: name ++ 125 :: y)).
  change (MM.expr (S n) (36 :: 123 :: name ++ 125 :: y))
    with (MM.expr_body (MM.expr n) (36 :: 123 :: name ++ 125 :: y)).
  set (E := MM.expr n).
  assert (HE : E (125 :: y) = MP.Ok None).
  { unfold E, n. cbn [length MM.expr]. apply expr_body_nodollar. reflexivity. }
  unfold MM.expr_body. cbn [N.eqb Pos.eqb negb orb].
  unfold MM.expr_brace. cbn [MP.skip length Nat.leb skipn MP.bind].
  destruct name as [|c name'] eqn:En; [congruence|]. rewrite <- En in *.
  assert (Hc : is_name_byte c = true).
  { rewrite En in Hf. cbn [forallb] in Hf. apply andb_true_iff in Hf as [Hc _]. exact Hc. }
  destruct (name_byte_sets c Hc) as (B1 & B2 & B3).
  assert (Hfb : forallb (MP.in_set BS.varbase_spec) name = true).
  { apply forallb_forall. intros b Hb. rewrite forallb_forall in Hf. apply (name_byte_sets b (Hf b Hb)). }
  assert (V : exists v, MM.varname E (name ++ 125 :: y) = MP.Ok (v, 125 :: y)).
  { unfold MM.varname. rewrite En. cbn [app]. rewrite B1.
    unfold MP.skip_byte_opt, MP.skip_byte. rewrite B3.
    change (c :: name' ++ 125 :: y) with ((c :: name') ++ 125 :: y). rewrite <- En.
    unfold MP.loop. rewrite app_length. cbn [length]. rewrite Nat.add_succ_r.
    rewrite (iterate_name E BS.varbase_spec name y _ Hn Hfb eq_refl HE). cbn [MP.bind].
    cbn [N.eqb Pos.eqb].
    destruct (has_prefix _ _).
    - rewrite (iterate_stop E BS.varparam_spec y _ eq_refl HE). cbn [MP.bind]. eauto.
    - eauto. }
  destruct V as (v & V). rewrite V. cbn [MP.bind].
  assert (T : exists t, MM.expr_text E 125 (125 :: y) = MP.Ok (t, 125 :: y)).
  { unfold MM.expr_text, MP.loop. cbn [MP.iterate]. unfold MP.orelse. rewrite HE.
    unfold MP.st_opt, MP.re_text, MP.skip_re_esc. cbn [MP.re_esc_plus N.eqb Pos.eqb orb].
    rewrite Nat.ltb_irrefl. cbn [MP.bind]. eauto. }
  destruct T as (t & T). rewrite T. cbn [MP.bind].
  unfold MM.expr_modifiers. cbn [length Nat.mul Nat.add MM.expr_modifiers_loop MP.skip_byte N.eqb Pos.eqb MP.bind].
  reflexivity.
Qed.

Lemma mkvar_rx_ok w r x : mkvar_rx (36 :: w) = Some r ->
  exists e, 36 :: w = e ++ r /\ e <> [] /\ mk_expr ((36 :: w) ++ x) = Some (e, r ++ x).
Proof.
  unfold mkvar_rx. destruct w as [|b t]; [discriminate|]. rewrite N.eqb_refl. cbn [andb].
  destruct (N.eqb_spec b 123) as [->|]; [|discriminate].
  destruct (span is_name_byte t) as [nm rest] eqn:Es.
  destruct nm as [|c name]; [discriminate|]. destruct rest as [|d r0]; [discriminate|].
  destruct (N.eqb_spec d 125) as [->|]; [|discriminate]. cbn [andb].
  destruct (negb _); [|discriminate]. intro H. injection H as <-.
  pose proof (span_eq _ _ _ _ Es) as Et. pose proof (span_all is_name_byte t) as Ea. rewrite Es in Ea. cbn [fst] in Ea.
  assert (Ee : forall y, 36 :: 123 :: (c :: name) ++ 125 :: y = (36 :: 123 :: (c :: name) ++ [125]) ++ y).
  { intro y. cbn. rewrite <- app_assoc. reflexivity. }
  exists (36 :: 123 :: (c :: name) ++ [125]). rewrite Et, <- Ee. split; [reflexivity|]. split; [discriminate|].
  replace ((36 :: 123 :: (c :: name) ++ 125 :: r0) ++ x) with (36 :: 123 :: (c :: name) ++ 125 :: (r0 ++ x))
    by (cbn; rewrite <- app_assoc; reflexivity).
  unfold mk_expr. rewrite (expr_mkvar (c :: name) (r0 ++ x) ltac:(discriminate) Ea), Ee, LinesLib.firstn_app_len. reflexivity.
Qed.

Lemma mkvar_rx_ulimit r : mkvar_rx (ulimit_cmd ++ r) = None.
Proof. reflexivity. Qed.

Theorem split_tokens_mk (text : str) :
  exists toks rest, split_tokens mk_expr text = Ok (toks, rest) /\ split_result mk_expr text toks rest.
Proof. exact (split_tokens_ok mk_expr mk_expr_contract text). Qed.

Theorem split_simple_words_mk ws : Forall (simple_word mkvar_rx) ws ->
  split_tokens mk_expr (unwords ws) = Ok (ws, []).
Proof. exact (split_simple_words mk_expr mkvar_rx mk_expr_none mkvar_rx_ok mkvar_rx_ulimit ws). Qed.

Theorem split_simple_words_mk_b ws : forallb (simple_word_b mkvar_rx) ws = true ->
  split_tokens mk_expr (unwords ws) = Ok (ws, []).
Proof.
  intro H. apply split_simple_words_mk. apply Forall_forall. intros w Hw.
  apply simple_word_b_sound. rewrite forallb_forall in H. auto.
Qed.
