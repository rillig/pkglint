(* C05: the crash specification is not vacuous -- three other ways of replacing
   a file violate it. *)
From PV Require Import Lib.Bytes Model.FsProto Spec.CrashSpec.
Open Scope N_scope.

Definition crash_atomic_for (mk : path -> str -> list op) : Prop :=
  forall (s : state) (f : path) (new : str) (t : list op),
    lookup (tmp_name f) (st_fs s) = None ->
    crash_of (mk f new) t ->
    atomic_at (st_fs s) [ASave f new] (st_fs (exec t s)).

Definition ex_path : path := [97].                     (* "a" *)
Definition ex_old : str := [111; 108; 100].            (* "old" *)
Definition ex_new : str := [110; 101; 119; 101; 114].  (* "newer" *)
Definition ex_state : state := mkstate [(ex_path, mkfile KReg ex_old 420)] [] 18.

Lemma refute_at (mk : path -> str -> list op) (k : nat) :
  (match lookup ex_path (st_fs (exec (firstn k (mk ex_path ex_new)) ex_state)) with
   | Some f1 => negb (existsb (str_eqb (f_data f1)) [ex_old; ex_new])
   | None => true
   end = true) ->
  ~ crash_atomic_for mk.
Proof.
  intros Hbad H.
  specialize (H ex_state ex_path ex_new (firstn k (mk ex_path ex_new)) eq_refl (crash_prefix _ k)).
  destruct (H ex_path (mkfile KReg ex_old 420) eq_refl) as [f1 [Hl Hin]].
  rewrite Hl in Hbad.
  assert (E : existsb (str_eqb (f_data f1)) [ex_old; ex_new] = true).
  { apply existsb_exists. exists (f_data f1). split.
    - change (In (f_data f1) [ex_old; ex_new]) in Hin. exact Hin.
    - apply str_eqb_refl. }
  rewrite E in Hbad. discriminate.
Qed.

(* truncate and write in place: after the open the file is empty *)
Lemma inplace_refuted : ~ crash_atomic_for inplace_ops.
Proof. apply (refute_at inplace_ops 1). vm_compute. reflexivity. Qed.

(* remove, then rename: between the two the file does not exist *)
Lemma remove_rename_refuted : ~ crash_atomic_for remove_rename_ops.
Proof. apply (refute_at remove_rename_ops 4). vm_compute. reflexivity. Qed.

(* write the temporary file, then copy it back over the original: the copy is not atomic *)
Lemma copyback_refuted : ~ crash_atomic_for copyback_ops.
Proof. apply (refute_at copyback_ops 4). vm_compute. reflexivity. Qed.

Lemma variants_refuted :
  ~ crash_atomic_for inplace_ops /\ ~ crash_atomic_for remove_rename_ops /\ ~ crash_atomic_for copyback_ops.
Proof. split; [exact inplace_refuted | split; [exact remove_rename_refuted | exact copyback_refuted]]. Qed.
