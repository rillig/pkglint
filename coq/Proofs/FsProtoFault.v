(* C05: one failing system call.  The Go-like program `run` (Model/FsProto.v),
   with a fault plan, against the crash specification.

   Unless the plan fires inside it, an action is what prog_ops says (save_done,
   chmod_fix_cases); a save in which it fires changes no entry at all (failed_save). *)
From PV Require Import Lib.Bytes Model.FsProto Spec.CrashSpec Proofs.FsProto.
Open Scope N_scope.

Definition hits (plan : option (nat * fault)) (c : nat) : option fault :=
  match plan with
  | Some (k, fl) => if Nat.eqb k c then Some fl else None
  | None => None
  end.

Lemma hits_some plan c fl : hits plan c = Some fl -> plan = Some (c, fl).
Proof.
  unfold hits. destruct plan as [[k fl']|]; [|discriminate].
  destruct (Nat.eqb k c) eqn:E; [|discriminate].
  apply Nat.eqb_eq in E. intro H. inversion H. subst. reflexivity.
Qed.

Lemma hits_none k fl c : hits (Some (k, fl)) c = None -> k <> c.
Proof. unfold hits. destruct (Nat.eqb k c) eqn:E; [discriminate|]. intros _. apply Nat.eqb_neq. exact E. Qed.

Lemma hits_past k fl c : (k < c)%nat -> hits (Some (k, fl)) c = None.
Proof. intro H. unfold hits. rewrite (proj2 (Nat.eqb_neq _ _)) by lia. reflexivity. Qed.

Fixpoint results (ops : list op) (s : state) : list (op * option errno) :=
  match ops with
  | [] => []
  | o :: ops' => (o, snd (step s o)) :: results ops' (fst (step s o))
  end.

Lemma results_fst ops : forall s, map fst (results ops s) = ops.
Proof. induction ops as [|o ops IH]; intro s; cbn [results map fst]; [|rewrite IH]; reflexivity. Qed.

Lemma results_app a b : forall s, results (a ++ b) s = results a s ++ results b (exec a s).
Proof. induction a as [|o a IH]; intro s; cbn [results app]; [|rewrite IH]; reflexivity. Qed.

Definition performed (ops : list op) (w : world) : world :=
  mkworld (exec ops (w_st w)) (length ops + w_count w) (w_plan w)
          (w_trace w ++ results ops (w_st w)) (w_stderr w) (w_saved w).

Definition faulted (o : op) (fl : fault) (w : world) : world :=
  mkworld (step_fault (w_st w) o fl) (S (w_count w)) (w_plan w)
          (w_trace w ++ [(o, Some (fl_errno fl))]) (w_stderr w) (w_saved w).

Lemma performed_app a b w : performed b (performed a w) = performed (a ++ b) w.
Proof.
  unfold performed. cbn [w_st w_count w_plan w_trace w_stderr w_saved].
  rewrite exec_app, results_app, app_length, app_assoc. f_equal. lia.
Qed.

Lemma sys_unfold o w :
  sys o w = match hits (w_plan w) (w_count w) with
            | Some fl => (faulted o fl w, Some (fl_errno fl))
            | None => (performed [o] w, snd (step (w_st w) o))
            end.
Proof.
  unfold sys, performed, exec. cbn [fold_left results length].
  fold (hits (w_plan w) (w_count w)). destruct (hits (w_plan w) (w_count w)); [reflexivity|].
  destruct (step (w_st w) o). reflexivity.
Qed.

Definition quiet (plan : option (nat * fault)) (c n : nat) : Prop :=
  match plan with Some (k, _) => (k < c \/ n + c <= k)%nat | None => True end.

Definition spent (w : world) : Prop :=
  match w_plan w with Some (k, _) => (k < w_count w)%nat | None => True end.

Definition fired_in (w w' : world) : Prop :=
  exists k fl, w_plan w = Some (k, fl) /\ (w_count w <= k < w_count w')%nat.

Lemma spent_quiet w n : spent w -> quiet (w_plan w) (w_count w) n.
Proof. unfold spent, quiet. destruct (w_plan w) as [[k fl]|]; [lia|trivial]. Qed.

Lemma quiet_0 plan c : quiet plan c 0.
Proof. unfold quiet. destruct plan as [[k fl]|]; [lia|exact I]. Qed.

Lemma quiet_S plan c n : quiet plan c n -> hits plan (n + c) = None -> quiet plan c (S n).
Proof.
  unfold quiet. destruct plan as [[k fl]|]; [|trivial]. intros Q F. apply hits_none in F. lia.
Qed.

Lemma quiet_not_fired w w' n :
  quiet (w_plan w) (w_count w) n -> w_count w' = (n + w_count w)%nat -> ~ fired_in w w'.
Proof. unfold quiet. intros Q E (k & fl & Hp & Hk). rewrite Hp in Q. lia. Qed.

Definition save_done (f : path) (new : str) (w : world) : world :=
  let ops := save_ops (w_st w) f new in
  mkworld (exec ops (w_st w)) (length ops + w_count w) (w_plan w) (w_trace w ++ results ops (w_st w))
          (w_stderr w ++ (if save_succeeds (w_st w) f then [] else [(CannotWrite, tmp_name f)]))
          (save_succeeds (w_st w) f).

(* fa_same: the temporary file, if it got created, is removed again *)
Record failed_save (f : path) (new : str) (w w' : world) : Prop := {
  fa_same : forall p, lookup p (st_fs (w_st w')) = lookup p (st_fs (w_st w));
  fa_err : exists kind, w_stderr w' = w_stderr w ++ [(kind, tmp_name f)];
  fa_plan : w_plan w' = w_plan w;
  (* the call that fails is one of those of save_ops *)
  fa_fired : exists k fl, w_plan w = Some (k, fl) /\ (w_count w <= k < w_count w')%nat /\
                          (k < length (save_ops (w_st w) f new) + w_count w)%nat
}.

(* the components of a world built from these compute *)
Ltac wproj :=
  cbn [performed faulted tech_error set_saved exec fold_left length
       w_st w_count w_plan w_trace w_stderr w_saved].

(* the error path, TechErrorf and os.Remove(tmpName), from the world w4 in which the plan
   has fired at call k and the temporary file is closed *)
Lemma save_fails f new kind w w4 k fl d m :
  lookup (tmp_name f) (st_fs (w_st w)) = None -> closed (w_st w) (w_st w4) (tmp_name f) d m ->
  w_plan w = Some (k, fl) -> w_plan w4 = w_plan w -> w_stderr w4 = w_stderr w ->
  (w_count w <= k < w_count w4)%nat -> (k < length (save_ops (w_st w) f new) + w_count w)%nat ->
  failed_save f new w (fst (sys (Unlink (tmp_name f)) (tech_error kind (tmp_name f) w4))).
Proof.
  intros Hfree C Hp Hp4 He4 Hk Hlen.
  destruct (step_unlink_tmp _ _ _ _ (cl_only C) (cl_tmp C)) as (R & Ho & Ht).
  rewrite sys_unfold. wproj. rewrite Hp4, Hp, (hits_past k fl _ (proj2 Hk)). cbn [fst].
  constructor; wproj.
  - intro p. destruct (path_dec p (tmp_name f)) as [->|Hne]; [congruence|apply Ho; exact Hne].
  - exists kind. rewrite He4. reflexivity.
  - congruence.
  - exists k, fl. split; [exact Hp|lia].
Qed.

Lemma save_ops_pos s f new : (1 <= length (save_ops s f new))%nat.
Proof. unfold save_ops. destruct (lookup (tmp_name f) (st_fs s)); cbn [length app]; lia. Qed.

Lemma save_rename f new w pre m :
  lookup (tmp_name f) (st_fs (w_st w)) = None ->
  save_ops (w_st w) f new = pre ++ [Rename (tmp_name f) f] ->
  closed (w_st w) (exec pre (w_st w)) (tmp_name f) new m ->
  quiet (w_plan w) (w_count w) (length pre) ->
  let w' := match sys (Rename (tmp_name f) f) (performed pre (set_saved false w)) with
            | (w5, Some _) => fst (sys (Unlink (tmp_name f)) (tech_error CannotOverwrite (tmp_name f) w5))
            | (w5, None) => set_saved true w5
            end in
  (quiet (w_plan w) (w_count w) (length (save_ops (w_st w) f new)) /\ w' = save_done f new w) \/
  failed_save f new w w'.
Proof.
  intros Hfree Hops C Q w'. subst w'.
  destruct (step_rename_tmp _ _ _ f _ _ C (tmp_name_neq f)) as [R _].
  rewrite sys_unfold. cbn [performed set_saved w_st w_count w_plan]. rewrite R.
  destruct (hits (w_plan w) (length pre + w_count w)) as [fl|] eqn:F.
  - right. apply hits_some in F. eapply save_fails; [exact Hfree|exact C|exact F|reflexivity|reflexivity|wproj; lia|].
    rewrite Hops, app_length. cbn [length]. lia.
  - left. rewrite Hops, app_length, Nat.add_1_r. split; [apply (quiet_S _ _ _ Q F)|].
    rewrite performed_app, <- Hops. unfold save_done, save_succeeds. rewrite Hfree, app_nil_r. reflexivity.
Qed.

Lemma save_one_cases f new w :
  (quiet (w_plan w) (w_count w) (length (save_ops (w_st w) f new)) /\ save_one f new w = save_done f new w) \/
  failed_save f new w (save_one f new w).
Proof.
  unfold save_one. set (tmp := tmp_name f).
  (* the exclusive open *)
  rewrite sys_unfold. wproj. destruct (hits (w_plan w) (w_count w)) as [fl|] eqn:F0.
  { right. apply hits_some in F0. constructor; [reflexivity|eexists; reflexivity|reflexivity|].
    exists (w_count w), fl. pose proof (save_ops_pos (w_st w) f new). wproj. split; [exact F0|lia]. }
  pose proof (quiet_S _ _ 0 (quiet_0 _ _) F0) as Q1.
  destruct (lookup tmp (st_fs (w_st w))) as [f0|] eqn:Etmp.
  { (* the name is taken: EEXIST *)
    left. unfold save_done, save_ops, save_succeeds. fold tmp. rewrite Etmp. split; [exact Q1|].
    rewrite (step_openexcl_taken _ tmp f0 Etmp). reflexivity. }
  pose proof (save_ops_free _ f new Etmp) as Eops. fold tmp in Eops.
  assert (Hlen : (4 <= length (save_ops (w_st w) f new))%nat) by (rewrite Eops, !app_length; cbn [length]; lia).
  destruct (step_openexcl_free _ tmp Etmp) as [R1 W1]. rewrite R1.
  (* write *)
  destruct (step_write _ _ tmp [] _ new W1) as [R2 W2]. cbn [app] in W2.
  rewrite sys_unfold. wproj. rewrite R2. destruct (hits (w_plan w) (1 + w_count w)) as [fl|] eqn:F1.
  { right. apply hits_some in F1.
    destruct (step_write _ _ tmp [] _ (firstn (fl_short fl) new) W1) as [_ W2'].
    destruct (step_close _ _ tmp _ _ W2') as [R3 C3].
    rewrite sys_unfold. wproj. cbn [step_fault]. rewrite R3, F1, (hits_past _ fl _ (Nat.lt_succ_diag_r _)).
    eapply save_fails; [exact Etmp|exact C3|exact F1|reflexivity|reflexivity|wproj; lia|lia]. }
  pose proof (quiet_S _ _ 1 Q1 F1) as Q2.
  (* close *)
  destruct (step_close _ _ tmp _ _ W2) as [R3 C3].
  rewrite sys_unfold. wproj. rewrite R3. destruct (hits (w_plan w) (1 + (1 + w_count w))) as [fl|] eqn:F2.
  { right. apply hits_some in F2.
    eapply save_fails; [exact Etmp|exact C3|exact F2|reflexivity|reflexivity|wproj; lia|lia]. }
  pose proof (quiet_S _ _ 2 Q2 F2) as Q3.
  (* Stat, Chmod, Rename *)
  wproj. rewrite (cl_only C3 f) by (intro E; apply (tmp_name_neq f); symmetry; exact E).
  rewrite !performed_app. cbn [app].
  destruct (lookup f (st_fs (w_st w))) as [old|] eqn:Eold.
  - (* the original exists: its mode goes to the temporary file *)
    destruct (step_chmod_tmp _ _ tmp _ _ (f_mode old) C3) as [R4 C4].
    rewrite sys_unfold. wproj. rewrite R4. destruct (hits (w_plan w) (3 + w_count w)) as [fl|] eqn:F3.
    { right. apply hits_some in F3.
      eapply save_fails; [exact Etmp|exact C3|exact F3|reflexivity|reflexivity|wproj; lia|lia]. }
    rewrite performed_app.
    eapply save_rename; [exact Etmp|exact Eops|exact C4|exact (quiet_S _ _ 3 Q3 F3)].
  - (* no original (Stat fails): no chmod *)
    eapply save_rename; [exact Etmp|exact Eops|exact C3|exact Q3].
Qed.

Lemma save_one_quiet f new w :
  quiet (w_plan w) (w_count w) (length (save_ops (w_st w) f new)) -> save_one f new w = save_done f new w.
Proof.
  intro Q. destruct (save_one_cases f new w) as [[_ E]|F]; [exact E|].
  destruct (fa_fired _ _ _ _ F) as (k & fl & Hp & Hk). unfold quiet in Q. rewrite Hp in Q. lia.
Qed.

Lemma save_one_st f new w :
  w_st (save_one f new w) = exec (save_ops (w_st w) f new) (w_st w) \/
  forall p, lookup p (st_fs (w_st (save_one f new w))) = lookup p (st_fs (w_st w)).
Proof.
  destruct (save_one_cases f new w) as [[_ ->]|F]; [left; reflexivity|right; apply (fa_same _ _ _ _ F)].
Qed.

Lemma chmod_fix_cases f mode w :
  let o := Chmod f (N.ldiff mode 73) in
  chmod_fix f mode w =
  match hits (w_plan w) (w_count w) with
  | Some fl => tech_error CannotClearExec f (faulted o fl w)
  | None => match snd (step (w_st w) o) with
            | Some _ => tech_error CannotClearExec f (performed [o] w)
            | None => performed [o] w
            end
  end.
Proof. unfold chmod_fix. rewrite sys_unfold. destruct (hits (w_plan w) (w_count w)); reflexivity. Qed.

Lemma chmod_fix_st f mode w :
  w_st (chmod_fix f mode w) = fst (step (w_st w) (Chmod f (N.ldiff mode 73))) \/
  w_st (chmod_fix f mode w) = w_st w.
Proof.
  rewrite chmod_fix_cases. cbv zeta. destruct (hits (w_plan w) (w_count w)); [right; reflexivity|left].
  destruct (snd (step (w_st w) (Chmod f (N.ldiff mode 73)))); reflexivity.
Qed.

Record progress (w w' : world) : Prop := {
  pr_plan : w_plan w' = w_plan w;
  pr_count : (w_count w <= w_count w')%nat;
  pr_err : exists extra, w_stderr w' = w_stderr w ++ extra /\ (fired_in w w' -> extra <> [])
}.

Lemma progress_refl w : progress w w.
Proof.
  constructor; [reflexivity|lia|]. exists []. split; [symmetry; apply app_nil_r|].
  intros (k & fl & _ & Hk). lia.
Qed.

Lemma progress_trans w1 w2 w3 : progress w1 w2 -> progress w2 w3 -> progress w1 w3.
Proof.
  intros [P1 C1 (e1 & E1 & F1)] [P2 C2 (e2 & E2 & F2)].
  constructor; [congruence|lia|]. exists (e1 ++ e2). split; [rewrite E2, E1; symmetry; apply app_assoc|].
  intros (k & fl & Hp & Hk) H. apply app_eq_nil in H. destruct H as [-> ->].
  destruct (Nat.lt_ge_cases k (w_count w2)).
  - apply F1; [exists k, fl; split; [exact Hp|lia]|reflexivity].
  - apply F2; [exists k, fl; split; [congruence|lia]|reflexivity].
Qed.

Definition harmless (w w' : world) : Prop :=
  fired_in w w' -> forall p, lookup p (st_fs (w_st w')) = lookup p (st_fs (w_st w)).

Lemma quiet_sum w w' n extra :
  quiet (w_plan w) (w_count w) n -> w_plan w' = w_plan w -> w_count w' = (n + w_count w)%nat ->
  w_stderr w' = w_stderr w ++ extra -> progress w w' /\ harmless w w'.
Proof.
  intros Q Hp Hc He. pose proof (quiet_not_fired w w' n Q Hc) as N.
  split; [|intro H; destruct (N H)]. constructor; [exact Hp|lia|].
  exists extra. split; [exact He|intro H; destruct (N H)].
Qed.

Lemma save_sum f new w : progress w (save_one f new w) /\ harmless w (save_one f new w).
Proof.
  destruct (save_one_cases f new w) as [[Q ->]|[Hs (kind & He) Hp (k & fl & Hk)]].
  - eapply (quiet_sum _ _ _ _ Q); reflexivity.
  - split; [|intros _; exact Hs].
    constructor; [exact Hp|lia|]. eexists. split; [exact He|discriminate].
Qed.

Lemma chmod_sum f mode w : progress w (chmod_fix f mode w) /\ harmless w (chmod_fix f mode w).
Proof.
  rewrite chmod_fix_cases. cbv zeta. destruct (hits (w_plan w) (w_count w)) as [fl|] eqn:F.
  - split; [constructor|intros _ p; reflexivity]; wproj; [reflexivity|lia|].
    eexists. split; [reflexivity|discriminate].
  - pose proof (quiet_S _ _ 0 (quiet_0 _ _) F) as Q.
    destruct (snd (step (w_st w) (Chmod f (N.ldiff mode 73))));
      [apply (quiet_sum _ _ 1 [(CannotClearExec, f)] Q)|apply (quiet_sum _ _ 1 [] Q)]; try reflexivity.
    symmetry. apply app_nil_r.
Qed.

Lemma run_action_sum a w : progress w (run_action w a) /\ harmless w (run_action w a).
Proof.
  destruct a as [f new|f m|b f new]; cbn [run_action].
  - apply save_sum.
  - apply chmod_sum.
  - destruct (Bool.eqb (w_saved w) b); [apply save_sum|].
    split; [apply progress_refl|intros _ p; reflexivity].
Qed.

Lemma same_ok_on prog s s' : (forall p, lookup p (st_fs s') = lookup p (st_fs s)) -> ok_on prog s s'.
Proof. intros H p _. unfold content. rewrite H. apply ok_rel_refl. Qed.

Lemma run_action_ok a w : ok_on [a] (w_st w) (w_st (run_action w a)).
Proof.
  assert (Hs : forall f new b, ok_on [ASave f new] (w_st w) (w_st (save_one f new w)) /\
                               ok_on [AIfSaved b f new] (w_st w) (w_st (save_one f new w))).
  { intros f new b. destruct (save_one_st f new w) as [->|H].
    - apply save_crash_ok, crash_of_full.
    - split; apply same_ok_on, H. }
  destruct a as [f new|f m|b f new]; cbn [run_action].
  - apply (Hs f new true).
  - destruct (chmod_fix_st f m w) as [->| ->]; [|apply ok_on_composes].
    intros p _. rewrite content_step_chmod. apply ok_rel_refl.
  - destruct (Bool.eqb (w_saved w) b); [apply (Hs f new b)|apply ok_on_composes].
Qed.

Lemma run_cons a prog w : run (a :: prog) w = run prog (run_action w a).
Proof. reflexivity. Qed.

Lemma run_app p1 p2 w : run (p1 ++ p2) w = run p2 (run p1 w).
Proof. unfold run. apply fold_left_app. Qed.

Lemma run_ind (R : list action -> state -> state -> Prop) :
  composes R -> (forall a w, R [a] (w_st w) (w_st (run_action w a))) ->
  forall prog w, R prog (w_st w) (w_st (run prog w)).
Proof.
  intros [Hrefl Htrans] Ha. induction prog as [|a prog IH]; intro w; [apply Hrefl|].
  rewrite run_cons. apply (Htrans _ _ _ _ _ (Ha a w)), IH.
Qed.

Lemma run_progress prog : forall w, progress w (run prog w).
Proof.
  induction prog as [|a prog IH]; intro w; [apply progress_refl|].
  rewrite run_cons. apply (progress_trans _ _ _ (proj1 (run_action_sum a w))), IH.
Qed.

(* after the plan has fired, the rest runs as without a plan *)
Definition clear_plan (w : world) : world :=
  mkworld (w_st w) (w_count w) None (w_trace w) (w_stderr w) (w_saved w).

Lemma hits_spent w : spent w -> hits (w_plan w) (w_count w) = None.
Proof. unfold spent. destruct (w_plan w) as [[k fl]|]; [apply hits_past|reflexivity]. Qed.

Lemma spent_progress w w' : progress w w' -> spent w -> spent w'.
Proof. unfold spent. intros [-> C _]. destruct (w_plan w) as [[k fl]|]; [lia|trivial]. Qed.

Lemma run_action_clear a w : spent w -> run_action (clear_plan w) a = clear_plan (run_action w a).
Proof.
  intro H.
  assert (Hs : forall f new, save_one f new (clear_plan w) = clear_plan (save_one f new w)).
  { intros f new. rewrite (save_one_quiet f new w (spent_quiet w _ H)). apply (save_one_quiet f new (clear_plan w) I). }
  destruct a as [f new|f m|b f new]; cbn [run_action].
  - apply Hs.
  - rewrite !chmod_fix_cases, (hits_spent w H). cbv zeta.
    change (w_st (clear_plan w)) with (w_st w). destruct (snd (step (w_st w) (Chmod f (N.ldiff m 73)))); reflexivity.
  - change (w_saved (clear_plan w)) with (w_saved w). destruct (Bool.eqb (w_saved w) b); [apply Hs|reflexivity].
Qed.

Lemma run_clear prog : forall w, spent w -> run prog (clear_plan w) = clear_plan (run prog w).
Proof.
  induction prog as [|a prog IH]; intros w H; [reflexivity|].
  rewrite !run_cons, (run_action_clear a w H). apply IH, (spent_progress w _ (proj1 (run_action_sum a w)) H).
Qed.

(* (1) old-or-new for every original file, whatever single system call fails and
   whatever it leaves behind; (2) if a call did fail, stderr has an ERROR line.
   No guard: an existing file is never the temporary file of a save. *)
Theorem fault_atomic : forall (s : state) (prog : list action) (k : nat) (fl : fault),
  let w := run prog (init_world s (Some (k, fl))) in
  atomic_at (st_fs s) prog (st_fs (w_st w)) /\
  ((k < w_count w)%nat -> w_stderr w <> []).
Proof.
  intros s prog k fl w. split.
  - apply ok_on_atomic, (run_ind ok_on ok_on_composes run_action_ok prog (init_world s _)).
  - destruct (pr_err _ _ (run_progress prog (init_world s (Some (k, fl))))) as (extra & He & Hf).
    intro Hk. fold w in He, Hf. rewrite He. apply Hf. exists k, fl. split; [reflexivity|].
    cbn [init_world w_count]. lia.
Qed.

(* (3) the action during which the call fails leaves every original file as it
   was before that action, and (4) everything after it runs exactly as it would
   without any fault plan: later files are still processed *)
Theorem fault_local : forall (s : state) (pre post : list action) (a : action) (k : nat) (fl : fault),
  let w1 := run pre (init_world s (Some (k, fl))) in
  let w2 := run_action w1 a in
  (w_count w1 <= k < w_count w2)%nat ->
  (forall p, orig (st_fs s) p -> content (st_fs (w_st w2)) p = content (st_fs (w_st w1)) p) /\
  clear_plan (run (pre ++ a :: post) (init_world s (Some (k, fl)))) = run post (clear_plan w2).
Proof.
  intros s pre post a k fl w1 w2 Hk.
  pose proof (pr_plan _ _ (run_progress pre (init_world s (Some (k, fl))))) as Hp1.
  fold w1 in Hp1. cbn [init_world w_plan] in Hp1.
  destruct (run_action_sum a w1) as [P H]. fold w2 in P, H. split.
  - intros p _. unfold content. rewrite H; [reflexivity|]. exists k, fl. split; assumption.
  - rewrite run_app, run_cons. fold w1. fold w2. symmetry. apply run_clear.
    unfold spent. rewrite (pr_plan _ _ P), Hp1. lia.
Qed.

(* (5) a failed save leaves nothing stale: if the temporary name was free before the
   action in which the call fails, it is free again after it *)
Theorem failed_save_no_leftover : forall (f : path) (new : str) (w : world),
  lookup (tmp_name f) (st_fs (w_st w)) = None ->
  lookup (tmp_name f) (st_fs (w_st (save_one f new w))) = None.
Proof.
  intros f new w Hfree. destruct (save_one_st f new w) as [->|H]; [|rewrite H; exact Hfree].
  apply (exec_save_all _ f new Hfree).
Qed.

Lemma run_nofault prog : forall w, spent w ->
  let ops := prog_ops_from (w_saved w) (w_st w) prog in
  w_st (run prog w) = exec ops (w_st w) /\ map fst (w_trace (run prog w)) = map fst (w_trace w) ++ ops.
Proof.
  induction prog as [|a prog IH]; intros w H; cbv zeta.
  { cbn. rewrite app_nil_r. auto. }
  rewrite run_cons. pose proof (spent_progress w _ (proj1 (run_action_sum a w)) H) as H1.
  (* the action issues aops and leads to w1; the rest follows by induction *)
  assert (Hgo : forall w1 aops, spent w1 -> w_st w1 = exec aops (w_st w) ->
            map fst (w_trace w1) = map fst (w_trace w) ++ aops ->
            let ops := aops ++ prog_ops_from (w_saved w1) (w_st w1) prog in
            w_st (run prog w1) = exec ops (w_st w) /\ map fst (w_trace (run prog w1)) = map fst (w_trace w) ++ ops).
  { intros w1 aops S1 Hs Ht. destruct (IH w1 S1) as [I1 I2]. cbv zeta. rewrite I1, I2, Hs, Ht, exec_app, <- app_assoc. auto. }
  destruct a as [f new|f m|b f new]; cbn [run_action prog_ops_from] in *.
  - rewrite (save_one_quiet f new w (spent_quiet w _ H)) in *.
    apply (Hgo _ (save_ops (w_st w) f new) H1 eq_refl). cbn [save_done w_trace]. rewrite map_app, results_fst. reflexivity.
  - rewrite chmod_fix_cases, (hits_spent w H) in *. cbv zeta in *.
    destruct (snd (step (w_st w) (Chmod f (N.ldiff m 73))));
      apply (Hgo _ [Chmod f (N.ldiff m 73)] H1 eq_refl); wproj; rewrite map_app; reflexivity.
  - destruct (Bool.eqb (w_saved w) b); [|apply IH, H].
    rewrite (save_one_quiet f new w (spent_quiet w _ H)) in *.
    apply (Hgo _ (save_ops (w_st w) f new) H1 eq_refl). cbn [save_done w_trace]. rewrite map_app, results_fst. reflexivity.
Qed.

Theorem run_is_prog_ops : forall (s : state) (prog : list action),
  let w := run prog (init_world s None) in
  w_st w = exec (prog_ops s prog) s /\ map fst (w_trace w) = prog_ops s prog.
Proof. intros s prog. apply (run_nofault prog (init_world s None) I). Qed.
