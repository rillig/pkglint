(* The specification's syntax trees are sentences of shell.y: for every tree
   whose words are well classified (in particular no empty simple command), the
   terminal string it is meant to be is derivable from the corresponding
   nonterminal. *)
From Coq Require Import NArith List Bool Lia.
From PV Require Import Lib.Bytes Gen.ShellGrammar Model.ShellLex Spec.PosixSh.
Import ListNotations.

Definition tm (l : list ptok) : list term := flat_map ptok_terms l.

Lemma tm_app a b : tm (a ++ b) = tm a ++ tm b.
Proof. apply flat_map_app. Qed.

(* One-line programs have no newlines: every linebreak of shell.y is empty. *)
Definition lb := D_linebreak_2.

Lemma D_and w1 w4 : derives nt_and_or w1 -> derives nt_pipeline w4 -> derives nt_and_or (w1 ++ tkAND :: w4).
Proof. intros H1 H2. exact (D_and_or_2 w1 [] w4 H1 lb H2). Qed.
Lemma D_or w1 w4 : derives nt_and_or w1 -> derives nt_pipeline w4 -> derives nt_and_or (w1 ++ tkOR :: w4).
Proof. intros H1 H2. exact (D_and_or_3 w1 [] w4 H1 lb H2). Qed.
Lemma D_pipe w1 w4 : derives nt_pipe_sequence w1 -> derives nt_command w4 -> derives nt_pipe_sequence (w1 ++ tkPIPE :: w4).
Proof. intros H1 H2. exact (D_pipe_sequence_2 w1 [] w4 H1 lb H2). Qed.

Definition sep_term (s : sep) : term := match s with SepSemi => tkSEMI | SepAmp => tkBACKGROUND end.
Lemma D_sepop s : derives nt_separator_op [sep_term s].
Proof. destruct s; constructor. Qed.
Lemma D_separator s : derives nt_separator [sep_term s].
Proof. exact (D_separator_1 [sep_term s] [] (D_sepop s) lb). Qed.

Lemma D_term_seq w1 s w3 : derives nt_term w1 -> derives nt_and_or w3 -> derives nt_term (w1 ++ sep_term s :: w3).
Proof. intros H1 H3. exact (D_term_2 w1 [sep_term s] w3 H1 (D_separator s) H3). Qed.

(* for the left-recursive nonterminals  n : x | n x *)
Lemma D_extend {A} n (one : A -> list ptok) (pr : list A -> list ptok) :
  pr [] = [] -> (forall x xs, pr (x :: xs) = one x ++ pr xs) ->
  (forall w x, derives n w -> derives n (w ++ tm (one x))) ->
  forall xs w, derives n w -> derives n (w ++ tm (pr xs)).
Proof.
  intros Hnil Hcons Hstep. induction xs as [| x xs IH]; intros w Hw.
  - rewrite Hnil. cbn. rewrite app_nil_r. exact Hw.
  - rewrite Hcons, tm_app, app_assoc. auto.
Qed.

Lemma D_words w ws : derives nt_wordlist (tm (print_words (w :: ws))).
Proof.
  exact (D_extend nt_wordlist (fun w => [P1 w tkWORD]) print_words eq_refl (fun _ _ => eq_refl)
           (fun w _ => D_wordlist_2 w) ws [tkWORD] D_wordlist_1).
Qed.

Lemma D_assigns v vs : derives nt_cmd_prefix (tm (map (fun w => P1 w tkASSIGNMENT_WORD) (v :: vs))).
Proof.
  exact (D_extend nt_cmd_prefix (fun w => [P1 w tkASSIGNMENT_WORD]) (map (fun w => P1 w tkASSIGNMENT_WORD))
           eq_refl (fun _ _ => eq_refl) (fun w _ => D_cmd_prefix_4 w) vs [tkASSIGNMENT_WORD] D_cmd_prefix_2).
Qed.

Lemma D_pattern ps : forall w, derives nt_pattern w -> derives nt_pattern (w ++ tm (print_pats ps)).
Proof.
  exact (D_extend nt_pattern (fun p => [kw s_pipe tkPIPE; P1 p tkWORD]) print_pats eq_refl
           (fun _ _ => eq_refl) (fun w _ => D_pattern_2 w) ps).
Qed.

Lemma tm_pats ps : forall w, w ++ tm (print_pats ps) = w ++ tm (print_pats ps).
Proof. reflexivity. Qed.

Lemma D_redir r : derives nt_io_redirect (tm (print_redir r)).
Proof.
  destruct r as [fd o t]. unfold print_redir, tm. cbn [r_fd r_op r_target].
  destruct fd as [ds |]; destruct o; cbn [flat_map ptok_terms kw app rop_term];
    first
      [ apply D_io_redirect_1; constructor; constructor
      | apply D_io_redirect_2; constructor; constructor
      | apply D_io_redirect_3; constructor; constructor
      | apply D_io_redirect_4; constructor; constructor ].
Qed.

Lemma tm_redirs_cons r rs : tm (print_redirs (r :: rs)) = tm (print_redir r) ++ tm (print_redirs rs).
Proof. unfold print_redirs. cbn [flat_map]. apply tm_app. Qed.

Lemma D_redirs r rs : derives nt_redirect_list (tm (print_redirs (r :: rs))).
Proof.
  rewrite tm_redirs_cons.
  exact (D_extend nt_redirect_list print_redir print_redirs eq_refl (fun _ _ => eq_refl)
           (fun w r Hw => D_redirect_list_2 w _ Hw (D_redir r)) rs _ (D_redirect_list_1 _ (D_redir r))).
Qed.

(* n is compound_command or function_definition *)
Lemma D_redirected n w rs :
  (forall w, derives n w -> derives nt_command w) ->
  (forall w w', derives n w -> derives nt_redirect_list w' -> derives nt_command (w ++ w')) ->
  derives n w -> derives nt_command (w ++ tm (print_redirs rs)).
Proof.
  intros H0 H1 Hw. destruct rs as [| r rs].
  - rewrite app_nil_r. exact (H0 w Hw).
  - exact (H1 w _ Hw (D_redirs r rs)).
Qed.

Definition tm_items (items : list sitem) : list term := tm (flat_map print_sitem items).

Lemma tm_items_cons i items : tm_items (i :: items) = tm (print_sitem i) ++ tm_items items.
Proof. unfold tm_items. cbn [flat_map]. apply tm_app. Qed.

Lemma D_suffix x items : derives nt_cmd_suffix (tm_items (x :: items)).
Proof.
  rewrite tm_items_cons. apply (D_extend nt_cmd_suffix print_sitem (flat_map print_sitem) eq_refl (fun _ _ => eq_refl)).
  - intros w [v | r] Hw; [exact (D_cmd_suffix_4 w Hw) | exact (D_cmd_suffix_3 w _ Hw (D_redir r))].
  - destruct x as [v | r]; [exact D_cmd_suffix_2 | exact (D_cmd_suffix_1 _ (D_redir r))].
Qed.

Lemma D_simple_word wp items :
  wp = [] \/ derives nt_cmd_prefix wp -> derives nt_simple_command (wp ++ tkWORD :: tm_items items).
Proof.
  intros [-> | Hp]; destruct items as [| y items]; cbn [app].
  - exact D_simple_command_5.
  - exact (D_simple_command_4 _ (D_suffix y items)).
  - exact (D_simple_command_2 wp _ Hp D_cmd_word_1).
  - exact (D_simple_command_1 wp _ _ Hp D_cmd_word_1 (D_suffix y items)).
Qed.

(* redirections before the command word extend the prefix *)
Lemma D_simple_items items : forall wp,
  match items with [] => derives nt_cmd_prefix wp | _ => wp = [] \/ derives nt_cmd_prefix wp end ->
  derives nt_simple_command (wp ++ tm_items items).
Proof.
  induction items as [| [v | r] items IH]; intros wp Hp.
  - cbn. rewrite app_nil_r. exact (D_simple_command_3 wp Hp).
  - exact (D_simple_word wp items Hp).
  - rewrite tm_items_cons, app_assoc. apply IH.
    assert (H : derives nt_cmd_prefix (wp ++ tm (print_redir r))).
    { destruct Hp as [-> | Hp]; [exact (D_cmd_prefix_1 _ (D_redir r)) | exact (D_cmd_prefix_3 wp _ Hp (D_redir r))]. }
    destruct items; auto.
Qed.

Lemma D_simple assigns items :
  match assigns, items with [], [] => False | _, _ => True end ->
  derives nt_simple_command (tm (print_cmd (CSimple assigns items))).
Proof.
  intro Hne. cbn [print_cmd]. rewrite tm_app. apply D_simple_items. destruct assigns as [| v vs].
  - destruct items; [contradiction | left; reflexivity].
  - pose proof (D_assigns v vs). destruct items; auto.
Qed.

(* [autorewrite with tm] brings [tm] of a printed construct into the shape of the
   yields in Gen/ShellGrammar.v: terminals consed on, [tm] only around subtrees,
   [++] nested to the right. *)
Lemma tm_nil : tm [] = [].
Proof. reflexivity. Qed.
Lemma tm_P1 t x l : tm (P1 t x :: l) = x :: tm l.
Proof. reflexivity. Qed.
Lemma tm_kw s x l : tm (kw s x :: l) = x :: tm l.
Proof. reflexivity. Qed.
Lemma tm_sep s l : tm (print_sep s :: l) = sep_term s :: tm l.
Proof. destruct s; reflexivity. Qed.
Global Hint Rewrite tm_app tm_nil tm_P1 tm_kw tm_sep : tm.
Global Hint Rewrite <- app_assoc app_comm_cons : tm.

Lemma D_selector lp p ps : derives nt_case_selector (tm (print_selector lp p ps)).
Proof.
  assert (Hp : derives nt_pattern (tkWORD :: tm (print_pats ps)))
    by apply (D_pattern ps [tkWORD]), D_pattern_1.
  unfold print_selector. destruct lp; cbn [print_lp app]; autorewrite with tm.
  - apply (D_case_selector_1 _ Hp).
  - apply (D_case_selector_2 _ Hp).
Qed.

Scheme cmd_mut := Induction for cmd Sort Prop
  with compound_mut := Induction for compound Sort Prop
  with elsepart_mut := Induction for elsepart Sort Prop
  with caseitems_mut := Induction for caseitems Sort Prop
  with cbody_mut := Induction for cbody Sort Prop
  with pipe_mut := Induction for pipe Sort Prop
  with andor_mut := Induction for andor Sort Prop
  with seq_mut := Induction for seq Sort Prop
  with clist_mut := Induction for clist Sort Prop.
Combined Scheme posix_mutind from cmd_mut, compound_mut, elsepart_mut, caseitems_mut, cbody_mut,
  pipe_mut, andor_mut, seq_mut, clist_mut.

Definition seq_of (l : clist) : seq := match l with CL q _ => q end.

Lemma D_clist_of_term l :
  derives nt_term (tm (print_seq (seq_of l))) -> derives nt_compound_list (tm (print_clist l)).
Proof.
  destruct l as [q [s |]]; cbn [seq_of print_clist]; intro H.
  - autorewrite with tm. exact (D_compound_list_2 [] _ _ lb H (D_separator s)).
  - exact (D_compound_list_1 [] _ lb H).
Qed.

Lemma D_pipeline bang w : derives nt_pipe_sequence w -> derives nt_pipeline (tm (print_bang bang) ++ w).
Proof.
  intro H. destruct bang.
  - apply D_pipeline_2. exact H.
  - apply D_pipeline_1. exact H.
Qed.

(* the body of a case item: its list without the final separator, which belongs
   to case_item_ns (before esac) or is absorbed by compound_list (before ;;) *)
Definition body_goal (b : cbody) : Prop :=
  match b with BNone => True | BSome l => derives nt_term (tm (print_seq (seq_of l))) end.

Lemma D_item_ns lp p ps body : body_goal body ->
  derives nt_case_item_ns (tm (print_selector lp p ps) ++ tm (print_body body)).
Proof.
  intro Hb. pose proof (D_selector lp p ps) as Hsel.
  destruct body as [| [q [s |]]]; cbn [body_goal seq_of print_body print_clist] in *.
  - exact (D_case_item_ns_1 _ [] Hsel lb).
  - autorewrite with tm. exact (D_case_item_ns_3 _ [] _ _ [] Hsel lb Hb (D_sepop s) lb).
  - rewrite <- (app_nil_r (tm (print_seq q))). exact (D_case_item_ns_2 _ [] _ [] Hsel lb Hb lb).
Qed.

Lemma D_item lp p ps body : body_goal body ->
  derives nt_case_item (tm (print_selector lp p ps) ++ tm (print_body body) ++ [tkSEMISEMI]).
Proof.
  intro Hb. destruct body as [| l].
  - exact (D_case_item_1 _ [] [] (D_selector lp p ps) lb lb).
  - exact (D_case_item_2 _ _ [] (D_selector lp p ps) (D_clist_of_term l Hb) lb).
Qed.

(* w0 accumulates the case_list derived so far *)
Definition items_goal (i : caseitems) : Prop :=
  forall w0, (w0 = [] \/ derives nt_case_list w0) ->
  derives nt_case_clause (tkCASE :: tkWORD :: tkIN :: w0 ++ tm (print_items i)).

Definition else_goal (e : elsepart) : Prop :=
  e = ENone \/ exists w, tm (print_else e) = w ++ [tkFI] /\ derives nt_else_part w.

Ltac parts :=
  cbn [wf_cmd wf_compound wf_else wf_items wf_body wf_pipe wf_andor wf_seq wf_clist
       faithful_cmd faithful_compound faithful_else faithful_items faithful_pipe faithful_andor
       faithful_seq faithful_clist ends_cmd ends_pipe ends_andor ends_seq] in *;
  repeat match goal with H : _ && _ = true |- _ => apply andb_true_iff in H; destruct H end.

Theorem ast_in_grammar :
  (forall c, wf_cmd c = true -> derives nt_command (tm (print_cmd c))) /\
  (forall k, wf_compound k = true -> derives nt_compound_command (tm (print_compound k))) /\
  (forall e, wf_else e = true -> else_goal e) /\
  (forall i, wf_items i = true -> items_goal i) /\
  (forall b, wf_body b = true -> body_goal b) /\
  (forall p, wf_pipe p = true -> derives nt_pipe_sequence (tm (print_pipe p))) /\
  (forall a, wf_andor a = true -> derives nt_and_or (tm (print_andor a))) /\
  (forall q, wf_seq q = true -> derives nt_term (tm (print_seq q))) /\
  (forall l, wf_clist l = true -> derives nt_term (tm (print_seq (seq_of l)))).
Proof.
  apply posix_mutind.
  - (* CSimple *)
    intros assigns items Hwf. apply D_command_1, D_simple.
    cbn [wf_cmd] in Hwf. apply andb_true_iff in Hwf as [_ Hne].
    destruct assigns, items; try exact I. discriminate.
  - (* CCompound *)
    intros k IHk rs Hwf. parts. cbn [print_cmd]. rewrite tm_app.
    apply (D_redirected nt_compound_command _ rs D_command_2 D_command_3); auto.
  - (* CFuncDef *)
    intros name body IHk rs Hwf. parts. cbn [print_cmd]. autorewrite with tm.
    apply (D_redirected nt_function_definition (_ :: _ :: _ :: _) rs D_command_4 D_command_5).
    apply (D_function_definition_1 [] _ lb); auto.
  - (* KBrace *)
    intros l IH Hwf. cbn [print_compound]. autorewrite with tm.
    apply D_compound_command_1, D_brace_group_1, D_clist_of_term, IH, Hwf.
  - (* KSubshell *)
    intros l IH Hwf. cbn [print_compound]. autorewrite with tm.
    apply D_compound_command_2, D_subshell_1, D_clist_of_term, IH, Hwf.
  - (* KFor *)
    intros name m body IH Hwf. parts. apply D_clist_of_term, D_do_group_1 in IH; [| assumption].
    apply D_compound_command_3. cbn [print_compound].
    destruct m as [| | [| w ws]]; autorewrite with tm; cbn [app].
    + exact (D_for_clause_1 [] _ lb IH).
    + exact (D_for_clause_2 [] _ lb IH).
    + exact (D_for_clause_3 [] [tkSEMI] _ lb (D_sequential_sep_1 [] lb) IH).
    + exact (D_for_clause_4 [] _ [tkSEMI] _ lb (D_words w ws) (D_sequential_sep_1 [] lb) IH).
  - (* KCase *)
    intros w items IH Hwf. parts. apply D_compound_command_4, (IH ltac:(assumption) []). auto.
  - (* KIf *)
    intros c IHc t IHt e IHe Hwf. parts. apply D_clist_of_term in IHc, IHt; [| assumption ..].
    apply D_compound_command_5. cbn [print_compound]. autorewrite with tm.
    destruct IHe as [-> | (we & -> & Hwe)]; [assumption | |].
    + apply D_if_clause_2; assumption.
    + apply D_if_clause_1; assumption.
  - (* KWhile *)
    intros c IHc b IHb Hwf. parts. apply D_compound_command_6. cbn [print_compound]. autorewrite with tm.
    apply D_while_clause_1; [| apply D_do_group_1]; apply D_clist_of_term; auto.
  - (* KUntil *)
    intros c IHc b IHb Hwf. parts. apply D_compound_command_7. cbn [print_compound]. autorewrite with tm.
    apply D_until_clause_1; [| apply D_do_group_1]; apply D_clist_of_term; auto.
  - (* ENone *)
    intros _. left. reflexivity.
  - (* EElse *)
    intros l IH Hwf. right. exists (tkELSE :: tm (print_clist l)). split.
    + cbn [print_else]. autorewrite with tm. reflexivity.
    + apply D_else_part_3, D_clist_of_term, IH, Hwf.
  - (* EElif *)
    intros c IHc t IHt e IHe Hwf. parts. apply D_clist_of_term in IHc, IHt; [| assumption ..].
    right. cbn [print_else]. autorewrite with tm.
    destruct IHe as [-> | (we & -> & Hwe)]; [assumption | |].
    + exists (tkELIF :: tm (print_clist c) ++ tkTHEN :: tm (print_clist t)).
      split; [change (tm (print_else ENone)) with [tkFI]; autorewrite with tm; reflexivity |].
      apply D_else_part_1; assumption.
    + exists (tkELIF :: tm (print_clist c) ++ tkTHEN :: tm (print_clist t) ++ we).
      split; [autorewrite with tm; reflexivity |].
      apply D_else_part_2; assumption.
  - (* CINil *)
    intros _ w0 [-> | Hw0].
    + exact (D_case_clause_3 [] [] lb lb).
    + exact (D_case_clause_1 [] [] w0 lb lb Hw0).
  - (* CILast *)
    intros lp p ps body IHb Hwf w0 Hw0. parts.
    pose proof (D_item_ns lp p ps body (IHb ltac:(assumption))) as Hitem.
    cbn [print_items]. rewrite !tm_app, (app_assoc (tm (print_selector lp p ps))).
    destruct Hw0 as [-> | Hw0].
    + exact (D_case_clause_2 [] [] _ lb lb (D_case_list_ns_1 _ Hitem)).
    + rewrite (app_assoc w0). exact (D_case_clause_2 [] [] _ lb lb (D_case_list_ns_2 _ _ Hw0 Hitem)).
  - (* CICons: the item joins the accumulator *)
    intros lp p ps body IHb rest IHr Hwf w0 Hw0. parts.
    pose proof (D_item lp p ps body (IHb ltac:(assumption))) as Hitem.
    cbn [print_items]. rewrite !tm_app, tm_kw.
    replace (w0 ++ tm (print_selector lp p ps) ++ tm (print_body body) ++ tkSEMISEMI :: tm (print_items rest))
      with ((w0 ++ tm (print_selector lp p ps) ++ tm (print_body body) ++ [tkSEMISEMI]) ++ tm (print_items rest))
      by (rewrite <- !app_assoc; reflexivity).
    apply IHr; [assumption |]. right. destruct Hw0 as [-> | Hw0].
    + apply D_case_list_1, Hitem.
    + apply D_case_list_2; assumption.
  - (* BNone *)
    intros _. exact I.
  - (* BSome *)
    intros l IH Hwf. apply IH, Hwf.
  - (* PCmd *)
    intros c IH Hwf. apply D_pipe_sequence_1, IH, Hwf.
  - (* PPipe *)
    intros p IHp c IHc Hwf. parts. cbn [print_pipe]. autorewrite with tm. apply D_pipe; auto.
  - (* AOne *)
    intros bang p IH Hwf. cbn [print_andor]. rewrite tm_app.
    apply D_and_or_1, D_pipeline, IH, Hwf.
  - (* AAnd *)
    intros a IHa bang p IHp Hwf. parts. cbn [print_andor]. autorewrite with tm. apply D_and; [| apply D_pipeline]; auto.
  - (* AOr *)
    intros a IHa bang p IHp Hwf. parts. cbn [print_andor]. autorewrite with tm. apply D_or; [| apply D_pipeline]; auto.
  - (* QOne *)
    intros a IH Hwf. apply D_term_1, IH, Hwf.
  - (* QSeq *)
    intros q IHq s a IHa Hwf. parts. cbn [print_seq]. autorewrite with tm. apply D_term_seq; auto.
  - (* CL *)
    intros q IH last Hwf. apply IH, Hwf.
Qed.
