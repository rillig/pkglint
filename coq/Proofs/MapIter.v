(* Permutation independence of the audited map-iteration patterns (C07). *)
From Coq Require Import Permutation Sorted.
From PV Require Import Lib.Bytes Model.MapIter.
Import ListNotations.
Open Scope N_scope.

Lemma str_cmp_refl a : str_cmp a a = Eq.
Proof. induction a as [|x a IH]; simpl; [reflexivity|]. rewrite N.compare_refl. exact IH. Qed.

Lemma str_cmp_eq a : forall b, str_cmp a b = Eq -> a = b.
Proof.
  induction a as [|x a IH]; intros [|y b]; simpl; intros H; try discriminate; auto.
  destruct (N.compare_spec x y); try discriminate. subst. f_equal. auto.
Qed.

Lemma str_cmp_opp a : forall b, str_cmp b a = CompOpp (str_cmp a b).
Proof.
  induction a as [|x a IH]; intros [|y b]; simpl; auto.
  rewrite (N.compare_antisym x y). destruct (x ?= y); simpl; auto.
Qed.

Lemma str_leb_total a b : str_leb a b = true \/ str_leb b a = true.
Proof. unfold str_leb. rewrite (str_cmp_opp a b). destruct (str_cmp a b); simpl; auto. Qed.

Lemma str_leb_antisym a b : str_leb a b = true -> str_leb b a = true -> a = b.
Proof.
  unfold str_leb. rewrite (str_cmp_opp a b). intros H1 H2. apply str_cmp_eq.
  destruct (str_cmp a b); [reflexivity|discriminate H2|discriminate H1].
Qed.

Lemma str_leb_trans a : forall b c, str_leb a b = true -> str_leb b c = true -> str_leb a c = true.
Proof.
  unfold str_leb. induction a as [|x a IH]; intros [|y b] [|z c]; simpl; try easy.
  destruct (N.compare_spec x y), (N.compare_spec y z), (N.compare_spec x z); try easy; try lia.
  apply IH.
Qed.

Section SortFacts.
  Context {A : Type} (leb : A -> A -> bool).
  Hypothesis leb_total : forall x y, leb x y = true \/ leb y x = true.
  Hypothesis leb_trans : forall x y z, leb x y = true -> leb y z = true -> leb x z = true.
  Let le x y := leb x y = true.

  Lemma insert_by_perm x l : Permutation (insert_by leb x l) (x :: l).
  Proof.
    induction l as [|y l IH]; simpl; [reflexivity|].
    destruct (leb x y); [reflexivity|]. rewrite IH. apply perm_swap.
  Qed.

  Lemma isort_perm l : Permutation (isort leb l) l.
  Proof. induction l as [|x l IH]; simpl; [reflexivity|]. rewrite insert_by_perm, IH. reflexivity. Qed.

  Lemma insert_by_sorted x l : StronglySorted le l -> StronglySorted le (insert_by leb x l).
  Proof.
    induction 1 as [|y l S IH F]; simpl; [repeat constructor|].
    destruct (leb x y) eqn:E.
    - repeat constructor; auto. eapply Forall_impl; [|exact F]. intros z. apply leb_trans, E.
    - constructor; [exact IH|]. rewrite insert_by_perm. constructor; [|exact F].
      destruct (leb_total x y) as [H|H]; [congruence|exact H].
  Qed.

  Lemma isort_sorted l : StronglySorted le (isort leb l).
  Proof. induction l; simpl; [constructor|apply insert_by_sorted; assumption]. Qed.

  Lemma sorted_perm_eq l : forall l',
    (forall x y, In x l -> In y l -> leb x y = true -> leb y x = true -> x = y) ->
    StronglySorted le l -> StronglySorted le l' -> Permutation l l' -> l = l'.
  Proof.
    induction l as [|a l IH]; intros [|b l'] AS S1 S2 P; [reflexivity| | |].
    1, 2: now (apply Permutation_nil_cons in P || apply Permutation_sym, Permutation_nil_cons in P).
    apply StronglySorted_inv in S1 as [S1 F1]. apply StronglySorted_inv in S2 as [S2 F2].
    assert (E : a = b). (* each head is below the other *)
    { destruct (Permutation_in _ P (in_eq a l)) as [E|Ha]; [auto|].
      destruct (Permutation_in _ (Permutation_sym P) (in_eq b l')) as [E|Hb]; [auto|].
      rewrite Forall_forall in F1, F2. apply AS; [left; reflexivity|right; exact Hb|apply F1, Hb|apply F2, Ha]. }
    subst b. f_equal. apply IH; auto.
    - intros x y Hx Hy. apply AS; right; assumption.
    - exact (Permutation_cons_inv P).
  Qed.

  Theorem isort_perm_eq l l' :
    (forall x y, In x l -> In y l -> leb x y = true -> leb y x = true -> x = y) ->
    Permutation l l' -> isort leb l = isort leb l'.
  Proof.
    intros AS P. apply sorted_perm_eq; try apply isort_sorted.
    - intros x y. rewrite !isort_perm. apply AS.
    - rewrite !isort_perm. exact P.
  Qed.
End SortFacts.

Theorem sort_perm (l l' : list str) : Permutation l l' -> sort_strings l = sort_strings l'.
Proof.
  apply (isort_perm_eq _ str_leb_total str_leb_trans). intros x y _ _. apply str_leb_antisym.
Qed.

Theorem sort_strings_spec (l : list str) :
  StronglySorted (fun a b => str_leb a b = true) (sort_strings l) /\ Permutation (sort_strings l) l.
Proof.
  split; [apply isort_sorted; [apply str_leb_total|apply str_leb_trans]|apply isort_perm].
Qed.

Theorem keys_sorted_perm {V} (m m' : gomap V) : Permutation m m' -> keys_sorted m = keys_sorted m'.
Proof. intros P. unfold keys_sorted, keys. apply sort_perm. apply Permutation_map. exact P. Qed.

Theorem keys_joined_perm {V} (m m' : gomap V) : Permutation m m' -> keys_joined m = keys_joined m'.
Proof. intros P. unfold keys_joined. rewrite (keys_sorted_perm m m' P). reflexivity. Qed.

Theorem for_each_sorted_perm {V} (m order order' : gomap V) :
  Permutation order order' -> for_each_sorted m order = for_each_sorted m order'.
Proof. intros P. unfold for_each_sorted. rewrite (keys_sorted_perm order order' P). reflexivity. Qed.

Lemma NoDup_map_inj {A B} (f : A -> B) (l : list A) :
  NoDup (map f l) -> forall x y, In x l -> In y l -> f x = f y -> x = y.
Proof.
  induction l as [|a l IH]; simpl; intros ND x y Hx Hy E; [contradiction|].
  apply NoDup_cons_iff in ND as [Hn ND].
  destruct Hx as [->|Hx], Hy as [->|Hy]; auto; exfalso; apply Hn;
    [rewrite E|rewrite <- E]; apply in_map; assumption.
Qed.

(* histogram.go: sort.Slice by (count, string), a key that is injective on the entries *)
Theorem sort_by_perm {A K} (key : A -> K) (kleb : K -> K -> bool) (l l' : list A) :
  (forall x y, kleb x y = true \/ kleb y x = true) ->
  (forall x y z, kleb x y = true -> kleb y z = true -> kleb x z = true) ->
  (forall x y, kleb x y = true -> kleb y x = true -> x = y) ->
  NoDup (map key l) ->
  Permutation l l' -> sort_by key kleb l = sort_by key kleb l'.
Proof.
  intros T Tr AS ND. apply isort_perm_eq; eauto using NoDup_map_inj.
Qed.

Theorem fold_commutative_perm_on {A B} (step : B -> A -> B) (l l' : list A) :
  NoDup l ->
  (forall x y, In x l -> In y l -> x <> y -> forall b, step (step b x) y = step (step b y) x) ->
  Permutation l l' -> forall init, range_fold step init l = range_fold step init l'.
Proof.
  unfold range_fold. intros ND C P. induction P as [|x l l' P IH|x y l|l l' l'' P1 IH1 P2 IH2]; intros init; simpl.
  - reflexivity.
  - apply NoDup_cons_iff in ND as [_ ND]. apply IH; auto. intros; apply C; simpl; auto.
  - apply NoDup_cons_iff in ND as [Hn _]. rewrite C; simpl in *; auto.
  - rewrite IH1; auto. apply IH2.
    + rewrite <- P1. exact ND.
    + intros x y. rewrite <- P1. apply C.
Qed.

Theorem fold_commutative_perm {A B} (step : B -> A -> B) (l l' : list A) :
  (forall b x y, step (step b x) y = step (step b y) x) ->
  Permutation l l' -> forall init, range_fold step init l = range_fold step init l'.
Proof.
  unfold range_fold. intros C P. induction P; intros init; simpl; auto.
  - rewrite C. reflexivity.
  - rewrite IHP1. apply IHP2.
Qed.

Lemma argmax_step_comm {A} (p : A -> bool) (m : A -> N) (x y : A) :
  (p x = true -> p y = true -> m x <> m y) ->
  forall b, argmax_step p m (argmax_step p m b x) y = argmax_step p m (argmax_step p m b y) x.
Proof.
  intros H b. unfold argmax_step.
  destruct (p x) eqn:Px, (p y) eqn:Py; try reflexivity.
  specialize (H eq_refl eq_refl).
  destruct b as [b|]; repeat match goal with |- context [?a <? ?c] => destruct (N.ltb_spec a c) end;
    try reflexivity; exfalso; lia.
Qed.

Theorem argmax_perm {A} (p : A -> bool) (m : A -> N) (l l' : list A) :
  NoDup l ->
  (forall x y, In x l -> In y l -> p x = true -> p y = true -> m x = m y -> x = y) ->
  Permutation l l' -> range_argmax p m l = range_argmax p m l'.
Proof.
  intros ND Inj P. unfold range_argmax.
  apply (fold_commutative_perm_on (argmax_step p m) l l' ND); [|exact P].
  intros x y Hx Hy Hne b. apply argmax_step_comm.
  intros Px Py E. apply Hne. apply Inj; assumption.
Qed.

Theorem exists_perm {A} (p : A -> bool) (l l' : list A) :
  Permutation l l' -> range_exists p l = range_exists p l'.
Proof.
  unfold range_exists. induction 1; simpl; try congruence. destruct (p x), (p y); reflexivity.
Qed.

Theorem forall_perm {A} (p : A -> bool) (l l' : list A) :
  Permutation l l' -> range_forall p l = range_forall p l'.
Proof.
  unfold range_forall. induction 1; simpl; try congruence. destruct (p x), (p y); reflexivity.
Qed.

Theorem lookup_perm {V} (k : str) (m m' : gomap V) :
  NoDup (keys m) -> Permutation m m' -> lookup k m = lookup k m'.
Proof.
  unfold keys. intros ND P.
  induction P as [|[k1 v1] l l' P IH|[k1 v1] [k2 v2] l|l l' l'' P1 IH1 P2 IH2]; simpl in *.
  - reflexivity.
  - apply NoDup_cons_iff in ND as [_ ND]. rewrite IH; auto.
  - destruct (str_eqb k k2) eqn:E2, (str_eqb k k1) eqn:E1; auto.
    apply str_eqb_spec in E1, E2. subst. apply NoDup_cons_iff in ND as [[] _]. left; reflexivity.
  - rewrite IH1; auto. apply IH2. rewrite <- P1. exact ND.
Qed.

Lemma range_set_insert_char {A} (f : A -> str) (l : list A) : forall s0 x,
  range_set_insert f s0 l x = existsb (fun a => str_eqb x (f a)) l || s0 x.
Proof.
  unfold range_set_insert. induction l as [|a l IH]; intros s0 x; simpl; [reflexivity|].
  rewrite IH. unfold set_add. destruct (str_eqb x (f a)), (existsb _ l); reflexivity.
Qed.

Theorem set_insert_perm {A} (f : A -> str) (s0 : str -> bool) (l l' : list A) :
  Permutation l l' -> forall x, range_set_insert f s0 l x = range_set_insert f s0 l' x.
Proof.
  intros P x. rewrite !range_set_insert_char. f_equal. apply (exists_perm _ _ _ P).
Qed.

Lemma lookup_notin {V} (k : str) (m : gomap V) : ~ In k (keys m) -> lookup k m = None.
Proof.
  unfold keys. induction m as [|[k1 v1] m IH]; simpl; intros H; [reflexivity|].
  destruct (str_eqb k k1) eqn:E; [apply str_eqb_spec in E; subst; tauto|apply IH; tauto].
Qed.

Lemma range_copy_char {V} (m : gomap V) : NoDup (keys m) -> forall c0 x,
  range_copy c0 m x = match lookup x m with Some v => Some v | None => c0 x end.
Proof.
  unfold range_copy, keys. induction m as [|[k v] m IH]; simpl; intros ND c0 x; [reflexivity|].
  apply NoDup_cons_iff in ND as [Hn ND]. rewrite IH; auto. unfold map_put. simpl.
  destruct (str_eqb x k) eqn:E; [|reflexivity].
  apply str_eqb_spec in E. subst. rewrite (lookup_notin k m Hn). reflexivity.
Qed.

Theorem range_copy_perm {V} (c0 : str -> option V) (m m' : gomap V) :
  NoDup (keys m) -> Permutation m m' -> forall x, range_copy c0 m x = range_copy c0 m' x.
Proof.
  intros ND P x. rewrite !range_copy_char, (lookup_perm x m m' ND P); auto.
  unfold keys. rewrite <- P. exact ND.
Qed.

Definition sa : str := [97].
Definition sb : str := [98].

Lemma NoDup_pair {A} (x y : A) : x <> y -> NoDup [x; y].
Proof. intros H. repeat constructor; simpl; intuition. Qed.

(* printing inside an unsorted range IS order dependent *)
Theorem output_order_dependent_refuted :
  ~ (forall (line : str -> str) (l l' : list str), NoDup l -> Permutation l l' -> range_print line l = range_print line l').
Proof.
  intros H. specialize (H (fun s => s) [sa; sb] [sb; sa]).
  specialize (H (NoDup_pair sa sb ltac:(discriminate)) (perm_swap sb sa [])). vm_compute in H. discriminate.
Qed.

(* "the first match wins" (urlchecker.go CheckFetchURL) is order dependent *)
Definition first_match_full : Prop :=
  forall (p : str -> bool) (l l' : list str), NoDup l -> Permutation l l' -> range_first p l = range_first p l'.
Theorem first_match_refuted : ~ first_match_full.
Proof.
  intros H. specialize (H (fun _ => true) [sa; sb] [sb; sa]).
  specialize (H (NoDup_pair sa sb ltac:(discriminate)) (perm_swap sb sa [])). vm_compute in H. discriminate.
Qed.
Theorem first_match_partial {A} (p : A -> bool) (l l' : list A) :
  (forall x y, In x l -> In y l -> p x = true -> p y = true -> x = y) ->
  Permutation l l' -> range_first p l = range_first p l'.
Proof.
  unfold range_first. intros U P. induction P as [|x l l' P IH|x y l|l l' l'' P1 IH1 P2 IH2]; simpl.
  - reflexivity.
  - destruct (p x); [reflexivity|]. apply IH. intros; apply U; simpl; auto.
  - destruct (p y) eqn:Ey, (p x) eqn:Ex; auto. f_equal. apply U; simpl; auto.
  - rewrite IH1; auto. apply IH2. intros x y. rewrite <- P1. apply U.
Qed.

(* sorting by a key with ties (changes.go: IsAbove compares date and line number
   but not the file): the result depends on the order the entries were collected in *)
Definition sort_ties_full : Prop :=
  forall (l l' : list (N * str)), NoDup l -> Permutation l l' ->
    sort_by fst N.leb l = sort_by fst N.leb l'.
Theorem sort_ties_refuted : ~ sort_ties_full.
Proof.
  intros H. specialize (H [(1, sa); (1, sb)] [(1, sb); (1, sa)]).
  specialize (H (NoDup_pair (1, sa) (1, sb) ltac:(discriminate)) (perm_swap _ _ [])). vm_compute in H. discriminate.
Qed.
