(* C14, file level: isDefined -- as fed by the line-by-line scan of Model/CondFile.v -- is
   right for every environment that Spec/PrefsFile.v holds possible after the lines read so
   far; hence the rewrites keep the value in the file. *)
From Coq Require Import List NArith Bool Lia.
From PV Require Import Lib.Bytes Spec.BmakeCond Spec.PrefsFile Model.CondSimp Model.CondFile
  Proofs.CondSimpA Proofs.CondSimpB Proofs.CondSimpC Proofs.CondSimpWords Proofs.CondSimpD Proofs.CondFileA.
Import ListNotations.
Open Scope N_scope.

(* pkglint's declarations (vardefs.go) are right about bmake and bsd.prefs.mk:
   AlwaysInScope|DefinedIfInScope = defined in every makefile at load time;
   DefinedIfInScope + usable at load time = defined once the preferences are loaded *)
Definition decl_right (decl : str -> varinfo) (always by_prefs : str -> bool) : Prop :=
  forall v,
    (vi_always_in_scope (decl v) && vi_defined_if_in_scope (decl v) = true -> always v = true) /\
    (vi_use_loadtime (decl v) && vi_defined_if_in_scope (decl v) = true -> by_prefs v = true).

Definition sure0 : sure := mksure false [] [] [].

Definition scan_inv (st : fstate) (s : sure) : Prop :=
  fs_levels st = su_open s /\
  (fs_seen_prefs st = true -> su_prefs s = true) /\
  (forall v, in_file st v = true -> in_strs v (su_assigned s) = true).

Lemma conditional_not_sure : forall l, existsb negb l = negb (forallb (fun g : bool => g) l).
Proof. induction l as [|[|] l IH]; simpl; auto. Qed.

Lemma scan_line_inv st s l :
  scan_inv st s ->
  (match l with FInclude p => negb (executed_for_sure s) && really_loads_prefs p | _ => false end) = false ->
  scan_inv (scan_line st l) (sure_step s l).
Proof.
  intros (Hl & Hp & Hd) Hc. destruct st as [sp df lv], s as [pr asg op un]. cbn in *. subst lv.
  destruct l as [p|v|g| |u|]; unfold scan_inv; cbn; auto.
  - destruct (loads_prefs p) eqn:Elp; cbn; repeat split; auto; intros H.
    + rewrite (loads_prefs_sound p Elp), andb_true_r in *. apply negb_false_iff in Hc.
      rewrite Hc. apply orb_true_r.
    + rewrite (Hp H). reflexivity.
  - unfold is_conditional. cbn. rewrite conditional_not_sure.
    destruct (forallb (fun g : bool => g) op); cbn; repeat split; auto.
    intros w H. apply orb_true_iff in H as [H|H]; apply orb_true_iff; auto.
Qed.

Lemma scan_inv_all : forall ls st s,
  scan_inv st s -> conditional_prefs_include s ls = false ->
  scan_inv (fold_left scan_line ls st) (fold_left sure_step ls s).
Proof.
  induction ls as [|l ls IH]; intros st s Hi Hc; simpl; auto.
  simpl in Hc. apply orb_false_iff in Hc as [Hc1 Hc2].
  apply IH; auto. apply scan_line_inv; auto.
Qed.

Lemma scan_inv_init : scan_inv (init_state false) sure0.
Proof. unfold scan_inv, init_state, sure0, in_file. simpl. repeat split; auto; discriminate. Qed.

Lemma is_defined_sound_in_file : forall decl mmn always by_prefs pre e v,
  decl_right decl always by_prefs ->
  conditional_prefs_include sure0 pre = false ->
  possible_env always by_prefs pre e ->
  in_strs v (su_undef (sure_after pre)) = false ->
  let cx := file_ctx decl mmn (scan (init_state false) pre) in
  is_defined (cx_seen_prefs cx) (cx_var cx v) = true -> e v <> None.
Proof.
  intros decl mmn always by_prefs pre e v Hd Hc He Hu cx.
  pose proof (scan_inv_all pre _ _ scan_inv_init Hc) as (_ & Hp & Hf).
  destruct (He v Hu) as (Ha & Hs & Hb). destruct (Hd v) as (Hd1 & Hd2).
  unfold cx, file_ctx, is_defined, with_in_file; simpl.
  destruct (vi_always_in_scope (decl v) && vi_defined_if_in_scope (decl v)); [auto|].
  destruct (in_file (scan (init_state false) pre) v) eqn:E2; [auto|].
  intros H. apply andb_true_iff in H as [H H3]. apply andb_true_iff in H as [H1 H2].
  apply Hb; [auto|]. apply Hd2. rewrite H2, H3. reflexivity.
Qed.

Section InFile.
  Variables (decl : str -> varinfo) (mmn : str -> mmn) (always by_prefs : str -> bool) (pre : list fline).
  Hypothesis Hdecl : decl_right decl always by_prefs.
  Hypothesis Hcond : conditional_prefs_include sure0 pre = false.
  Let cx := file_ctx decl mmn (scan (init_state false) pre).

  Lemma defined_in_file e v :
    possible_env always by_prefs pre e -> in_strs v (su_undef (sure_after pre)) = false ->
    is_defined (cx_seen_prefs cx) (cx_var cx v) = true -> e v <> None.
  Proof. exact (is_defined_sound_in_file decl mmn always by_prefs pre e v Hdecl Hcond). Qed.

  Lemma word_M_sound_in_file : forall v mods fe neg rw e,
    In rw (simplify_word cx v mods fe neg) ->
    (exists pat, last mods [] = 77 :: pat) ->
    possible_env always by_prefs pre e ->
    in_strs v (su_undef (sure_after pre)) = false ->
    exists f t, rw_from_c rw = Some f /\ rw_to_c rw = Some t /\
      ((forall d s, eval_expr e v (map classify_mod (removelast mods)) = Some (d, s) -> wordlike s) ->
       preserves e f t).
  Proof.
    intros v mods fe neg rw e Hin Hm He Hu.
    destruct (word_rewrite_M_preserves cx v mods fe neg rw e Hin Hm) as (f & t & Hf & Ht & H).
    exists f, t. auto using defined_in_file.
  Qed.

  Lemma yesno_sound_in_file : forall v mods fe neg rw e,
    In rw (fst (simplify_yesno cx v mods fe neg)) ->
    possible_env always by_prefs pre e ->
    in_strs v (su_undef (sure_after pre)) = false ->
    exists f t, rw_from_c rw = Some f /\ rw_to_c rw = Some t /\
      ((vi_nonempty_if_defined (decl v) = true -> e v <> Some []) ->
       (forall d s, eval_expr e v (map classify_mod (removelast mods)) = Some (d, s) -> wordlike s) ->
       preserves e f t).
  Proof.
    intros v mods fe neg rw e Hin He Hu.
    destruct (yesno_rewrite_preserves cx v mods fe neg rw e Hin) as (f & t & Hf & Ht & H).
    exists f, t. auto using defined_in_file.
  Qed.

  Lemma match_sound_in_file : forall v mods fe neg rw e,
    In rw (simplify_match cx v mods fe neg) ->
    possible_env always by_prefs pre e ->
    in_strs v (su_undef (sure_after pre)) = false ->
    exists f t pat, rw_from_c rw = Some f /\ rw_to_c rw = Some t /\ last mods [] = 77 :: pat /\
      (forall d s, eval_expr e v (map classify_mod (removelast mods)) = Some (d, s) ->
         clean s ->
         (mmn pat <> MmnYes ->
          forall w, w <> [] -> wordlike w -> str_match w pat = true -> try_parse_number w = None) ->
         equivalent e f t).
  Proof.
    intros v mods fe neg rw e Hin He Hu.
    destruct (match_rewrite_equivalent_words cx v mods fe neg rw e Hin) as (f & t & pat & Hf & Ht & Hl & H).
    destruct (simplify_match_inv _ _ _ _ _ _ Hin) as (? & _ & _ & _ & Hdef & _).
    exists f, t, pat. repeat split; auto. exact (H (defined_in_file e v He Hu Hdef)).
  Qed.
End InFile.

(* Without the guard it is false: a prefs include that may or may not happen,
   .if defined(OTHER) / .include "bsd.prefs.mk" / .endif / .if !empty(V:Malpha) *)
Definition ex_bsd_prefs : str := [98; 115; 100; 46; 112; 114; 101; 102; 115; 46; 109; 107].
Definition ex_cond_pre : list fline := [FOpen false; FInclude ex_bsd_prefs; FClose].
Definition ex_decl_P : str -> varinfo := fun _ => mkvarinfo true false false false true false true false.
Definition ex_mmn : str -> mmn := fun _ => MmnNo.
Definition ex_undef_env : env := fun _ => None.

(* with the variable undefined, the one rewrite of !empty(V:Malpha) turns false into malformed *)
Definition undefined_cex (decl : str -> varinfo) (pre : list fline) : Prop :=
  exists rw f t,
    simplify_word (file_ctx decl ex_mmn (scan (init_state false) pre)) ex_var ex_Malpha_mods true true = [rw] /\
    rw_from_c rw = Some f /\ rw_to_c rw = Some t /\
    eval ex_undef_env f = Some TFalse /\ eval ex_undef_env t = Some TMalformed.

Lemma undefined_cex_refutes decl pre : undefined_cex decl pre ->
  ~ (forall rw,
       In rw (simplify_word (file_ctx decl ex_mmn (scan (init_state false) pre)) ex_var ex_Malpha_mods true true) ->
       exists f t, rw_from_c rw = Some f /\ rw_to_c rw = Some t /\
         ((forall d s, eval_expr ex_undef_env ex_var (map classify_mod (removelast ex_Malpha_mods)) = Some (d, s) ->
                       wordlike s) ->
          preserves ex_undef_env f t)).
Proof.
  intros (rw & f & t & Hl & Hf & Ht & Ef & Et) H.
  destruct (H rw) as (f' & t' & Hf' & Ht' & Hp); [rewrite Hl; left; reflexivity|].
  rewrite Hf in Hf'. rewrite Ht in Ht'. injection Hf' as <-. injection Ht' as <-.
  apply (not_preserves _ _ _ _ _ Ef Et); [discriminate..|]. apply Hp.
  intros d s. vm_compute. intros E. injection E as _ <-. apply wordlike_nil.
Qed.

Definition word_in_file_full : Prop :=
  forall decl mmn always by_prefs pre v mods fe neg rw e,
    decl_right decl always by_prefs ->
    In rw (simplify_word (file_ctx decl mmn (scan (init_state false) pre)) v mods fe neg) ->
    (exists pat, last mods [] = 77 :: pat) ->
    possible_env always by_prefs pre e ->
    in_strs v (su_undef (sure_after pre)) = false ->
    exists f t, rw_from_c rw = Some f /\ rw_to_c rw = Some t /\
      ((forall d s, eval_expr e v (map classify_mod (removelast mods)) = Some (d, s) -> wordlike s) ->
       preserves e f t).

Lemma cond_include_cex : undefined_cex ex_decl_P ex_cond_pre.
Proof. apply rewrite_values_sound. vm_compute. reflexivity. Qed.

Theorem word_in_file_full_refuted : ~ word_in_file_full.
Proof.
  intros H. apply (undefined_cex_refutes _ _ cond_include_cex). intros rw Hin.
  apply (H ex_decl_P ex_mmn (fun _ => false) (fun _ => true) ex_cond_pre ex_var ex_Malpha_mods true true rw ex_undef_env).
  - intros v. split; [discriminate | reflexivity].
  - exact Hin.
  - exists ex_alpha. reflexivity.
  - intros v _. repeat split; intros; discriminate.
  - reflexivity.
Qed.

(* the guard is satisfiable and the theorem has content: after an unconditional include of
   bsd.prefs.mk the ':U' is dropped, and the rewritten condition has the same value *)
Definition ex_sure_pre : list fline := [FOther; FInclude ex_bsd_prefs].
Example in_file_example :
  conditional_prefs_include sure0 ex_sure_pre = false /\
  su_prefs (sure_after ex_sure_pre) = true /\
  fs_seen_prefs (scan (init_state false) ex_sure_pre) = true /\
  (exists rw f t,
    simplify_word (file_ctx ex_decl_P ex_mmn (scan (init_state false) ex_sure_pre)) ex_var ex_Malpha_mods true true = [rw] /\
    rw_from_c rw = Some f /\ rw_to_c rw = Some t /\
    eval (env1 ex_var (Some ex_alpha)) f = Some TTrue /\ eval (env1 ex_var (Some ex_alpha)) t = Some TTrue).
Proof. repeat split; try reflexivity. apply rewrite_values_sound. vm_compute. reflexivity. Qed.

(* false also without the guard "no .undef of the variable": V= x / .undef V / .if !empty(V:Malpha) *)
Definition ex_undef_pre : list fline := [FAssign ex_var; FUndef ex_var].
Definition ex_decl_U : str -> varinfo := fun _ => mkvarinfo true false false false false false true false.

Definition word_in_file_undef_full : Prop :=
  forall decl mmn always by_prefs pre v mods fe neg rw e,
    decl_right decl always by_prefs ->
    conditional_prefs_include sure0 pre = false ->
    In rw (simplify_word (file_ctx decl mmn (scan (init_state false) pre)) v mods fe neg) ->
    (exists pat, last mods [] = 77 :: pat) ->
    possible_env always by_prefs pre e ->
    exists f t, rw_from_c rw = Some f /\ rw_to_c rw = Some t /\
      ((forall d s, eval_expr e v (map classify_mod (removelast mods)) = Some (d, s) -> wordlike s) ->
       preserves e f t).

Lemma undef_cex : undefined_cex ex_decl_U ex_undef_pre.
Proof. apply rewrite_values_sound. vm_compute. reflexivity. Qed.

Theorem word_in_file_undef_full_refuted : ~ word_in_file_undef_full.
Proof.
  intros H. apply (undefined_cex_refutes _ _ undef_cex). intros rw Hin.
  apply (H ex_decl_U ex_mmn (fun _ => false) (fun _ => false) ex_undef_pre ex_var ex_Malpha_mods true true rw ex_undef_env).
  - intros v. split; discriminate.
  - reflexivity.
  - exact Hin.
  - exists ex_alpha. reflexivity.
  - intros v Hu. repeat split; try (intros; discriminate).
    intros Ha. change (su_assigned (sure_after ex_undef_pre)) with [ex_var] in Ha.
    change (su_undef (sure_after ex_undef_pre)) with [ex_var] in Hu. congruence.
Qed.

Definition ex_decl_one : str -> varinfo := fun n =>
  if str_eqb n ex_var then mkvarinfo true false false false true false true false
  else mkvarinfo false false false false false false false false.
Example in_file_hypotheses_satisfiable :
  decl_right ex_decl_one (fun _ => false) (fun n => str_eqb n ex_var) /\
  conditional_prefs_include sure0 ex_sure_pre = false /\
  possible_env (fun _ => false) (fun n => str_eqb n ex_var) ex_sure_pre (env1 ex_var (Some ex_alpha)) /\
  in_strs ex_var (su_undef (sure_after ex_sure_pre)) = false /\
  is_defined (cx_seen_prefs (file_ctx ex_decl_one ex_mmn (scan (init_state false) ex_sure_pre)))
             (cx_var (file_ctx ex_decl_one ex_mmn (scan (init_state false) ex_sure_pre)) ex_var) = true.
Proof.
  repeat split; try reflexivity.
  - unfold ex_decl_one. destruct (str_eqb v ex_var); simpl; intros; discriminate.
  - unfold ex_decl_one. destruct (str_eqb v ex_var); simpl; intros; [reflexivity|discriminate].
  - discriminate.
  - change (su_assigned (sure_after ex_sure_pre)) with (@nil str). discriminate.
  - intros _ Hb. unfold env1. rewrite Hb. discriminate.
Qed.

(* a near miss leaves SeenPrefs alone: buildlink3.mk, builtin.mk, Makefile.common *)
Example near_misses_do_not_load :
  forallb (fun p => negb (loads_prefs p))
    [[46; 46; 47; 46; 46; 47; 100; 47; 108; 47; 98; 117; 105; 108; 100; 108; 105; 110; 107; 51; 46; 109; 107];  (* ../../d/l/buildlink3.mk *)
     [46; 46; 47; 46; 46; 47; 100; 47; 108; 47; 98; 117; 105; 108; 116; 105; 110; 46; 109; 107];                (* ../../d/l/builtin.mk *)
     [77; 97; 107; 101; 102; 105; 108; 101; 46; 99; 111; 109; 109; 111; 110]] = true.                          (* Makefile.common *)
Proof. vm_compute. reflexivity. Qed.
