(* Lemmas about the width arithmetic (Model/Tabs.v). *)
From PV Require Import Lib.Bytes Model.Tabs.
From Coq Require Import ZifyBool ZifyN ZifyNat.
Open Scope Z_scope.

Lemma blankb_app a b : blankb (a ++ b) = blankb a && blankb b.
Proof. apply forallb_app. Qed.

Lemma blankb_repeat c n : is_hspace c = true -> blankb (repeat c n) = true.
Proof. intro H. induction n; simpl; [|rewrite H]; auto. Qed.
Lemma blankb_tabs n : blankb (tabs n) = true.
Proof. now apply blankb_repeat. Qed.
Lemma blankb_spaces n : blankb (spaces n) = true.
Proof. now apply blankb_repeat. Qed.

Lemma blankb_firstn_skipn n s : blankb s = true ->
  blankb (firstn n s) = true /\ blankb (skipn n s) = true.
Proof. rewrite <- (firstn_skipn n s) at 1. rewrite blankb_app. apply andb_true_iff. Qed.

Lemma blankb_last t x : blankb (t ++ [x]) = true -> is_hspace x = true.
Proof. rewrite blankb_app. simpl. intros [_ [H _]%andb_true_iff]%andb_true_iff. exact H. Qed.

Lemma is_hspace_iff c : is_hspace c = true <-> (c = 32 \/ c = 9)%N.
Proof. unfold is_hspace. rewrite Bool.orb_true_iff, !N.eqb_eq. tauto. Qed.

Lemma blankb_iff s : blankb s = true <-> Forall (fun c => c = 32 \/ c = 9)%N s.
Proof.
  unfold blankb. rewrite forallb_forall, Forall_forall.
  split; intros H x Hx; apply is_hspace_iff, H, Hx.
Qed.

Lemma strip_blanks_spec s :
  strip_blanks s = filter (fun c => negb ((c =? 32) || (c =? 9))%N) s.
Proof. reflexivity. Qed.

Lemma strip_blanks_app a b : strip_blanks (a ++ b) = strip_blanks a ++ strip_blanks b.
Proof. apply filter_app. Qed.

Lemma strip_blanks_blank s : blankb s = true -> strip_blanks s = [].
Proof.
  induction s as [|c s IH]; simpl; intro H; auto.
  apply andb_true_iff in H as [-> H2]. apply IH, H2.
Qed.

Lemma strip_blanks_nil_blank s : strip_blanks s = [] -> blankb s = true.
Proof.
  induction s as [|c s IH]; simpl; intro H; auto.
  destruct (is_hspace c); simpl in *; [apply IH, H | discriminate].
Qed.

Lemma rune_size_ascii c rest : (c < 128)%N -> rune_size c rest = 1%nat.
Proof.
  intro H. unfold rune_size, lead_info.
  destruct (N.ltb_spec c 194); [reflexivity | lia].
Qed.

Lemma lead_info_lo c sz lo hi : lead_info c = Some (sz, lo, hi) -> (128 <= lo)%N /\ (2 <= sz <= 4)%nat.
Proof.
  unfold lead_info.
  repeat match goal with |- context [if ?b then _ else _] => destruct b end;
    intro H; inversion H; subst; lia.
Qed.

(* the k bytes stepped over as part of a rune exist and are continuation bytes, never '\n' *)
Definition no_nl_prefix (k : nat) (s : str) : Prop := has_nl (firstn k s) = false /\ (k <= length s)%nat.

Lemma no_nl_prefix_0 s : no_nl_prefix 0 s.
Proof. split; [reflexivity|simpl; lia]. Qed.

Lemma no_nl_prefix_S k b s : (128 <= b)%N -> no_nl_prefix k s -> no_nl_prefix (S k) (b :: s).
Proof.
  intros Hb [H L]. split; [|simpl; lia]. unfold has_nl in *. simpl.
  rewrite H. unfold NL. destruct (N.eqb_spec b 10); [lia|reflexivity].
Qed.

(* the continuation bytes of a rune: k bytes, the first in lo..hi, the others in 128..191 *)
Fixpoint conts (k : nat) (lo hi : N) (s : str) : bool :=
  match k, s with
  | O, _ => true
  | S k, b :: s => in_rng lo hi b && conts k 128 191 s
  | S _, [] => false
  end.

Lemma rune_size_conts c rest :
  rune_size c rest = match lead_info c with
                     | Some (sz, lo, hi) => if conts (pred sz) lo hi rest then sz else 1%nat
                     | None => 1%nat
                     end.
Proof.
  unfold rune_size. destruct (lead_info c) as [[[sz lo] hi]|] eqn:E; [|reflexivity].
  apply lead_info_lo in E as [_ Hsz]. destruct sz as [|[|[|[|[|sz]]]]]; try lia.
  all: destruct rest as [|b1 [|b2 [|b3 r]]]; cbn [pred conts]; try reflexivity.
  all: destruct (in_rng lo hi b1); try reflexivity.
  all: destruct (in_rng 128 191 b2); try reflexivity.
  all: destruct (in_rng 128 191 b3); reflexivity.
Qed.

Lemma conts_no_nl k : forall lo hi s, (128 <= lo)%N -> conts k lo hi s = true -> no_nl_prefix k s.
Proof.
  induction k as [|k IH]; intros lo hi [|b s] Hlo H; try discriminate; try apply no_nl_prefix_0.
  cbn [conts] in H. apply andb_true_iff in H as [Hb H].
  apply no_nl_prefix_S; [unfold in_rng in Hb; lia|]. apply (IH 128%N 191%N); [lia|exact H].
Qed.

Lemma rune_size_tail c rest : no_nl_prefix (pred (rune_size c rest)) rest.
Proof.
  rewrite rune_size_conts. destruct (lead_info c) as [[[sz lo] hi]|] eqn:E; [|apply no_nl_prefix_0].
  apply lead_info_lo in E as [Hlo _].
  destruct (conts (pred sz) lo hi rest) eqn:C; [exact (conts_no_nl _ _ _ _ Hlo C)|apply no_nl_prefix_0].
Qed.

Lemma tabWidthAppend_skip_spec s : forall w k, no_nl_prefix k s ->
  tabWidthAppend_skip w k s = if has_nl s then None else Some (twa w k s).
Proof.
  induction s as [|c s IH]; intros w k [Hk Hl]; [reflexivity|].
  unfold has_nl in *. destruct k as [|k]; cbn [tabWidthAppend_skip twa existsb].
  - destruct (N.eqb_spec c NL) as [->|Hc]; [reflexivity|].
    cbn [orb]. destruct (c =? TAB)%N; apply IH; [apply no_nl_prefix_0|apply rune_size_tail].
  - simpl in Hk, Hl. apply orb_false_iff in Hk as [-> Hk]. apply IH. split; [exact Hk|lia].
Qed.

Lemma tabWidthAppend_spec w s :
  tabWidthAppend w s = if has_nl s then None else Some (twa0 w s).
Proof. apply tabWidthAppend_skip_spec, no_nl_prefix_0. Qed.

Lemma twa_ge s : forall w k, w <= twa w k s.
Proof.
  induction s as [|c s IH]; intros w k; simpl; [lia|].
  destruct k; [|apply IH].
  destruct (c =? TAB)%N.
  - specialize (IH (w / 8 * 8 + 8) 0%nat). Z.div_mod_to_equations. lia.
  - specialize (IH (w + 1) (pred (rune_size c s))). lia.
Qed.

Lemma twa_mono s : forall w w' k, w <= w' -> twa w k s <= twa w' k s.
Proof.
  induction s as [|c s IH]; intros w w' k H; simpl; [lia|].
  destruct k; [|apply IH, H].
  destruct (c =? TAB)%N; apply IH; [Z.div_mod_to_equations|]; lia.
Qed.

Lemma twa0_ge w s : w <= twa0 w s.
Proof. apply twa_ge. Qed.

Lemma twa0_mono w w' s : w <= w' -> twa0 w s <= twa0 w' s.
Proof. apply twa_mono. Qed.

Lemma twa0_gt w s : s <> [] -> w < twa0 w s.
Proof.
  destruct s as [|c s]; [congruence|]. intros _. unfold twa0. simpl. destruct (c =? TAB)%N.
  - pose proof (twa_ge s (w / 8 * 8 + 8) 0%nat). Z.div_mod_to_equations. lia.
  - pose proof (twa_ge s (w + 1) (pred (rune_size c s))). lia.
Qed.

(* a blank is no continuation byte: in front of it the decoder stops as at the end of the string *)
Lemma conts_app_blank t : blankb t = true -> forall k lo hi r, (128 <= lo)%N ->
  conts k lo hi (r ++ t) = conts k lo hi r.
Proof.
  intros Ht. induction k as [|k IH]; intros lo hi r Hlo; [reflexivity|].
  destruct r as [|b r]; cbn [app conts]; [|rewrite IH by lia; reflexivity].
  destruct t as [|b t]; [reflexivity|]. simpl in Ht.
  apply andb_true_iff in Ht as [Hb _]. apply is_hspace_iff in Hb.
  replace (in_rng lo hi b) with false by (unfold in_rng; lia). reflexivity.
Qed.

Lemma rune_size_app_blank c r t : blankb t = true -> rune_size c (r ++ t) = rune_size c r.
Proof.
  intro Ht. rewrite !rune_size_conts. destruct (lead_info c) as [[[sz lo] hi]|] eqn:E; [|reflexivity].
  apply lead_info_lo in E as [Hlo _]. rewrite (conts_app_blank t Ht) by exact Hlo. reflexivity.
Qed.

Lemma twa_app_blank t : blankb t = true -> forall s w k, (k <= length s)%nat ->
  twa w k (s ++ t) = twa (twa w k s) 0 t.
Proof.
  intros Ht s. induction s as [|c s IH]; intros w k Hk; simpl in Hk.
  - replace k with 0%nat by lia. reflexivity.
  - simpl. destruct k as [|k]; [|apply IH; lia].
    destruct (c =? TAB)%N; [apply IH; lia|].
    rewrite rune_size_app_blank by exact Ht. apply IH, rune_size_tail.
Qed.

Lemma twa0_app_blank w s t : blankb t = true -> twa0 w (s ++ t) = twa0 (twa0 w s) t.
Proof. intro Ht. apply twa_app_blank; [exact Ht|lia]. Qed.

Lemma twa0_repeat_sp n w : twa0 w (repeat SP n) = w + Z.of_nat n.
Proof.
  revert w; induction n as [|n IH]; intro w; [unfold twa0; simpl; lia|].
  change (twa0 w (repeat SP (S n))) with (twa0 (w + 1) (repeat SP n)). rewrite IH. lia.
Qed.

Lemma twa0_repeat_tab n w : twa0 w (repeat TAB (S n)) = (w / 8 + Z.of_nat (S n)) * 8.
Proof.
  revert w; induction n as [|n IH]; intro w; [unfold twa0; simpl; lia|].
  change (twa0 w (repeat TAB (S (S n)))) with (twa0 (w / 8 * 8 + 8) (repeat TAB (S n))).
  rewrite IH. Z.div_mod_to_equations. lia.
Qed.

Lemma next_tabstop_least w n : w < n -> n mod 8 = 0 -> w / 8 * 8 + 8 <= n.
Proof. intros. Z.div_mod_to_equations. lia. Qed.

Lemma twa0_tabs k w : 0 < k -> twa0 w (tabs k) = (w / 8 + k) * 8.
Proof.
  intro Hk. unfold tabs. destruct (Z.to_nat k) as [|n] eqn:E; [lia|].
  rewrite twa0_repeat_tab. lia.
Qed.

Definition indent_tot (w : Z) : str := tabs (w / 8) ++ spaces (w mod 8).

Lemma indent_tot_blank w : blankb (indent_tot w) = true.
Proof. unfold indent_tot. rewrite blankb_app, blankb_tabs, blankb_spaces. reflexivity. Qed.

(* fewer than 8 columns are spaces only; otherwise the first tab absorbs the
   columns since the last tab stop *)
Lemma twa0_indent_tot w d : 0 <= d ->
  twa0 w (indent_tot d) = (if d <? 8 then w else w / 8 * 8) + d.
Proof.
  intro Hd. unfold indent_tot. rewrite twa0_app_blank by apply blankb_spaces.
  unfold spaces. rewrite twa0_repeat_sp.
  destruct (Z.ltb_spec d 8).
  - rewrite Z.div_small by lia. change (twa0 w (tabs 0)) with w. Z.div_mod_to_equations. lia.
  - rewrite twa0_tabs; Z.div_mod_to_equations; lia.
Qed.

Lemma slice_repeat {A} (x y : A) n m q r : (q <= n)%nat -> (r <= m)%nat ->
  firstn (q + r) (skipn (n - q) (repeat x n ++ repeat y m)) = repeat x q ++ repeat y r.
Proof.
  intros Hq Hr. replace n with ((n - q) + q)%nat at 2 by lia. replace m with (r + (m - r))%nat by lia.
  rewrite !repeat_app, <- app_assoc, skipn_app, skipn_all2, repeat_length, Nat.sub_diag by (rewrite repeat_length; lia).
  cbn [skipn app]. rewrite app_assoc, firstn_app, firstn_all2 by (rewrite app_length, !repeat_length; lia).
  rewrite app_length, !repeat_length, Nat.sub_diag, app_nil_r. reflexivity.
Qed.

(* up to 79 columns indent slices nine tabs and seven spaces at w/8 tabs before the
   spaces and w mod 8 spaces after the tabs *)
Lemma indent_nonneg w : 0 <= w -> indent w = Some (indent_tot w).
Proof.
  intro Hw. unfold indent. change (len tabsAndSpaces - 7) with 9.
  destruct (Z.leb_spec w (8 * 9 + 7)); [|reflexivity].
  unfold slice. change (len tabsAndSpaces) with 16.
  replace (_ && _ && _) with true by (Z.div_mod_to_equations; lia). f_equal.
  replace (Z.to_nat (9 + w mod 8 - (9 - w / 8))) with (Z.to_nat (w / 8) + Z.to_nat (w mod 8))%nat
    by (Z.div_mod_to_equations; lia).
  replace (Z.to_nat (9 - w / 8)) with (9 - Z.to_nat (w / 8))%nat by (Z.div_mod_to_equations; lia).
  apply (slice_repeat TAB SP 9 7); Z.div_mod_to_equations; lia.
Qed.

Lemma indent_blank w s : indent w = Some s -> blankb s = true.
Proof.
  unfold indent. change (len tabsAndSpaces - 7) with 9.
  destruct (Z.leb_spec w (8 * 9 + 7)).
  - unfold slice. destruct (_ && _ && _); [|discriminate]. intros [= <-].
    apply blankb_firstn_skipn, blankb_firstn_skipn. reflexivity.
  - intros [= <-]. apply (indent_tot_blank w).
Qed.

Lemma has_nl_blank s : blankb s = true -> has_nl s = false.
Proof.
  unfold has_nl. induction s as [|c s IH]; [reflexivity|]. simpl. intros [Hc Hs]%andb_true_iff.
  rewrite (IH Hs), orb_false_r. apply is_hspace_iff in Hc. unfold NL. lia.
Qed.

Lemma indent_width w : 0 <= w ->
  exists s, indent w = Some s /\ tabWidth s = Some w /\ blankb s = true.
Proof.
  intro Hw. exists (indent_tot w). split; [apply indent_nonneg, Hw|]. split; [|apply indent_tot_blank].
  unfold tabWidth. rewrite tabWidthAppend_spec, has_nl_blank, twa0_indent_tot by auto using indent_tot_blank.
  f_equal. destruct (w <? 8); lia.
Qed.

Lemma alignmentToWidths_blank a b s : alignmentToWidths a b = Some s -> blankb s = true.
Proof.
  unfold alignmentToWidths. destruct (b <=? a); [intros [= <-]; reflexivity|apply indent_blank].
Qed.

(* alignment_reaches, on widths: exactly the precondition the code needs is
   0 <= strWidth <= otherWidth (for otherWidth < strWidth the result is "" and the
   column stays at strWidth).  Within one tab stop the alignment is spaces; otherwise
   it starts with a tab, so starting at sw or at sw/8*8 is the same. *)
Lemma alignment_reaches_w sw w : 0 <= sw <= w ->
  exists a, alignmentToWidths sw w = Some a /\ twa0 sw a = w /\ blankb a = true.
Proof.
  intros [H0 Hle]. unfold alignmentToWidths.
  destruct (Z.leb_spec w sw) as [Hws|Hws]; [exists []; repeat split; unfold twa0; simpl; lia|].
  eexists. rewrite indent_nonneg; [split; [reflexivity|]|].
  - split; [|apply indent_tot_blank]. rewrite twa0_indent_tot.
    + destruct (Z.eqb_spec (sw / 8 * 8) (w / 8 * 8)); cbn [negb];
        match goal with |- context [?d <? 8] => destruct (Z.ltb_spec d 8) end;
        Z.div_mod_to_equations; lia.
    + destruct (negb _); Z.div_mod_to_equations; lia.
  - destruct (negb _); Z.div_mod_to_equations; lia.
Qed.

Lemma alignmentToWidths_tabstop a W : 0 <= a < W -> W mod 8 = 0 ->
  alignmentToWidths a W = Some (tabs ((W - a / 8 * 8) / 8)) /\ 0 < (W - a / 8 * 8) / 8.
Proof.
  intros [H0 Hlt] HW. unfold alignmentToWidths.
  destruct (Z.leb_spec W a); [lia|].
  destruct (Z.eqb_spec (a / 8 * 8) (W / 8 * 8)); [Z.div_mod_to_equations; lia|]. cbn [negb].
  rewrite indent_nonneg by (Z.div_mod_to_equations; lia). unfold indent_tot.
  replace ((W - a / 8 * 8) mod 8) with 0 by (Z.div_mod_to_equations; lia).
  change (spaces 0) with (@nil N). rewrite app_nil_r.
  split; [reflexivity|Z.div_mod_to_equations; lia].
Qed.

Lemma alignment_reaches s w : tab_width s <= w ->
  exists a, alignmentToWidths (tab_width s) w = Some a /\ tab_width (s ++ a) = w /\ blankb a = true.
Proof.
  intro H. pose proof (twa0_ge 0 s : 0 <= tab_width s) as H0.
  destruct (alignment_reaches_w (tab_width s) w ltac:(lia)) as (a & E & R & B).
  exists a. split; [exact E|]. split; [|exact B].
  unfold tab_width. rewrite twa0_app_blank by exact B. exact R.
Qed.

Lemma alignmentAfter_reaches prefix w : has_nl prefix = false -> tab_width prefix <= w ->
  exists a, alignmentAfter prefix w = Some a /\ tab_width (prefix ++ a) = w /\ blankb a = true.
Proof.
  intros Hn H. unfold alignmentAfter, tabWidth. rewrite tabWidthAppend_spec, Hn.
  fold (tab_width prefix).
  destruct (Z.ltb_spec w (tab_width prefix)); [lia|].
  destruct (alignment_reaches prefix w H) as (a & E & R & B).
  unfold alignmentToWidths in E.
  destruct (Z.leb_spec w (tab_width prefix)) as [Hle|Hlt]; [|exists a; auto].
  (* width = pw: indent 0 = "" *)
  assert (Ew : tab_width prefix = w) by lia. injection E as <-.
  exists []. rewrite Ew, Z.eqb_refl. cbn [negb]. rewrite Z.sub_diag, app_nil_r. auto.
Qed.

Lemma alignWith_spec s other r : alignWith s other = Some r ->
  exists a, r = s ++ a /\ blankb a = true.
Proof.
  unfold alignWith, alignmentTo. destruct (tabWidth s) as [sw|]; [|discriminate].
  destruct (tabWidth other) as [ow|]; [|discriminate].
  destruct (alignmentToWidths sw ow) as [a|] eqn:E; [|discriminate].
  intros [= <-]. exists a. split; [reflexivity|]. eapply alignmentToWidths_blank, E.
Qed.

Lemma alignWith_reaches s other : has_nl s = false -> has_nl other = false -> tab_width s <= tab_width other ->
  exists a, alignWith s other = Some (s ++ a) /\ tab_width (s ++ a) = tab_width other /\ blankb a = true.
Proof.
  intros Hs Ho H. destruct (alignment_reaches s (tab_width other) H) as (a & E & R & B).
  exists a. unfold alignWith, alignmentTo, tabWidth. rewrite !tabWidthAppend_spec, Hs, Ho.
  fold (tab_width s) (tab_width other). rewrite E. auto.
Qed.

Lemma rtrimHspace_split s : exists t, s = rtrimHspace s ++ t /\ blankb t = true.
Proof.
  induction s as [|c s (t & E & B)]; [exists []; auto|].
  simpl. destruct (rtrimHspace s) as [|d r] eqn:R.
  - destruct (is_hspace c) eqn:Hc.
    + exists (c :: s). split; [reflexivity|]. simpl. rewrite Hc. simpl in E. subst s. exact B.
    + exists t. simpl in *. rewrite E at 1. split; [reflexivity|exact B].
  - exists t. rewrite E at 1. split; [reflexivity|exact B].
Qed.

Lemma rtrimHspace_nonblank_end t c : is_hspace c = false -> rtrimHspace (t ++ [c]) = t ++ [c].
Proof.
  intro Hc. induction t as [|a t IH]; cbn [app rtrimHspace].
  - rewrite Hc. reflexivity.
  - rewrite IH. destruct (t ++ [c]) eqn:E; [destruct t; discriminate|reflexivity].
Qed.

Lemma rtrimHspace_idem s : rtrimHspace (rtrimHspace s) = rtrimHspace s.
Proof.
  induction s as [|c s IH]; [reflexivity|]. simpl.
  destruct (rtrimHspace s) as [|d r] eqn:R.
  - destruct (is_hspace c) eqn:Hc; simpl; rewrite ?Hc; reflexivity.
  - remember (d :: r) as u. simpl. rewrite IH. subst u. reflexivity.
Qed.
