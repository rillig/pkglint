(* Paragraphs made only of single-line assignments (Model/Varalign.v):
   what one pass does (`aligned`), canonical separation, the second pass is
   silent, when a line does not get wider. *)
From PV Require Import Lib.Bytes Model.Tabs Model.Varalign Proofs.Tabs Proofs.VaralignBlanks.
From Coq Require Import ZifyBool ZifyN ZifyNat Permutation Sorted.
Open Scope Z_scope.

Lemma insert_desc_perm x l : Permutation (insert_desc x l) (x :: l).
Proof.
  induction l as [|y l IH]; simpl; [reflexivity|].
  destruct (fst x <? fst y); [|reflexivity].
  rewrite IH. apply perm_swap.
Qed.

Lemma sort_desc_perm l : Permutation (sort_desc l) l.
Proof.
  induction l as [|x l IH]; [reflexivity|].
  change (sort_desc (x :: l)) with (insert_desc x (sort_desc l)). now rewrite insert_desc_perm, IH.
Qed.

Definition ge_fst (x y : Z * bool) : Prop := fst y <= fst x.

Lemma insert_desc_sorted x l : StronglySorted ge_fst l -> StronglySorted ge_fst (insert_desc x l).
Proof.
  induction 1 as [|y l S IH F]; simpl; [repeat constructor|].
  destruct (Z.ltb_spec (fst x) (fst y)).
  - constructor; [exact IH|].
    apply (Permutation_Forall (Permutation_sym (insert_desc_perm x l))).
    constructor; [unfold ge_fst; lia|exact F].
  - constructor; [now constructor|]. constructor; [unfold ge_fst; lia|].
    eapply Forall_impl; [|exact F]. unfold ge_fst. lia.
Qed.

Lemma sort_desc_sorted l : StronglySorted ge_fst (sort_desc l).
Proof. induction l as [|x l IH]; [constructor|]. apply insert_desc_sorted, IH. Qed.

Definition single_ok (p : parts) : Prop := cont p = [] /\ parts_has_nl p = false.
Definition w0 (p : parts) : Z := spaceBeforeValueColumn p.

Lemma w0_nonneg p : 0 <= w0 p.
Proof. pose proof (twa0_ge 0 (lc p)). pose proof (twa0_ge (varnameOpColumn p) (vo p)). unfold w0, spaceBeforeValueColumn, varnameOpColumn in *. lia. Qed.

Lemma w0_pos p : vo p <> [] -> 0 < w0 p.
Proof.
  intro H. pose proof (twa0_ge 0 (lc p)). pose proof (twa0_gt (varnameOpColumn p) (vo p) H).
  unfold w0, spaceBeforeValueColumn, varnameOpColumn in *. lia.
Qed.

Lemma single_not_cont p : cont p = [] -> isContinuation p = false.
Proof. unfold isContinuation. intros ->. reflexivity. Qed.
Lemma single_not_ec p : cont p = [] -> isEmptyContinuation p = false.
Proof. unfold isEmptyContinuation. intro H. rewrite (single_not_cont p H). apply andb_false_r. Qed.

Lemma nil_or_not {A} (l : list A) : l = [] \/ l <> [].
Proof. destruct l; [left|right]; congruence. Qed.

Lemma conts_of para : Forall single_ok para -> Forall (fun p => cont p = []) para.
Proof. apply Forall_impl. intros p [C _]. exact C. Qed.

Definition widths_of (para : list parts) : list (Z * bool) :=
  flat_map (fun p => if negb (isEmptyContinuation p)
                     then [(spaceBeforeValueColumn p, isContinuation p)] else []) para.

Lemma widths_single para : Forall (fun p => cont p = []) para ->
  widths_of para = map (fun p => (w0 p, false)) para.
Proof.
  induction 1 as [|p para Hp _ IH]; [reflexivity|]. unfold widths_of in *. simpl.
  rewrite (single_not_ec p Hp), (single_not_cont p Hp). simpl. rewrite IH. reflexivity.
Qed.

Definition excluded (out : Z) (p : parts) : bool :=
  isEmptyContinuation p || ((0 <? out) && (spaceBeforeValueColumn p =? out)).

Lemma excluded_single out p : cont p = [] -> excluded out p = (0 <? out) && (w0 p =? out).
Proof. intro C. unfold excluded. rewrite (single_not_ec p C). reflexivity. Qed.

(* minVarnameOpWidth is the greatest width among the lines that spaceWidths looks at *)
Lemma varnameOpWidths_facts para :
  Forall (fun p => cont p = []) para -> para <> [] ->
  let (mvow, out) := varnameOpWidths para in
  (exists p, In p para /\ excluded out p = false /\ w0 p = mvow) /\
  (forall p, In p para -> excluded out p = false -> w0 p <= mvow).
Proof.
  intros S NE. unfold varnameOpWidths. fold (widths_of para). rewrite (widths_single para S).
  assert (EX : forall out p, In p para -> excluded out p = (0 <? out) && (w0 p =? out)).
  { intros out p Hp. rewrite Forall_forall in S. apply excluded_single, S, Hp. }
  set (ws := map (fun p => (w0 p, false)) para).
  pose proof (sort_desc_perm ws) as P. pose proof (sort_desc_sorted ws) as SS.
  assert (INV : forall x, In x (sort_desc ws) -> exists p, In p para /\ x = (w0 p, false)).
  { intros x Hx. apply (Permutation_in _ P), in_map_iff in Hx as (p & E & Hp). eauto. }
  assert (ALL : forall p, In p para -> In (w0 p, false) (sort_desc ws)).
  { intros p Hp. apply (Permutation_in _ (Permutation_sym P)), in_map_iff. eauto. }
  destruct (sort_desc ws) as [|[L Lc] rest].
  { destruct para as [|p para']; [congruence|]. destruct (ALL p (or_introl eq_refl)). }
  destruct (INV _ (or_introl eq_refl)) as (pL & HpL & [= -> ->]).
  inversion SS as [|? ? SSr FL]; subst. rewrite Forall_forall in FL.
  assert (MAX : forall p, In p para -> w0 p <= w0 pL).
  { intros p [[= ->]|Hp]%ALL; [lia|apply (FL _ Hp)]. }
  assert (NO : (exists p, In p para /\ excluded 0 p = false /\ w0 p = w0 pL) /\
               (forall p, In p para -> excluded 0 p = false -> w0 p <= w0 pL)).
  { split; [exists pL; rewrite EX by assumption|]; auto. }
  destruct rest as [|[S2 S2c] rest']; [exact NO|].
  destruct (INV (S2, S2c) (or_intror (or_introl eq_refl))) as (pS & HpS & [= -> ->]).
  destruct (negb (w0 pS =? 0) && (Z.quot (w0 pS) 8 + 1 <? Z.quot (w0 pL) 8) && negb false) eqn:HO; [|exact NO].
  (* the widest line is an outlier *)
  pose proof (w0_nonneg pS). rewrite !Z.quot_div_nonneg in HO by (pose proof (w0_nonneg pL); lia).
  assert (w0 pS < w0 pL) by (Z.div_mod_to_equations; lia).
  split; [exists pS; rewrite EX by assumption; split; [assumption|lia]|].
  intros p Hp X. rewrite EX in X by assumption.
  apply ALL in Hp as [[= E]|[[= ->]|Hp]]; [lia|lia|].
  inversion SSr as [|? ? _ FS]; subst. rewrite Forall_forall in FS. apply (FS _ Hp).
Qed.

Lemma varnameOpWidths_ext (f : parts -> parts) para :
  (forall p, spaceBeforeValueColumn (f p) = spaceBeforeValueColumn p /\
             isContinuation (f p) = isContinuation p /\ isEmptyContinuation (f p) = isEmptyContinuation p) ->
  varnameOpWidths (map f para) = varnameOpWidths para.
Proof.
  intro H. unfold varnameOpWidths. fold (widths_of (map f para)) (widths_of para).
  replace (widths_of (map f para)) with (widths_of para); [reflexivity|].
  induction para as [|p l IH]; [reflexivity|]. unfold widths_of in *. simpl.
  destruct (H p) as (-> & -> & ->). rewrite IH. reflexivity.
Qed.

Definition sw_step (out : Z) (mm : Z * Z) (p : parts) : Z * Z :=
  if excluded out p then mm
  else ((if valueColumn p <? fst mm then valueColumn p else fst mm),
        (if snd mm <? valueColumn p then valueColumn p else snd mm)).

Lemma sw_step_eq out mm p : sw_step out mm p =
  if excluded out p then mm else (Z.min (valueColumn p) (fst mm), Z.max (snd mm) (valueColumn p)).
Proof.
  unfold sw_step. destruct (excluded out p); [reflexivity|].
  destruct (Z.ltb_spec (valueColumn p) (fst mm)); destruct (Z.ltb_spec (snd mm) (valueColumn p)); f_equal; lia.
Qed.

Lemma sw_fold_bounds out l : forall acc,
  let r := fold_left (sw_step out) l acc in
  fst r <= fst acc /\ snd acc <= snd r /\
  (forall p, In p l -> excluded out p = false -> fst r <= valueColumn p <= snd r).
Proof.
  induction l as [|q l IH]; intro acc; simpl.
  { split; [lia|]. split; [lia|]. intros p []. }
  specialize (IH (sw_step out acc q)). rewrite sw_step_eq in *.
  destruct IH as (A1 & A2 & B). destruct (excluded out q) eqn:X; cbn [fst snd] in *.
  - split; [lia|]. split; [lia|]. intros p [<-|Hp] X'; [congruence|now apply B].
  - split; [lia|]. split; [lia|]. intros p [<-|Hp] X'; [lia|now apply B].
Qed.

Lemma spaceWidths_bounds para out :
  let (mn, mx) := spaceWidths para out in
  mn <= MaxInt /\ (forall p, In p para -> excluded out p = false -> mn <= valueColumn p <= mx).
Proof.
  destruct (sw_fold_bounds out para (MaxInt, MinInt)) as (A & _ & B).
  change (fold_left (sw_step out) para (MaxInt, MinInt)) with (spaceWidths para out) in *.
  destruct (spaceWidths para out). auto.
Qed.

Lemma sw_fold_const out W l :
  (forall p, In p l -> excluded out p = false -> valueColumn p = W) ->
  fold_left (sw_step out) l (W, W) = (W, W).
Proof.
  induction l as [|q l IH]; intro H; cbn [fold_left]; [reflexivity|].
  replace (sw_step out (W, W) q) with (W, W); [apply IH; intros p Hp; apply H; right; exact Hp|].
  rewrite sw_step_eq. destruct (excluded out q) eqn:X; [reflexivity|].
  rewrite (H q (or_introl eq_refl) X). cbn [fst snd]. now rewrite Z.min_id, Z.max_id.
Qed.

(* the first line that counts sets both bounds to W, the others leave them there *)
Lemma spaceWidths_all_equal W para out : MinInt < W < MaxInt ->
  (forall p, In p para -> excluded out p = false -> valueColumn p = W) ->
  (exists p, In p para /\ excluded out p = false) ->
  spaceWidths para out = (W, W).
Proof.
  intros HW HA (pe & Hpe & Xpe). change (fold_left (sw_step out) para (MaxInt, MinInt) = (W, W)).
  induction para as [|q l IH]; [destruct Hpe|]. cbn [fold_left].
  rewrite sw_step_eq. destruct (excluded out q) eqn:X.
  - apply IH; [intros p Hp; apply HA; right; exact Hp|]. destruct Hpe as [->|]; [congruence|assumption].
  - rewrite (HA q (or_introl eq_refl) X). cbn [fst snd]. rewrite Z.min_l, Z.max_r by lia. apply sw_fold_const. intros p Hp. apply HA. right. exact Hp.
Qed.

Definition width_of (mvow mn mx : Z) : Z :=
  if (mvow <? mn) && (mn =? mx) && (Z.rem mn 8 =? 0) then mn
  else if mvow =? 0 then 0 else mvow / 8 * 8 + 8.

Lemma optimalWidth_unfold para :
  optimalWidth para =
  let (mvow, out) := varnameOpWidths para in
  let (mn, mx) := spaceWidths para out in width_of mvow mn mx.
Proof. reflexivity. Qed.

Lemma width_of_facts mvow mn mx : 0 <= mvow -> let W := width_of mvow mn mx in
  0 <= W /\ W mod 8 = 0 /\ (0 < W -> mvow < W) /\ (0 < mvow -> 0 < W).
Proof.
  intro H. unfold width_of. destruct (_ && _ && _) eqn:C.
  - rewrite Z.rem_mod_nonneg in C by lia. lia.
  - destruct (Z.eqb_spec mvow 0); Z.div_mod_to_equations; lia.
Qed.

Lemma width_of_common mvow W : 0 <= mvow < W -> W mod 8 = 0 -> width_of mvow W W = W.
Proof.
  intros H Hm. unfold width_of. rewrite Z.rem_mod_nonneg, Hm, Z.eqb_refl by lia.
  replace (mvow <? W) with true by lia. reflexivity.
Qed.

Lemma width_of_next mvow mn mx : 0 < mvow -> mn <= mvow / 8 * 8 + 8 ->
  width_of mvow mn mx = mvow / 8 * 8 + 8.
Proof.
  intros H Hle. unfold width_of. destruct (_ && _ && _) eqn:C.
  - rewrite Z.rem_mod_nonneg in C by lia. pose proof (next_tabstop_least mvow mn). lia.
  - destruct (Z.eqb_spec mvow 0); lia.
Qed.

Lemma optimalWidth_facts para :
  Forall (fun p => cont p = []) para -> para <> [] ->
  let W := optimalWidth para in let mvow := fst (varnameOpWidths para) in
  0 <= W /\ W mod 8 = 0 /\ (0 < W -> mvow < W) /\ (0 < mvow -> 0 < W).
Proof.
  intros S NE. pose proof (varnameOpWidths_facts para S NE) as VF. cbv zeta.
  rewrite optimalWidth_unfold. destruct (varnameOpWidths para) as [mvow out].
  destruct VF as ((pm & _ & _ & <-) & _). destruct (spaceWidths para out).
  apply width_of_facts, w0_nonneg.
Qed.

Definition tabs_to (W : Z) (p : parts) : str := tabs ((W - w0 p / 8 * 8) / 8).
(* tabWidthSlice(leadingComment, varnameOp, space, value) *)
Definition width_with (p : parts) (space : str) : Z := twa0 (twa0 (w0 p) space) (val p).
Definition blockedb (W : Z) (p : parts) : bool :=
  (width_with p (if is_nil (sbv p) then [SP] else sbv p) <=? 72) && (72 <? width_with p (tabs_to W p)).
Definition keeps_tabs (p : parts) : bool := negb (is_nil (sbv p)) && all_tabs (sbv p).

Definition new_sbv (W : Z) (p : parts) : str :=
  if W <=? 0 then sbv p
  else if W <=? w0 p then (if isCanonicalInitial p W then sbv p else [SP])
  else if blockedb W p then (if keeps_tabs p then sbv p else [SP])
  else tabs_to W p.
Definition aligned (W : Z) (p : parts) : parts := set_sbv p (new_sbv W p).

Definition align_info (W : Z) (p : parts) : info :=
  if str_eqb (new_sbv W p) (sbv p) then mk_info (parts_string p) p
  else mkInfo (parts_string (aligned W p)) false (aligned W p) [(sbv p, new_sbv W p)].

Lemma set_sbv_same p : set_sbv p (sbv p) = p.
Proof. destruct p; reflexivity. Qed.

Lemma new_sbv_zero W p : W <= 0 -> new_sbv W p = sbv p.
Proof. intro H. unfold new_sbv. destruct (Z.leb_spec W 0); [reflexivity|lia]. Qed.

Lemma new_sbv_out W p : 0 < W <= w0 p ->
  new_sbv W p = if isCanonicalInitial p W then sbv p else [SP].
Proof.
  intro H. unfold new_sbv. destruct (Z.leb_spec W 0); [lia|].
  destruct (Z.leb_spec W (w0 p)); [reflexivity|lia].
Qed.

Lemma new_sbv_in W p : 0 < W -> w0 p < W ->
  new_sbv W p = if blockedb W p then (if keeps_tabs p then sbv p else [SP]) else tabs_to W p.
Proof.
  intros H1 H2. unfold new_sbv. destruct (Z.leb_spec W 0); [lia|].
  destruct (Z.leb_spec W (w0 p)); [lia|reflexivity].
Qed.

Lemma new_sbv_cases W p :
  new_sbv W p = sbv p \/ new_sbv W p = [SP] \/
  (0 < W /\ w0 p < W /\ blockedb W p = false /\ new_sbv W p = tabs_to W p).
Proof.
  destruct (Z_le_gt_dec W 0); [left; now apply new_sbv_zero|].
  destruct (Z_le_gt_dec W (w0 p)).
  - rewrite new_sbv_out by lia. destruct (isCanonicalInitial p W); auto.
  - rewrite new_sbv_in by lia. destruct (blockedb W p); [destruct (keeps_tabs p); auto|].
    right; right. repeat split; lia.
Qed.

Lemma aligned_zero p : aligned 0 p = p.
Proof. unfold aligned. rewrite new_sbv_zero by lia. apply set_sbv_same. Qed.

Lemma valueColumn_set_sbv p s : valueColumn (set_sbv p s) = twa0 (w0 p) s.
Proof. reflexivity. Qed.

Lemma tabs_to_cons W p : W mod 8 = 0 -> w0 p < W -> exists t, tabs_to W p = TAB :: t.
Proof.
  intros Hm Hlt. pose proof (w0_nonneg p).
  destruct (alignmentToWidths_tabstop (w0 p) W ltac:(lia) Hm) as [_ K].
  unfold tabs_to, tabs. destruct (Z.to_nat _) eqn:E; [lia|]. simpl. eauto.
Qed.

Lemma tabs_to_reaches W p : W mod 8 = 0 -> w0 p < W -> twa0 (w0 p) (tabs_to W p) = W.
Proof.
  intros Hm Hlt. pose proof (w0_nonneg p).
  destruct (alignmentToWidths_tabstop (w0 p) W ltac:(lia) Hm) as [_ K].
  unfold tabs_to. rewrite twa0_tabs by exact K. Z.div_mod_to_equations. lia.
Qed.

Lemma aligned_reaches W p : 0 < W -> W mod 8 = 0 -> w0 p < W -> blockedb W p = false ->
  valueColumn (aligned W p) = W.
Proof.
  intros HW Hm Hlt B. unfold aligned. rewrite valueColumn_set_sbv, new_sbv_in, B by assumption.
  apply tabs_to_reaches; assumption.
Qed.

Lemma replace_or_keep p ns :
  (if str_eqb ns (sbv p) then Ok (mk_info (parts_string p) p)
   else do_replace (mk_info (parts_string p) p) (spaceBeforeValueIndex p) (sbv p) ns false (set_sbv p ns))
  = Ok (if str_eqb ns (sbv p) then mk_info (parts_string p) p
        else mkInfo (parts_string (set_sbv p ns)) false (set_sbv p ns) [(sbv p, ns)]).
Proof.
  destruct (str_eqb ns (sbv p)) eqn:Q; [reflexivity|].
  unfold do_replace. cbn [text ps log fixedSBC mk_info]. rewrite sbv_index.
  unfold parts_string at 1. rewrite (app_assoc (lc p)), replace_at_succeeds.
  - unfold parts_string. cbn. rewrite <- app_assoc. reflexivity.
  - intros <-. rewrite str_eqb_refl in Q. discriminate.
Qed.

Lemma alignValueSingle_spec p W : 0 < W -> W mod 8 = 0 ->
  alignValueSingle (mk_info (parts_string p) p) W = Ok (align_info W p).
Proof.
  intros HW Hm. pose proof (w0_nonneg p) as H0.
  unfold alignValueSingle, align_info, aligned. cbn [ps mk_info text fixedSBC log]. fold (w0 p).
  destruct (Z_le_gt_dec W (w0 p)) as [Hle|Hgt].
  - rewrite new_sbv_out by lia.
    replace (alignmentToWidths (w0 p) W) with (Some (@nil N))
      by (unfold alignmentToWidths; destruct (Z.leb_spec W (w0 p)); [reflexivity|lia]).
    cbn [lift bind is_nil andb].
    destruct (isCanonicalInitial p W); [rewrite str_eqb_refl; reflexivity|].
    cbv zeta. rewrite str_eqb_refl. cbn [negb andb]. apply replace_or_keep.
  - destruct (alignmentToWidths_tabstop (w0 p) W ltac:(lia) Hm) as [-> _].
    cbn [lift bind]. fold (tabs_to W p). rewrite new_sbv_in by lia.
    destruct (tabs_to_cons W p Hm ltac:(lia)) as [t Et].
    replace (is_nil (tabs_to W p)) with false by (rewrite Et; reflexivity).
    cbn [andb]. cbv zeta.
    replace (str_eqb (tabs_to W p) [SP]) with false by (rewrite Et; reflexivity).
    cbn [negb andb].
    fold (width_with p (if is_nil (sbv p) then [SP] else sbv p)) (width_with p (tabs_to W p)).
    fold (blockedb W p). fold (keeps_tabs p).
    destruct (blockedb W p); cbn [andb]; [|apply replace_or_keep].
    destruct (keeps_tabs p); [rewrite str_eqb_refl; reflexivity|apply replace_or_keep].
Qed.

Lemma align_info_eq W p :
  align_info W p = mkInfo (parts_string (aligned W p)) false (aligned W p)
                     (if str_eqb (new_sbv W p) (sbv p) then [] else [(sbv p, new_sbv W p)]).
Proof.
  unfold align_info, aligned. destruct (str_eqb (new_sbv W p) (sbv p)) eqn:Q; [|reflexivity].
  apply str_eqb_spec in Q. rewrite Q, set_sbv_same. reflexivity.
Qed.

Lemma align_info_ps W p : ps (align_info W p) = aligned W p.
Proof. now rewrite align_info_eq. Qed.
Lemma align_info_text W p : text (align_info W p) = parts_string (aligned W p).
Proof. now rewrite align_info_eq. Qed.
Lemma align_info_fixed W p : fixedSBC (align_info W p) = false.
Proof. now rewrite align_info_eq. Qed.

Lemma alignContinuation_single i vc rm : isContinuation (ps i) = false -> alignContinuation i vc rm = Ok i.
Proof. intro H. unfold alignContinuation. rewrite H. reflexivity. Qed.

Lemma realign_single p W : cont p = [] -> 0 <= W -> W mod 8 = 0 ->
  realign (single p) W = Ok [align_info W p].
Proof.
  intros Hc HW Hm. pose proof (single_not_cont p Hc) as NC. pose proof (single_not_ec p Hc) as EC.
  unfold realign, single.
  assert (RM : rightMargin [mk_info (parts_string p) p] = Ok (false, 0)).
  { unfold rightMargin. cbn [ps mk_info].
    destruct (is_nil (val p)); cbn [skipn flat_map ps mk_info]; rewrite ?NC; reflexivity. }
  rewrite RM. cbn [bind snd ps mk_info]. rewrite EC, NC. cbn [negb andb realign_loop].
  replace (if (0 <? W) || negb true then _ else _) with (Ok (align_info W p, @None Z)).
  - cbn [bind fst snd]. rewrite align_info_fixed. cbn [negb].
    rewrite alignContinuation_single by (rewrite align_info_ps; exact NC). reflexivity.
  - destruct (Z.ltb_spec 0 W); cbn [orb negb].
    + unfold realignDetails. cbn [ps mk_info]. rewrite NC. cbn [andb negb].
      rewrite alignValueSingle_spec by assumption. reflexivity.
    + unfold align_info. rewrite new_sbv_zero, str_eqb_refl by lia. reflexivity.
Qed.

Lemma map_res_first_parts para : map_res first_parts (map single para) = Ok para.
Proof. induction para as [|p para IH]; [reflexivity|]. simpl. rewrite IH. reflexivity. Qed.

Lemma single_consistent para :
  existsb (existsb (fun i => negb (str_eqb (text i) (parts_string (ps i))))) (map single para) = false.
Proof.
  induction para as [|p para IH]; [reflexivity|]. simpl. rewrite str_eqb_refl. simpl. exact IH.
Qed.

Lemma single_nl para : Forall single_ok para ->
  existsb (existsb (fun i => parts_has_nl (ps i))) (map single para) = false.
Proof.
  induction 1 as [|p para [_ Hp] _ IH]; [reflexivity|]. simpl. rewrite Hp. simpl. exact IH.
Qed.

Lemma map_res_realign para W : Forall single_ok para -> 0 <= W -> W mod 8 = 0 ->
  map_res (fun l => realign l W) (map single para) = Ok (map (fun p => [align_info W p]) para).
Proof.
  induction 1 as [|p para [Hc _] _ IH]; intros HW Hm; [reflexivity|]. cbn [map map_res].
  rewrite realign_single by assumption. cbn [bind]. rewrite IH by assumption. reflexivity.
Qed.

Theorem realign_para_spec para : Forall single_ok para -> para <> [] ->
  realign_para para = Ok (map (fun p => [align_info (optimalWidth para) p]) para).
Proof.
  intros S NE. unfold realign_para, finish.
  replace (is_nil (map single para)) with false by (destruct para; [congruence|reflexivity]).
  cbn [orb]. rewrite single_consistent, (single_nl para S), map_res_first_parts. cbn [bind].
  destruct (optimalWidth_facts para (conts_of para S) NE) as (W0 & Wm & _).
  apply map_res_realign; assumption.
Qed.

Definition parts_of (r : res (list (list info))) : res (list parts) :=
  match r with Ok ms => Ok (map ps (concat ms)) | Panic => Panic end.
Definition realign_lines (para : list parts) : res (list parts) := parts_of (realign_para para).

Lemma realign_lines_spec para : Forall single_ok para -> para <> [] ->
  realign_lines para = Ok (map (aligned (optimalWidth para)) para).
Proof.
  intros S NE. unfold realign_lines. rewrite realign_para_spec by assumption. unfold parts_of. f_equal.
  generalize (optimalWidth para). clear S NE. intro W.
  induction para as [|q para IH]; [reflexivity|]. simpl. rewrite align_info_ps, IH. reflexivity.
Qed.

Lemma realign_lines_pointwise (R : parts -> parts -> Prop) para para' :
  Forall single_ok para -> para <> [] -> realign_lines para = Ok para' ->
  (0 <= optimalWidth para -> optimalWidth para mod 8 = 0 ->
   forall p, single_ok p -> R p (aligned (optimalWidth para) p)) ->
  Forall2 R para para'.
Proof.
  intros S NE H HR. rewrite realign_lines_spec in H by assumption. injection H as <-.
  destruct (optimalWidth_facts para (conts_of para S) NE) as (W0 & Wm & _).
  specialize (HR W0 Wm). clear W0 Wm NE. revert HR. generalize (optimalWidth para). intros W HR.
  induction S; simpl; constructor; auto.
Qed.

Definition canonical_sep (s : str) : Prop := (s <> [] /\ all_tabs s = true) \/ s = [SP].

Lemma all_tabs_tabs k : all_tabs (tabs k) = true.
Proof. unfold tabs, all_tabs. induction (Z.to_nat k); simpl; auto. Qed.

Lemma new_sbv_canonical W p : 0 < W -> W mod 8 = 0 -> canonical_sep (new_sbv W p).
Proof.
  intros HW Hm. destruct (Z_le_gt_dec W (w0 p)).
  - rewrite new_sbv_out by lia.
    destruct (isCanonicalInitial p W) eqn:C; [|right; reflexivity].
    unfold isCanonicalInitial in C. destruct (is_nil (sbv p)) eqn:Nl; [discriminate|].
    apply is_nil_false in Nl.
    destruct (str_eqb (sbv p) [SP] && (W <? valueColumn p)) eqn:Q.
    + apply andb_true_iff in Q as [Q%str_eqb_spec _]. right; exact Q.
    + left. split; assumption.
  - rewrite new_sbv_in by lia. destruct (blockedb W p).
    + destruct (keeps_tabs p) eqn:KT; [|right; reflexivity].
      apply andb_true_iff in KT as [K1%negb_true_iff%is_nil_false K2]. left. auto.
    + destruct (tabs_to_cons W p Hm ltac:(lia)) as [t Et].
      left. split; [rewrite Et; discriminate|apply all_tabs_tabs].
Qed.

Theorem aligned_canonical para para' :
  Forall single_ok para -> Forall (fun p => vo p <> []) para -> para <> [] ->
  realign_lines para = Ok para' ->
  Forall (fun p' => canonical_sep (sbv p')) para'.
Proof.
  intros S V NE H. rewrite realign_lines_spec in H by assumption. injection H as <-.
  destruct (optimalWidth_facts para (conts_of para S) NE) as (W0 & Wm & _ & WP).
  pose proof (varnameOpWidths_facts para (conts_of para S) NE) as VF.
  destruct (varnameOpWidths para) as [mvow out]. destruct VF as ((pm & Hpm & _ & Em) & _).
  assert (0 < optimalWidth para).
  { apply WP. cbn [fst]. rewrite <- Em. apply w0_pos. rewrite Forall_forall in V. apply V, Hpm. }
  apply Forall_map, Forall_forall. intros p _. apply new_sbv_canonical; assumption.
Qed.

Lemma width_with_mono p s1 s2 : twa0 (w0 p) s1 <= twa0 (w0 p) s2 -> width_with p s1 <= width_with p s2.
Proof. apply twa0_mono. Qed.

Lemma twa0_single_sp w : twa0 w [SP] = w + 1.
Proof. reflexivity. Qed.

Lemma width_with_sp_le p : sbv p <> [] -> width_with p [SP] <= width_with p (sbv p).
Proof.
  intro H. apply width_with_mono. rewrite twa0_single_sp.
  pose proof (twa0_gt (w0 p) (sbv p) H). lia.
Qed.

Lemma width_with_nil_le_sp p : width_with p [] <= width_with p [SP].
Proof. apply width_with_mono. rewrite twa0_single_sp. unfold twa0. simpl. lia. Qed.

(* a line whose value stands at W already is not held back by the 72-column guard *)
Lemma aligned_stays W p : 0 < W -> W mod 8 = 0 -> w0 p < W -> valueColumn p = W ->
  valueColumn (aligned W p) = W.
Proof.
  intros HW Hm Hlt VC. apply aligned_reaches; try assumption.
  change (twa0 (w0 p) (sbv p) = W) in VC.
  assert (NB : is_nil (sbv p) = false).
  { apply is_nil_false. intro Hn. rewrite Hn in VC. change (w0 p = W) in VC. lia. }
  unfold blockedb, width_with. rewrite NB, tabs_to_reaches, VC by assumption. lia.
Qed.

Lemma aligned_column_le W p : 0 < W -> W mod 8 = 0 -> w0 p < W -> valueColumn (aligned W p) <= W.
Proof.
  intros HW Hm Hlt.
  destruct (blockedb W p) eqn:B; [|rewrite aligned_reaches by assumption; lia].
  unfold aligned. rewrite valueColumn_set_sbv, new_sbv_in, B by assumption.
  destruct (keeps_tabs p) eqn:KT; [|rewrite twa0_single_sp; lia].
  (* the tabs stay because tabs up to W would cross column 72: they end left of W *)
  apply andb_true_iff in KT as [NB%negb_true_iff _]. unfold blockedb in B. rewrite NB in B.
  destruct (Z_le_gt_dec (twa0 (w0 p) (sbv p)) W) as [|Hgt]; [assumption|exfalso].
  assert (width_with p (tabs_to W p) <= width_with p (sbv p))
    by (apply width_with_mono; rewrite tabs_to_reaches by assumption; lia).
  lia.
Qed.

Definition small (p : parts) : Prop := line_width p < MaxInt - 8.

Lemma blockedb_set_sbv W p s : blockedb W (set_sbv p s) =
  (width_with p (if is_nil s then [SP] else s) <=? 72) && (72 <? width_with p (tabs_to W p)).
Proof. reflexivity. Qed.

(* a line that sticks out has become canonical; one that was held back at a single space is
   held back again and has no tabs; one aligned with tabs stands at W, where tabs up to W
   make no difference *)
Lemma new_sbv_idem W p : 0 <= W -> W mod 8 = 0 -> new_sbv W (aligned W p) = new_sbv W p.
Proof.
  intros HW Hm. change (new_sbv W p) with (sbv (aligned W p)).
  destruct (Z.eq_dec W 0) as [->|NZ]; [now apply new_sbv_zero|].
  assert (WP : 0 < W) by lia. destruct (Z_le_gt_dec W (w0 p)) as [Hle|Hgt].
  - rewrite (new_sbv_out W (aligned W p) (conj WP Hle)).
    replace (isCanonicalInitial (aligned W p) W) with true; [reflexivity|].
    unfold aligned. rewrite new_sbv_out by lia.
    destruct (isCanonicalInitial p W) eqn:C; [rewrite set_sbv_same; auto|].
    unfold isCanonicalInitial. rewrite valueColumn_set_sbv, twa0_single_sp.
    cbn [sbv set_sbv is_nil]. rewrite str_eqb_refl.
    replace (W <? w0 p + 1) with true by lia. reflexivity.
  - assert (Hlt : w0 p < W) by lia. rewrite (new_sbv_in W (aligned W p) WP Hlt).
    unfold aligned. rewrite new_sbv_in by assumption.
    destruct (blockedb W p) eqn:B; [destruct (keeps_tabs p) eqn:KT|].
    + rewrite set_sbv_same, B, KT. reflexivity.
    + rewrite blockedb_set_sbv. unfold blockedb in B. cbn [is_nil].
      replace (width_with p [SP] <=? 72) with true; [now replace (72 <? _) with true by lia|].
      destruct (nil_or_not (sbv p)) as [E|NE]; [rewrite E in B; cbn [is_nil] in B; lia|].
      pose proof (width_with_sp_le p NE). apply is_nil_false in NE. rewrite NE in B. lia.
    + rewrite blockedb_set_sbv. destruct (tabs_to_cons W p Hm Hlt) as [t Et].
      replace (is_nil (tabs_to W p)) with false by now rewrite Et.
      set (x := width_with p (tabs_to W p)). now replace ((x <=? 72) && (72 <? x)) with false by lia.
Qed.

Lemma aligned_idem W p : 0 <= W -> W mod 8 = 0 -> aligned W (aligned W p) = aligned W p.
Proof.
  intros HW Hm. unfold aligned at 1. rewrite new_sbv_idem by assumption.
  unfold aligned. destruct p; reflexivity.
Qed.

Lemma single_ok_aligned W p : single_ok p -> single_ok (aligned W p).
Proof.
  intros [C N]. split; [exact C|].
  assert (NS : has_nl (new_sbv W p) = false).
  { destruct (new_sbv_cases W p) as [->|[->|(_ & _ & _ & ->)]];
      [|reflexivity|apply has_nl_blank, blankb_tabs].
    unfold parts_has_nl in N. rewrite !orb_false_iff in N. tauto. }
  unfold parts_has_nl, aligned in *. cbn [lc vo sbv val sav cont set_sbv].
  rewrite !orb_false_iff in *. tauto.
Qed.

(* the common column of the paragraph after one pass is the same: either all values stood
   at W and stay there, or W is the tab stop after the widest name and no value is right
   of it now, so that no other common column can be found *)
Lemma optimalWidth_settled para : Forall (fun p => cont p = []) para -> para <> [] ->
  optimalWidth (map (aligned (optimalWidth para)) para) = optimalWidth para.
Proof.
  intros CS NE. set (W := optimalWidth para).
  destruct (optimalWidth_facts para CS NE) as (W0 & Wm & WM & _). fold W in W0, Wm, WM.
  pose proof (varnameOpWidths_facts para CS NE) as VF.
  pose proof (optimalWidth_unfold para) as OW. fold W in OW.
  rewrite optimalWidth_unfold, (varnameOpWidths_ext (aligned W)) by (intro; repeat split).
  destruct (varnameOpWidths para) as [mvow out]. cbn [fst] in WM.
  destruct VF as ((pm & Hpm & XPM & Em) & MAX).
  destruct (Z.eq_dec W 0) as [Z0|NZ].
  { rewrite Z0 in *. rewrite (map_ext _ (fun p => p) aligned_zero), map_id. symmetry; exact OW. }
  assert (WP : 0 < W) by lia. specialize (WM WP). pose proof (w0_nonneg pm) as M0.
  pose proof (spaceWidths_bounds para out) as SP.
  destruct (spaceWidths para out) as [mn mx]. destruct SP as (MX & Bd).
  unfold width_of in OW. destruct ((mvow <? mn) && (mn =? mx) && (Z.rem mn 8 =? 0)) eqn:C.
  - (* all values stood at W = mn = mx and stay there; MaxInt is no tab stop *)
    assert (mn = mx) by lia. subst mx mn.
    rewrite (spaceWidths_all_equal W).
    + apply width_of_common; lia.
    + unfold MinInt, MaxInt in *. lia.
    + intros p' (p & <- & Hp)%in_map_iff X. specialize (MAX p Hp X). specialize (Bd p Hp X).
      apply aligned_stays; lia.
    + exists (aligned W pm). split; [apply in_map, Hpm|exact XPM].
  - (* W is the tab stop after mvow, and the value of pm is not right of it now *)
    assert (E3 : W = mvow / 8 * 8 + 8 /\ mvow <> 0) by (destruct (Z.eqb_spec mvow 0); lia).
    pose proof (spaceWidths_bounds (map (aligned W) para) out) as SP'.
    destruct (spaceWidths (map (aligned W) para) out) as [mn' mx']. destruct SP' as (_ & Bd').
    specialize (Bd' (aligned W pm) (in_map _ _ _ Hpm) XPM).
    pose proof (aligned_column_le W pm WP Wm ltac:(lia)) as LE.
    rewrite width_of_next; lia.
Qed.

(* C15: [single] carries an empty log, so the second pass changes nothing and logs nothing *)
Theorem second_pass_noop para para' :
  Forall single_ok para -> Forall small para ->
  realign_lines para = Ok para' ->
  realign_para para' = Ok (map single para').
Proof.
  intros S _ H. destruct (nil_or_not para) as [->|NE].
  { injection H as <-. reflexivity. }
  rewrite realign_lines_spec in H by assumption. injection H as <-.
  set (W := optimalWidth para).
  destruct (optimalWidth_facts para (conts_of para S) NE) as (W0 & Wm & _). fold W in W0, Wm.
  rewrite realign_para_spec.
  - unfold W at 1. rewrite (optimalWidth_settled para (conts_of para S) NE). fold W.
    f_equal. rewrite !map_map. apply map_ext. intro p.
    unfold align_info. rewrite new_sbv_idem by assumption.
    change (sbv (aligned W p)) with (new_sbv W p). rewrite str_eqb_refl. reflexivity.
  - apply Forall_map. eapply Forall_impl; [|exact S]. intro p. apply single_ok_aligned.
  - destruct para; [congruence|discriminate].
Qed.

Lemma parts_of_single l : map ps (concat (map single l)) = l.
Proof. induction l as [|p l IH]; [reflexivity|]. simpl. rewrite IH. reflexivity. Qed.

Corollary second_pass_lines para para' :
  Forall single_ok para -> Forall small para ->
  realign_lines para = Ok para' -> realign_lines para' = Ok para'.
Proof.
  intros S SM H. unfold realign_lines at 1. rewrite (second_pass_noop para para' S SM H).
  unfold parts_of. rewrite parts_of_single. reflexivity.
Qed.

Theorem realign_lines_total para : Forall single_ok para -> exists para', realign_lines para = Ok para'.
Proof.
  intro S. destruct (nil_or_not para) as [->|NE]; [exists []; reflexivity|].
  eexists. apply realign_lines_spec; assumption.
Qed.

Lemma line_width_mono p p' : same_core p p' -> sav p' = sav p -> valueColumn p' <= valueColumn p ->
  line_width p' <= line_width p.
Proof.
  intros (_ & _ & V & C) SA H. unfold line_width, continuationColumn, spaceAfterValueColumn.
  rewrite V, C, SA. auto using twa0_mono.
Qed.

Lemma line_width_plain p : sav p = [] -> cont p = [] -> line_width p = width_with p (sbv p).
Proof. intros A C. unfold line_width, continuationColumn, spaceAfterValueColumn, width_with, valueColumn, w0. rewrite A, C. reflexivity. Qed.

Definition not_shifted (W : Z) (p : parts) : Prop :=
  (w0 p < W -> W <= valueColumn p) /\ (W <= w0 p -> sbv p <> []).

Lemma aligned_not_wider W p : 0 <= W -> W mod 8 = 0 -> not_shifted W p ->
  line_width (aligned W p) <= line_width p.
Proof.
  intros HW Hm [G1 G2]. apply line_width_mono; [unfold aligned, same_core; cbn; auto|reflexivity|].
  unfold aligned. rewrite valueColumn_set_sbv. change (valueColumn p) with (twa0 (w0 p) (sbv p)) in *.
  destruct (new_sbv_cases W p) as [->|[->|(WP & Hlt & B & ->)]].
  - lia.
  - (* a single space is not wider than the blanks it replaces, and there are some *)
    rewrite twa0_single_sp. assert (NB : sbv p <> []).
    { destruct (Z_le_gt_dec W (w0 p)); [auto|]. intro Hn. rewrite Hn in G1. unfold twa0 in G1. simpl in G1. lia. }
    pose proof (twa0_gt (w0 p) (sbv p) NB). lia.
  - rewrite tabs_to_reaches by assumption. auto.
Qed.

Theorem no_widen_not_shifted para para' :
  Forall single_ok para -> para <> [] ->
  realign_lines para = Ok para' ->
  Forall2 (fun p p' => not_shifted (optimalWidth para) p -> line_width p' <= line_width p) para para'.
Proof.
  intros S NE H. apply (realign_lines_pointwise _ para para' S NE H).
  intros W0 Wm p _. now apply aligned_not_wider.
Qed.
