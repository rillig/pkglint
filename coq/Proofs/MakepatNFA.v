(* Match is the textbook acceptance of a nondeterministic automaton:
   for a well-formed pattern,  matchp a s = Ok (accepts a 0 s). *)
From PV Require Import Lib.Bytes Model.Makepat Proofs.MakepatBasics.
From Coq Require Import ZifyBool ZifyN ZifyNat.
Open Scope N_scope.

Definition targets_ok (n : N) (sts : list state) : Prop :=
  forall st, In st sts -> forall t, In t (trans st) -> tto t < n.
Definition wf (a : pattern) : Prop := a <> [] /\ targets_ok (nlen a) a.

Lemma wf_pos a : wf a -> 0 < nlen a.
Proof. intros [H _]. destruct a; [contradiction|rewrite nlen_cons; lia]. Qed.

Fixpoint accepts (a : pattern) (q : N) (s : str) : bool :=
  match nth_n a q with
  | None => false
  | Some st =>
    match s with
    | [] => fin st
    | c :: s' => existsb (fun t => fires c t && accepts a (tto t) s') (trans st)
    end
  end.

Definition on (l : list bool) (q : N) : Prop := nth_n l q = Some true.

Lemma on_0 b l : on (b :: l) 0 <-> b = true.
Proof. unfold on. cbn. split; [intro E; injection E; auto|intros ->; reflexivity]. Qed.

Lemma on_succ b l q : on (b :: l) (N.succ q) <-> on l q.
Proof. unfold on. rewrite nth_n_succ. reflexivity. Qed.

Lemma on_zeros {A} (l : list A) q : ~ on (zeros_like false l) q.
Proof. intro H. apply zeros_like_nth in H. discriminate. Qed.

Lemma set_true_spec l i : i < nlen l ->
  exists l', set_true l i = Some l' /\ nlen l' = nlen l /\ forall q, on l' q <-> on l q \/ i = q.
Proof.
  intro Hi. destruct (nth_n_lt l i Hi) as [b Hb].
  destruct (upd_n_at l i (fun _ => true) b Hb) as (l' & E & L & Hn). exists l'.
  split; [exact E|]. split; [exact L|]. intro q. unfold on. rewrite Hn.
  destruct (N.eqb_spec q i) as [->|]; intuition congruence.
Qed.

Definition fired (c : N) (ts : list transition) : list N := map tto (filter (fires c) ts).

Lemma step_trans_spec c n ts : (forall t, In t ts -> tto t < n) -> forall next ok, nlen next = n ->
  exists next', step_trans ts c next ok = Some (next', match fired c ts with [] => ok | _ => true end)
    /\ forall q, on next' q <-> on next q \/ In q (fired c ts).
Proof.
  unfold fired. induction ts as [|t ts IH]; intros Ht next ok Ln; cbn [step_trans filter].
  - exists next. cbn. tauto.
  - specialize (IH (fun t' H => Ht t' (or_intror H))). destruct (fires c t); [|exact (IH next ok Ln)].
    destruct (set_true_spec next (tto t)) as (next1 & E & L1 & O1); [rewrite Ln; apply Ht; left; reflexivity|].
    rewrite E.
    destruct (IH next1 true) as (next' & E' & O'); [congruence|].
    exists next'. split.
    + rewrite E'. cbn [map]. destruct (map tto (filter (fires c) ts)); reflexivity.
    + intro q. rewrite O', O1. cbn [map In]. tauto.
Qed.

Lemma existsb_fired c f ts : existsb f (fired c ts) = existsb (fun t => fires c t && f (tto t)) ts.
Proof.
  unfold fired. induction ts as [|t ts IH]; [reflexivity|]. cbn [filter existsb].
  destruct (fires c t); cbn [map existsb andb]; rewrite IH; reflexivity.
Qed.

(* the states that are on: the two outer loops of Match run over their transitions *)
Fixpoint actives (sts : list state) (curr : list bool) : list state :=
  match sts, curr with
  | st :: sts', b :: curr' => if b then st :: actives sts' curr' else actives sts' curr'
  | _, _ => []
  end.

Lemma actives_In sts : forall curr st,
  In st (actives sts curr) <-> exists i, nth_n sts i = Some st /\ on curr i.
Proof.
  induction sts as [|st0 sts IH]; intros [|b curr] st; cbn [actives].
  1-3: split; [contradiction|intros (i & N & O); discriminate].
  rewrite ex_N. setoid_rewrite nth_n_succ. setoid_rewrite on_succ. rewrite <- IH, on_0. cbn [nth_n N.eqb].
  destruct b; cbn [In]; intuition congruence.
Qed.

Lemma actives_zeros {A} sts : forall l : list A, actives sts (zeros_like false l) = [].
Proof. induction sts as [|st sts IH]; intros [|x l]; try reflexivity. apply IH. Qed.

Lemma step_trans_app c ts1 ts2 next ok :
  step_trans (ts1 ++ ts2) c next ok
  = match step_trans ts1 c next ok with Some (n, o) => step_trans ts2 c n o | None => None end.
Proof.
  revert next ok; induction ts1 as [|t ts1 IH]; intros next ok; cbn [app step_trans]; [reflexivity|].
  destruct (fires c t); [|apply IH]. destruct (set_true next (tto t)); [apply IH|reflexivity].
Qed.

Lemma step_all_actives c sts : forall curr next ok,
  step_all sts curr c next ok = step_trans (flat_map trans (actives sts curr)) c next ok.
Proof.
  induction sts as [|st sts IH]; intros [|b curr] next ok; try reflexivity.
  cbn [step_all actives]. destruct b; [|apply IH]. cbn [flat_map]. rewrite step_trans_app.
  destruct (step_trans (trans st) c next ok) as [[n o]|]; [apply IH|reflexivity].
Qed.

Lemma any_end_actives sts : forall curr, any_end sts curr = existsb fin (actives sts curr).
Proof.
  induction sts as [|st sts IH]; intros [|b curr]; try reflexivity.
  cbn [any_end actives]. rewrite IH. destruct b; reflexivity.
Qed.

Lemma any_end_spec sts curr :
  any_end sts curr = true <-> exists i st, nth_n sts i = Some st /\ on curr i /\ fin st = true.
Proof.
  rewrite any_end_actives, existsb_exists. split.
  - intros (st & H & F). apply actives_In in H as (i & N & O). eauto.
  - intros (i & st & N & O & F). exists st. split; [apply actives_In; eauto|exact F].
Qed.

(* acceptance from a state that is given, not looked up *)
Definition acc (a : pattern) (s : str) (st : state) : bool :=
  match s with
  | [] => fin st
  | c :: s' => existsb (fun t => fires c t && accepts a (tto t) s') (trans st)
  end.

Lemma accepts_acc a q s : accepts a q s = match nth_n a q with Some st => acc a s st | None => false end.
Proof. destruct s; reflexivity. Qed.

Lemma accepts_nil a q : accepts a q [] = match nth_n a q with Some st => fin st | None => false end.
Proof. reflexivity. Qed.

Lemma accepts_cons a q c s :
  accepts a q (c :: s) = match nth_n a q with
                         | Some st => existsb (fun t => fires c t && accepts a (tto t) s) (trans st)
                         | None => false
                         end.
Proof. reflexivity. Qed.

Lemma acc_actives a curr s l : (forall q, on curr q <-> In q l) ->
  existsb (acc a s) (actives a curr) = existsb (fun q => accepts a q s) l.
Proof.
  intro Hl. apply eq_true_iff_eq. rewrite !existsb_exists. split.
  - intros (st & H & A). apply actives_In in H as (q & N & O). exists q.
    split; [apply Hl; exact O|]. rewrite accepts_acc, N. exact A.
  - intros (q & I & A). rewrite accepts_acc in A. destruct (nth_n a q) as [st|] eqn:N; [|discriminate].
    exists st. split; [apply actives_In; exists q; split; [exact N|apply Hl; exact I]|exact A].
Qed.

(* the simulation: Match keeps the set of states a run can be in; it stops early
   when that set is empty *)
Lemma match_loop_spec a : targets_ok (nlen a) a -> forall s curr,
  match_loop a curr s = Ok (existsb (acc a s) (actives a curr)).
Proof.
  intros Hwf. induction s as [|c s IH]; intros curr; cbn [match_loop].
  - rewrite any_end_actives. reflexivity.
  - rewrite step_all_actives. set (ts := flat_map trans (actives a curr)).
    destruct (step_trans_spec c (nlen a) ts) with (next := zeros_like false a) (ok := false) as (next & E & O).
    { intros t Ht. apply in_flat_map in Ht as (st & Hst & Ht). apply actives_In in Hst as (i & N & _).
      exact (Hwf st (nth_n_In _ _ _ N) t Ht). }
    { apply zeros_like_nlen. }
    assert (Hs : existsb (acc a (c :: s)) (actives a curr) = existsb (fun q => accepts a q s) (fired c ts)).
    { rewrite existsb_fired. unfold ts. rewrite existsb_flat_map. reflexivity. }
    rewrite E, Hs. destruct (fired c ts); [reflexivity|]. rewrite IH. f_equal.
    apply acc_actives. intro q. rewrite O. split; [intros [H|H]; [destruct (on_zeros _ _ H)|exact H]|auto].
Qed.

Theorem matchp_accepts a s : wf a -> matchp a s = Ok (accepts a 0 s).
Proof.
  intros [Hne Hwf]. destruct a as [|st0 a']; [contradiction|]. unfold matchp.
  rewrite (match_loop_spec _ Hwf). cbn [actives]. rewrite actives_zeros. cbn [existsb].
  rewrite orb_false_r, accepts_acc. reflexivity.
Qed.
