(* What Compile builds: a chain.  The pattern text is parsed into elements
   (a star, or a set of byte ranges); state i is "after the i-th non-star
   element", a star is a self-loop, every other element one bundle of edges
   i -> i+1.  The chain accepts exactly what the element list matches. *)
From PV Require Import Lib.Bytes Lib.ByteRange Model.Makepat
  Proofs.MakepatBasics Proofs.MakepatNFA.
From Coq Require Import ZifyBool ZifyN ZifyNat.
Open Scope N_scope.

Inductive elem :=
| EStar
| ERanges (rs : list (N * N)).

Definition in_ranges (rs : list (N * N)) (c : N) : bool :=
  existsb (fun r => (fst r <=? c) && (c <=? snd r)) rs.

Inductive parses : str -> list elem -> Prop :=
| P_nil : parses [] []
| P_star rest es : parses rest es -> parses (42 :: rest) (EStar :: es)
| P_quest rest es : parses rest es -> parses (63 :: rest) (ERanges [(0, 255)] :: es)
| P_esc c rest es : parses rest es -> parses (92 :: c :: rest) (ERanges [(c, c)] :: es)
| P_class rest neg r1 chars rest2 es :
    skip_byte 94 rest = (neg, r1) -> class_loop r1 chars_empty = Some (chars, rest2) ->
    parses rest2 es ->
    parses (91 :: rest) (ERanges (runs (if neg then map negb chars else chars)) :: es)
| P_lit c rest es : c <> 42 -> c <> 63 -> c <> 92 -> c <> 91 ->
    parses rest es -> parses (c :: rest) (ERanges [(c, c)] :: es).

Fixpoint gmatch (es : list elem) (s : str) : bool :=
  match es with
  | [] => match s with [] => true | _ => false end
  | EStar :: es' =>
    (fix go (s : str) : bool :=
       gmatch es' s || match s with [] => false | _ :: s' => go s' end) s
  | ERanges rs :: es' =>
    match s with [] => false | c :: s' => in_ranges rs c && gmatch es' s' end
  end.

Lemma gmatch_star es s :
  gmatch (EStar :: es) s = gmatch es s || match s with [] => false | _ :: s' => gmatch (EStar :: es) s' end.
Proof. destruct s; reflexivity. Qed.

Lemma gmatch_star_star es s : gmatch (EStar :: EStar :: es) s = gmatch (EStar :: es) s.
Proof.
  induction s as [|c s IH].
  - rewrite (gmatch_star (EStar :: es)). rewrite orb_false_r. reflexivity.
  - rewrite (gmatch_star (EStar :: es) (c :: s)), IH.
    rewrite (gmatch_star es (c :: s)). destruct (gmatch es (c :: s)); [reflexivity|]. cbn [orb].
    destruct (gmatch (EStar :: es) s); reflexivity.
Qed.

Lemma gmatch_star_nil_true s : gmatch [EStar] s = true.
Proof. induction s as [|c s IH]; [reflexivity|]. rewrite gmatch_star, IH. apply orb_true_r. Qed.

Definition mk_trans (to : N) (r : N * N) : transition := mkT (fst r) (snd r) to.

Fixpoint chain_from (n : N) (cur : list transition) (es : list elem) : list state :=
  match es with
  | [] => [mkS cur true]
  | EStar :: es' => chain_from n (cur ++ [mkT 0 255 n]) es'
  | ERanges rs :: es' => mkS (cur ++ map (mk_trans (n + 1)) rs) false :: chain_from (n + 1) [] es'
  end.

Fixpoint nonstars (es : list elem) : N :=
  match es with
  | [] => 0
  | EStar :: es' => nonstars es'
  | ERanges _ :: es' => 1 + nonstars es'
  end.

Lemma chain_from_nlen es : forall n cur, nlen (chain_from n cur es) = 1 + nonstars es.
Proof.
  induction es as [|[|rs] es IH]; intros n cur; cbn [chain_from nonstars nlen].
  - reflexivity.
  - apply IH.
  - rewrite IH. lia.
Qed.

Lemma parses_nonstars pat es : parses pat es -> nonstars es <= N.of_nat (length pat).
Proof.
  induction 1; cbn [nonstars length]; try lia.
  apply skip_byte_spec in H as [-> _]. apply class_loop_some in H0 as [H0 _].
  destruct neg; cbn [length]; lia.
Qed.

Lemma add_transition_at pre cur e post t :
  add_transition (pre ++ mkS cur e :: post) (nlen pre) t = Some (pre ++ mkS (cur ++ [t]) e :: post).
Proof. unfold add_transition. rewrite upd_n_mid. reflexivity. Qed.

Lemma add_transitions_list_at rs : forall pre cur e post to,
  add_transitions_list (pre ++ mkS cur e :: post) (nlen pre) rs to
  = Some (pre ++ mkS (cur ++ map (mk_trans to) rs) e :: post).
Proof.
  induction rs as [|[lo hi] rs IH]; intros pre cur e post to; cbn [add_transitions_list map].
  - rewrite app_nil_r. reflexivity.
  - rewrite add_transition_at, IH. rewrite <- app_assoc. reflexivity.
Qed.

(* the states before the current one, once the current state (with edges cur)
   has got its edges for the byte set rs and a fresh current state follows *)
Definition push (pre : list state) (cur : list transition) (rs : list (N * N)) : list state :=
  pre ++ [mkS (cur ++ map (mk_trans (nlen pre + 1)) rs) false].

Lemma push_nlen pre cur rs : nlen (push pre cur rs) = nlen pre + 1.
Proof. apply nlen_snoc. Qed.

Lemma chain_from_push pre cur rs es :
  push pre cur rs ++ chain_from (nlen (push pre cur rs)) [] es
  = pre ++ chain_from (nlen pre) cur (ERanges rs :: es).
Proof. rewrite push_nlen. unfold push. rewrite <- app_assoc. reflexivity. Qed.

Lemma add_state_at pre cur :
  add_state (pre ++ [mkS cur false]) false = (pre ++ [mkS cur false; mkS [] false], nlen pre + 1).
Proof. rewrite add_state_spec, to_state_id_id, nlen_snoc, <- app_assoc. reflexivity. Qed.

Lemma add_ranges_at pre cur rs :
  add_transitions_list (pre ++ [mkS cur false; mkS [] false]) (nlen pre) rs (nlen pre + 1)
  = Some (push pre cur rs ++ [mkS [] false]).
Proof. rewrite add_transitions_list_at. unfold push. rewrite <- app_assoc. reflexivity. Qed.

Lemma compile_single_at pre cur lo hi :
  compile_single (pre ++ [mkS cur false]) (nlen pre) lo hi
  = Some (push pre cur [(lo, hi)] ++ [mkS [] false], nlen pre + 1).
Proof.
  unfold compile_single. rewrite add_state_at.
  pose proof (add_ranges_at pre cur [(lo, hi)]) as E. cbn [add_transitions_list] in E.
  destruct (add_transition _ _ _) as [p2|]; [|discriminate]. injection E as ->. reflexivity.
Qed.

Lemma compile_loop_chain fuel : forall rest pre cur a,
  compile_loop fuel (pre ++ [mkS cur false]) (nlen pre) rest = Ok (Some a) ->
  exists es, parses rest es /\ a = pre ++ chain_from (nlen pre) cur es.
Proof.
  induction fuel as [|f IH]; intros rest pre cur a H; [discriminate|].
  assert (Hpush : forall rs rest',
            compile_loop f (push pre cur rs ++ [mkS [] false]) (nlen pre + 1) rest' = Ok (Some a) ->
            (forall es, parses rest' es -> parses rest (ERanges rs :: es)) ->
            exists es, parses rest es /\ a = pre ++ chain_from (nlen pre) cur es).
  { intros rs rest' H' Hp. rewrite <- (push_nlen pre cur rs) in H'. apply IH in H' as (es & P & ->).
    exists (ERanges rs :: es). split; [exact (Hp es P)|apply chain_from_push]. }
  destruct rest as [|ch rest1]; cbn [compile_loop] in H.
  - unfold set_end in H. rewrite upd_n_mid in H. injection H as <-.
    exists []. split; [constructor|reflexivity].
  - destruct (N.eqb_spec ch 42) as [->|H42].
    { rewrite add_transition_at in H. apply IH in H as (es & P & ->).
      exists (EStar :: es). split; [constructor; exact P|reflexivity]. }
    destruct (N.eqb_spec ch 63) as [->|H63].
    { rewrite compile_single_at in H. apply (Hpush _ _ H). intros es P. constructor; exact P. }
    destruct (N.eqb_spec ch 92) as [->|H92].
    { destruct rest1 as [|ch2 rest2]; [discriminate|].
      rewrite compile_single_at in H. apply (Hpush _ _ H). intros es P. constructor; exact P. }
    destruct (N.eqb_spec ch 91) as [->|H91].
    { unfold compile_char_class, add_transitions in H.
      destruct (skip_byte 94 rest1) as [neg r1] eqn:Esk. rewrite add_state_at in H.
      destruct (class_loop r1 chars_empty) as [[chars rest2]|] eqn:Ecl; [|discriminate].
      rewrite add_ranges_at in H. apply (Hpush _ _ H). intros es P. econstructor; eassumption. }
    rewrite compile_single_at in H. apply (Hpush _ _ H). intros es P. constructor; assumption.
Qed.

Theorem compile_chain pat a : compile pat = Ok (Some a) ->
  exists es, parses pat es /\ a = chain_from 0 [] es.
Proof. intros H. unfold compile in H. rewrite add_state_spec in H. exact (compile_loop_chain _ pat [] [] a H). Qed.

Lemma fires_any c n : c < 256 -> fires c (mkT 0 255 n) = true.
Proof. unfold fires. cbn [tmin tmax]. lia. Qed.

Lemma existsb_mk_trans c (g : N -> bool) m rs :
  existsb (fun t => fires c t && g (tto t)) (map (mk_trans m) rs) = in_ranges rs c && g m.
Proof.
  induction rs as [|[lo hi] rs IH]; [reflexivity|].
  cbn [map existsb in_ranges]. unfold in_ranges in IH. rewrite IH.
  unfold mk_trans, fires. cbn [fst snd tmin tmax tto].
  destruct ((lo <=? c) && (c <=? hi)), (existsb (fun r => (fst r <=? c) && (c <=? snd r)) rs), (g m); reflexivity.
Qed.

Lemma nth_n_mid {A} (pre : list A) x post : nth_n (pre ++ x :: post) (nlen pre) = Some x.
Proof. rewrite nth_n_app_r by lia. rewrite N.sub_diag. reflexivity. Qed.

(* With or without a star in front, the matching of es is the one function that
   agrees with it on the empty word and, after a byte, may in addition (with a
   star) go on as before.  A state of the chain with a self-loop is like that. *)
Lemma gmatch_opt_star (star : bool) es (h : str -> bool) :
  h [] = gmatch es [] ->
  (forall c s, c < 256 -> is_bytes s -> h (c :: s) = gmatch es (c :: s) || star && h s) ->
  forall s, is_bytes s -> h s = gmatch (if star then EStar :: es else es) s.
Proof.
  intros H0 H1. induction 1 as [|c s Hc Hs IH].
  - rewrite H0. destruct star; [rewrite gmatch_star, orb_false_r|]; reflexivity.
  - rewrite H1, IH by assumption. destruct star; [symmetry; apply gmatch_star|apply orb_false_r].
Qed.

(* cur holds the self-loops of the current state: none, or (star) at least one *)
Lemma chain_accepts es : forall pre cur (star : bool),
  (forall f, existsb f cur = star && f (mkT 0 255 (nlen pre))) ->
  forall s, is_bytes s ->
  accepts (pre ++ chain_from (nlen pre) cur es) (nlen pre) s = gmatch (if star then EStar :: es else es) s.
Proof.
  induction es as [|[|rs] es IH]; intros pre cur star Hcur; cbn [chain_from].
  - apply gmatch_opt_star.
    + rewrite accepts_nil, nth_n_mid. reflexivity.
    + intros c s Hc _. rewrite accepts_cons, nth_n_mid. cbn [trans].
      rewrite Hcur, fires_any by exact Hc. reflexivity.
  - intros s Hs. rewrite (IH pre _ true); [|intro f|exact Hs].
    + destruct star; [symmetry; apply gmatch_star_star|reflexivity].
    + rewrite existsb_app, Hcur. cbn [existsb]. destruct star, (f (mkT 0 255 (nlen pre))); reflexivity.
  - set (n := nlen pre). set (st := mkS (cur ++ map (mk_trans (n + 1)) rs) false).
    set (A := pre ++ st :: chain_from (n + 1) [] es).
    assert (Hnext : forall s, is_bytes s -> accepts A (n + 1) s = gmatch es s).
    { intros s Hs. rewrite <- (IH (pre ++ [st]) [] false (fun _ => eq_refl) s Hs).
      rewrite nlen_snoc, <- app_assoc. reflexivity. }
    assert (Hnth : nth_n A n = Some st) by apply nth_n_mid.
    apply gmatch_opt_star.
    + rewrite accepts_nil, Hnth. reflexivity.
    + intros c s Hc Hs. rewrite accepts_cons, Hnth. unfold st at 1. cbn [trans].
      rewrite existsb_app, Hcur, (existsb_mk_trans c (fun q => accepts A q s)), fires_any, Hnext by assumption.
      apply orb_comm.
Qed.

Lemma chain_targets es : forall n cur, (forall t, In t cur -> tto t <= n) ->
  targets_ok (n + 1 + nonstars es) (chain_from n cur es).
Proof.
  induction es as [|[|rs] es IH]; intros n cur Hcur; cbn [chain_from nonstars].
  - intros st [<-|[]] t Ht. cbn [trans] in Ht. specialize (Hcur t Ht). lia.
  - apply IH. intros t Ht. apply in_app_or in Ht as [Ht|[<-|[]]]; [apply Hcur; exact Ht|cbn [tto]; lia].
  - intros st [<-|Hst] t Ht.
    + cbn [trans] in Ht. apply in_app_or in Ht as [Ht|Ht].
      * specialize (Hcur t Ht). lia.
      * apply in_map_iff in Ht as (r & <- & _). cbn [mk_trans tto]. lia.
    + assert (G : targets_ok (n + 1 + 1 + nonstars es) (chain_from (n + 1) [] es)) by (apply IH; intros ? []).
      specialize (G st Hst t Ht). lia.
Qed.

Lemma chain_wf es : wf (chain_from 0 [] es).
Proof.
  split.
  - intro E. pose proof (chain_from_nlen es 0 []) as L. rewrite E in L. cbn [nlen] in L. lia.
  - rewrite chain_from_nlen. apply (chain_targets es 0 []). intros t [].
Qed.

Theorem matchp_chain es s : is_bytes s -> matchp (chain_from 0 [] es) s = Ok (gmatch es s).
Proof.
  intro Hs. rewrite matchp_accepts by apply chain_wf. f_equal.
  exact (chain_accepts es [] [] false (fun _ => eq_refl) s Hs).
Qed.
