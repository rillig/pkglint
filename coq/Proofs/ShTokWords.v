(* Proofs about Model/ShTok.v, part 5: on a text that is a sequence of simple words
   (Spec.ShWords) separated by single blanks, splitIntoShellTokens returns exactly
   these words and an empty rest. *)
From PV Require Lib.LinesLib.
From PV Require Import Lib.Bytes Model.ShTok Spec.ShWords Proofs.ShTok.
From Coq Require Import ZifyBool ZifyN ZifyNat.
Open Scope N_scope.

Definition tail_ok (x : str) : Prop := x = [] \/ exists b x', x = b :: x' /\ is_hspace b = true.

Lemma hspace_cases b : is_hspace b = true -> b = 32 \/ b = 9.
Proof. intro H. apply orb_true_iff in H as [H|H]; apply N.eqb_eq in H; auto. Qed.

Lemma tail_ok_cases x : tail_ok x -> x = [] \/ (exists x', x = 32 :: x') \/ (exists x', x = 9 :: x').
Proof.
  intros [->|(b & x' & -> & Hb)]; [auto|]. destruct (hspace_cases b Hb) as [->| ->]; eauto.
Qed.

Lemma tail_ok_blank x' : tail_ok (32 :: x').
Proof. right. exists 32, x'. auto. Qed.

Lemma tail_ok_head b y : tail_ok (b :: y) -> is_hspace b = true.
Proof. intros [Z|(b' & y' & Z & Hb)]; [discriminate|]. injection Z as -> _. exact Hb. Qed.

Lemma not_class (f : N -> bool) c b : f c = true -> f b = false -> (c =? b) = false.
Proof. intros Hc Hb. destruct (N.eqb_spec c b) as [->|]; congruence. Qed.

Lemma tail_rejects f x : tail_ok x -> f 32 = false -> f 9 = false -> LinesLib.head_not f x.
Proof.
  intros Hx H32 H9. destruct (tail_ok_cases x Hx) as [->|[(y & ->)|(y & ->)]]; [exact I|assumption..].
Qed.

Lemma span_app_l f (a x : str) :
  (snd (span f a) = [] -> LinesLib.head_not f x) ->
  span f (a ++ x) = (fst (span f a), snd (span f a) ++ x).
Proof.
  intro Hx. rewrite <- (span_app f a) at 1. rewrite <- app_assoc.
  apply LinesLib.span_app_exact; [apply span_all|].
  pose proof (LinesLib.span_rest_head_not f a) as Hr.
  destruct (snd (span f a)); [exact (Hx eq_refl)|exact Hr].
Qed.

Lemma snd_span_inside f (a x : str) c r :
  snd (span f a) = c :: r -> snd (span f (a ++ x)) = (c :: r) ++ x.
Proof.
  intro H. rewrite span_app_l; [cbn [snd]; rewrite H; reflexivity|]. rewrite H. discriminate.
Qed.

Lemma snd_span_tail f (a x : str) : tail_ok x -> f 32 = false -> f 9 = false ->
  snd (span f (a ++ x)) = snd (span f a) ++ x.
Proof.
  intros Hx H32 H9. rewrite span_app_l; [reflexivity|]. intros _. exact (tail_rejects f x Hx H32 H9).
Qed.

(* since_app in the form that `rewrite` finds in a text written with `::` *)
Lemma since1 a (r : str) : since (a :: r) r = Ok [a].
Proof. exact (since_app [a] r). Qed.
Lemma since2 a b (r : str) : since (a :: b :: r) r = Ok [a; b].
Proof. exact (since_app [a; b] r). Qed.
Lemma since3 a b c (r : str) : since (a :: b :: c :: r) r = Ok [a; b; c].
Proof. exact (since_app [a; b; c] r). Qed.

Lemma op_span_head f h t : op_span f (h :: t) = if f h then Some (snd (span f (h :: t))) else None.
Proof. unfold op_span. cbn [span]. destruct (f h); [destruct (span f t)|]; reflexivity. Qed.

Lemma strip_prefix_head_false p0 p h t : (h =? p0) = false -> strip_prefix (p0 :: p) (h :: t) = None.
Proof. intro H. cbn [strip_prefix]. rewrite N.eqb_sym, H. reflexivity. Qed.

Lemma op_byte_head_false b h t : (h =? b) = false -> op_byte b (h :: t) = None.
Proof. intro H. cbn [op_byte]. rewrite H. reflexivity. Qed.

Lemma re_bs_any_head_false h t : (h =? 92) = false -> re_bs_any (h :: t) = None.
Proof. intro H. unfold re_bs_any. destruct t; [reflexivity|]. rewrite H. reflexivity. Qed.

Lemma re_dollars_other_head_false h t : (h =? 36) = false -> re_dollars_other (h :: t) = false.
Proof. intro H. unfold re_dollars_other. destruct t as [|b [|c t]]; try reflexivity. rewrite H. reflexivity. Qed.

Lemma str_eqb_head_false h t p0 p : (h =? p0) = false -> str_eqb (h :: t) (p0 :: p) = false.
Proof. intro H. cbn [str_eqb]. rewrite H. reflexivity. Qed.

Lemma not_ulimit_head h t : (h =? 36) = false -> h :: t <> ulimit_cmd.
Proof. intros Hh E. injection E as -> _. discriminate. Qed.

Lemma sh_operator_redirect q h t :
  (h =? 124) = false -> (h =? 38) = false -> (h =? 59) = false -> (h =? 10) = false ->
  (h =? 40) = false -> (h =? 41) = false ->
  sh_operator q (h :: t) = first_alt [ (re_redirect, ShtOperator, q) ] (h :: t).
Proof.
  intros A B C D E F. unfold sh_operator. cbn [first_alt]. unfold op_string.
  rewrite !strip_prefix_head_false, op_span_head, D, !op_byte_head_false by assumption.
  reflexivity.
Qed.

Lemma re_shvarname_ext w r x : re_shvarname w = Some r -> tail_ok x ->
  re_shvarname (w ++ x) = Some (r ++ x).
Proof.
  intros H Hx. destruct w as [|c t]; [discriminate|]. unfold re_shvarname in *. cbn [app].
  destruct (in_set [33; 35; 42; 45; 63; 64] c); [injection H as <-; reflexivity|].
  destruct (c =? 36).
  { destruct t as [|c1 t1]; [discriminate|]. cbn [app]. destruct (c1 =? 36); [|discriminate].
    injection H as <-. reflexivity. }
  destruct (is_alpha c || (c =? 95)).
  { injection H as <-. rewrite (snd_span_tail is_word_byte t x Hx eq_refl eq_refl). reflexivity. }
  destruct (is_digit c); [|discriminate].
  injection H as <-. rewrite (snd_span_tail is_digit t x Hx eq_refl eq_refl). reflexivity.
Qed.

(* a modifier that ends inside w (in front of the closing brace) *)
Lemma re_shmodifier_ext w c r x : re_shmodifier w = Some (c :: r) ->
  re_shmodifier (w ++ x) = Some ((c :: r) ++ x).
Proof.
  intros H. destruct w as [|b t]; [discriminate|]. unfold re_shmodifier in *. cbn [app]. cbv zeta in *.
  assert (T : forall u, Some (snd (span is_shmod_byte u)) = Some (c :: r) ->
              Some (snd (span is_shmod_byte (u ++ x))) = Some ((c :: r) ++ x)).
  { intros u E. injection E as E. rewrite (snd_span_inside is_shmod_byte u x c r E). reflexivity. }
  assert (B : forall k u, Some (snd (span is_shmod_byte (match op_byte k u with Some t' => t' | None => u end))) = Some (c :: r) ->
              Some (snd (span is_shmod_byte (match op_byte k (u ++ x) with Some t' => t' | None => u ++ x end))) = Some ((c :: r) ++ x)).
  { intros k [|b1 u1] E; [discriminate|].
    cbn [app op_byte] in *. destruct (b1 =? k); [apply (T u1)|apply (T (b1 :: u1))]; exact E. }
  destruct (b =? 35); [apply B; exact H|].
  destruct (b =? 37); [apply B; exact H|].
  destruct (b =? 58).
  { destruct t as [|c1 t1]; [discriminate|]. cbn [app]. destruct (is_shmod_op c1); [|discriminate].
    apply T. exact H. }
  destruct (is_shmod_op b); [|discriminate]. apply T. exact H.
Qed.

Lemma shvar_rest_ext w r x : shvar_rest w = Some r -> tail_ok x -> shvar_rest (w ++ x) = Some (r ++ x).
Proof.
  intros H Hx. destruct w as [|d t]; [discriminate|]. unfold shvar_rest in *. cbn [app].
  destruct (is_digit d); [injection H as <-; reflexivity|].
  destruct (d =? 36); [discriminate|]. cbn [op_byte] in *. destruct (d =? 123).
  - destruct (re_shvarname t) as [w2|] eqn:E2; [|discriminate]. rewrite (re_shvarname_ext _ _ x E2 Hx).
    destruct (re_shmodifier w2) as [[|b3 w3]|] eqn:E3; [discriminate| |].
    + rewrite (re_shmodifier_ext _ _ _ x E3). cbn [app op_byte] in *.
      destruct (b3 =? 125); [injection H as <-; reflexivity|discriminate].
    + destruct w2 as [|b2 w2']; [discriminate|]. cbn [op_byte] in H.
      destruct (N.eqb_spec b2 125) as [->|]; [|discriminate]. injection H as <-. reflexivity.
  - exact (re_shvarname_ext (d :: t) _ x H Hx).
Qed.

Definition shvar_head (d : N) : bool :=
  is_digit d || (d =? 123) || in_set [33; 35; 42; 45; 63; 64] d || is_alpha d || (d =? 95).

Lemma shvar_head_start d : shvar_head d = true -> is_shvar_start d = true.
Proof.
  unfold shvar_head, is_shvar_start, in_set, is_alpha, is_digit, is_lower, is_upper. cbn [existsb]. lia.
Qed.

Lemma shvar_rest_head w r : shvar_rest w = Some r ->
  exists d t, w = d :: t /\ is_shvar_start d = true /\ (d =? 36) = false /\ (d =? 40) = false.
Proof.
  destruct w as [|d t]; [discriminate|]. intro H. exists d, t. split; [reflexivity|].
  assert (Hd : shvar_head d = true).
  { revert H. unfold shvar_rest, shvar_head. destruct (is_digit d) eqn:Dg; [reflexivity|].
    destruct (d =? 36) eqn:D36; [discriminate|]. cbn [op_byte].
    destruct (d =? 123); [reflexivity|]. unfold re_shvarname.
    destruct (in_set _ d); [reflexivity|]. cbn [orb]. rewrite D36, Dg.
    destruct (is_alpha d || (d =? 95)); [reflexivity|discriminate]. }
  split; [exact (shvar_head_start d Hd)|].
  split; apply (not_class shvar_head d _ Hd); reflexivity.
Qed.

Lemma sh_expr_dollars q w : (forall t, w <> 36 :: t) ->
  sh_expr q (36 :: 36 :: w) =
  match shvar_rest w with
  | Some r => bind (since (36 :: 36 :: w) r) (fun text => Ok (Some (mk_atom ShtShExpr text q, r)))
  | None => Ok None
  end.
Proof.
  intro Hw. unfold sh_expr, shvar_rest, op_string, dollars. cbn [strip_prefix]. rewrite !N.eqb_refl.
  destruct w as [|d t]; [reflexivity|].
  destruct (is_digit d).
  - cbn [skip length Nat.leb skipn bind]. rewrite since3. reflexivity.
  - destruct (N.eqb_spec d 36) as [->|_]; [destruct (Hw t eq_refl)|].
    destruct (op_byte 123 (d :: t)) as [w1|]; cbv beta iota.
    + destruct (re_shvarname w1) as [w2|]; [|reflexivity]. destruct (op_byte 125 _); reflexivity.
    + destruct (re_shvarname (d :: t)); reflexivity.
Qed.

(* that the text of the atom is what was consumed comes from sh_expr_ok,
   not from running [since] *)
Lemma sh_expr_shvar q w r x : shvar_rest w = Some r -> tail_ok x ->
  exists v, v <> [] /\ 36 :: 36 :: w = v ++ r /\
    sh_expr q (36 :: 36 :: w ++ x) = Ok (Some (mk_atom ShtShExpr v q, r ++ x)).
Proof.
  intros H Hx. pose proof (sh_expr_ok q (36 :: 36 :: w ++ x)) as G.
  assert (Hw : forall t, w ++ x <> 36 :: t).
  { destruct (shvar_rest_head w r H) as (d & t & -> & _ & D & _). intros t' [= -> _]. discriminate. }
  rewrite (sh_expr_dollars q _ Hw), (shvar_rest_ext w r x H Hx) in *.
  destruct (since _ _) as [v| |]; cbn [bind step_sat] in *; try contradiction.
  destruct G as (c & [= <-] & Hv & E). exists v. split; [exact Hv|]. split; [|reflexivity].
  apply (app_inv_tail x). rewrite <- app_assoc. exact E.
Qed.

Section Words.

Variable expr : str -> option (str * str).
Variable rx : str -> option str.

Notation wordp := (wordp rx).

(* the class f accepts none of the bytes that mean something special in state q *)
Definition stops (q : wq) (f : N -> bool) : Prop :=
  match q with
  | WPlain => f 32 = false /\ f 9 = false /\ f 34 = false /\ f 39 = false /\ f 92 = false /\ f 36 = false
  | WDq => f 34 = false /\ f 92 = false /\ f 36 = false
  | WSq => f 39 = false
  end.

Lemma span_word q f x : tail_ok x -> stops q f ->
  forall u, wordp q u ->
  exists p u', u = p ++ u' /\ span f (u ++ x) = (p, u' ++ x) /\ wordp q u'.
Proof.
  intros Hx Hs. induction u as [|c u IH]; intro H.
  - exists [], []. split; [reflexivity|]. split; [|exact H]. inversion H; subst.
    destruct Hs as (H32 & H9 & _).
    exact (LinesLib.span_app_exact f [] x eq_refl (tail_rejects f x Hx H32 H9)).
  - destruct (f c) eqn:Fc.
    + (* a byte that f accepts is an ordinary byte of the word *)
      assert (Hu : wordp q u).
      { inversion H; subst; try assumption; exfalso; try (destruct q; [| |contradiction]);
          cbn [stops] in Hs; intuition congruence. }
      destruct (IH Hu) as (p & u' & E1 & E2 & E3).
      exists (c :: p), u'. split; [cbn; congruence|]. split; [|exact E3].
      cbn [app span]. rewrite Fc, E2. reflexivity.
    + exists [], (c :: u). split; [reflexivity|]. split; [|exact H].
      cbn [app span]. rewrite Fc. reflexivity.
Qed.

Definition dqf (q : wq) : bool := match q with WDq => true | _ => false end.
Definition sqf (q : wq) : bool := match q with WSq => true | _ => false end.
Definition Qq (q : wq) : quoting := match q with WPlain => QPlain | WDq => QDquot | WSq => QSquot end.

Lemma if_guard {A} (b c : bool) (v : A) :
  (if b then (if c then Some v else None) else None) = if b && c then Some v else None.
Proof. destruct b; reflexivity. Qed.

Lemma sqf_false q : q <> WSq -> sqf q = false.
Proof. destruct q; [reflexivity..|contradiction]. Qed.

Lemma istep_nil dq sq : internal_step dq sq [] = Ok None.
Proof. destruct dq, sq; reflexivity. Qed.

Lemma istep_byte dq sq h t : (h =? 36) = false -> (sq = false -> (h =? 92) = false) ->
  internal_step dq sq (h :: t) =
    if is_text_byte h then Ok (Some (snd (span is_text_byte (h :: t))))
    else if dq && is_dq_byte h then Ok (Some (snd (span is_dq_byte (h :: t))))
    else if sq && (h =? 96) then Ok (Some t)
    else if sq && is_sq_byte h then Ok (Some (snd (span is_sq_byte (h :: t))))
    else Ok None.
Proof.
  intros H36 H92. unfold internal_step, re_text, re_dq, re_sq. cbn [op_byte]. rewrite !op_span_head, !if_guard.
  destruct (is_text_byte h); [reflexivity|]. destruct (dq && is_dq_byte h); [reflexivity|].
  destruct (sq && (h =? 96)); [reflexivity|]. destruct (sq && is_sq_byte h); [reflexivity|].
  unfold op_string, dollars, bs_dollars. destruct sq.
  - rewrite (strip_prefix_head_false 36 _ h t H36). reflexivity.
  - specialize (H92 eq_refl).
    rewrite (strip_prefix_head_false 92 _ h t H92), (re_bs_any_head_false h t H92),
            (re_dollars_other_head_false h t H36), !(str_eqb_head_false h t 36 _ H36). reflexivity.
Qed.

Lemma istep_dollar_none dq c t :
  (c =? 36) = false \/ (exists d t', t = d :: t' /\ is_shvar_start d = true) ->
  internal_step dq false (36 :: c :: t) = Ok None.
Proof.
  intro H. unfold internal_step, re_text, re_dq. rewrite !op_span_head.
  replace (if dq then _ else None) with (@None str) by (destruct dq; reflexivity). cbv beta iota.
  unfold op_string, bs_dollars. rewrite strip_prefix_head_false, re_bs_any_head_false by reflexivity. unfold re_dollars_other, dollars. cbn [str_eqb].
  destruct H as [-> | (d & t' & -> & ->)]; [destruct t|destruct (c =? 36)]; reflexivity.
Qed.

Lemma istep_esc dq d t : (d =? 36) = false -> (d <? 128) = true ->
  internal_step dq false (92 :: d :: t) = Ok (Some t).
Proof.
  intros H36 Hd. unfold internal_step, re_text, re_dq. rewrite !op_span_head.
  replace (if dq then _ else None) with (@None str) by (destruct dq; reflexivity). cbv beta iota.
  unfold op_string, bs_dollars. cbn [strip_prefix]. rewrite N.eqb_refl, (N.eqb_sym 36), H36.
  unfold re_bs_any. rewrite N.eqb_refl, H36.
  unfold utf8_width. replace (d <? 194) with true by lia. reflexivity.
Qed.

Lemma istep_escdd dq t : internal_step dq false (92 :: 36 :: 36 :: t) = Ok (Some t).
Proof. destruct dq; reflexivity. Qed.

Definition dollar_start (s : str) : bool :=
  match s with a :: c :: _ => (a =? 36) && negb (c =? 36) | _ => false end.

Hypothesis Hnone : forall s, dollar_start s = false -> expr s = None.
Hypothesis Hrx : forall w r x, rx (36 :: w) = Some r ->
  exists e, 36 :: w = e ++ r /\ e <> [] /\ expr ((36 :: w) ++ x) = Some (e, r ++ x).

Lemma rx_head w r : rx (36 :: w) = Some r -> exists c t, w = c :: t /\ (c =? 36) = false.
Proof.
  intro H. destruct (Hrx w r [] H) as (e & _ & _ & E).
  destruct (dollar_start ((36 :: w) ++ [])) eqn:D; [|rewrite (Hnone _ D) in E; discriminate].
  rewrite app_nil_r in D. destruct w as [|c t]; [discriminate|]. exists c, t. split; [reflexivity|].
  cbn in D. destruct (c =? 36); [discriminate|reflexivity].
Qed.

Definition inner (q : wq) : N -> bool :=
  match q with WPlain => is_wtext | WDq => is_dq_inner | WSq => is_sq_inner end.

Definition text_item (q : wq) (u : str) : Prop :=
  match u with
  | [] => False
  | c :: _ => c = 92 \/ inner q c = true
  end.

Lemma no_text_dollar q t : ~ text_item q (36 :: t).
Proof. intros [E|E]; [discriminate|destruct q; discriminate]. Qed.

Lemma istep_word q u x : wordp q u -> tail_ok x ->
  match internal_step (dqf q) (sqf q) (u ++ x) with
  | Ok (Some r) => exists u', r = u' ++ x /\ wordp q u'
  | Ok None => ~ text_item q u
  | _ => False
  end.
Proof.
  intros H Hx.
  assert (S : forall f, stops q f -> exists u', snd (span f (u ++ x)) = u' ++ x /\ wordp q u').
  { intros f Hs. destruct (span_word q f x Hx Hs u H) as (p & u' & _ & E & H'). rewrite E. cbn [snd]. eauto. }
  inversion H; subst; cbn [dqf sqf app] in *.
  - (* end of the word *)
    destruct (tail_ok_cases x Hx) as [->|[(y & ->)|(y & ->)]];
      [rewrite istep_nil|rewrite istep_byte by reflexivity ..]; exact (fun f => f).
  - (* a text byte outside quotes *)
    rewrite istep_byte; try intros _; try (apply (not_class _ c _ H0); reflexivity).
    apply andb_true_iff in H0 as [-> _]. apply S. repeat split.
  - rewrite istep_byte by reflexivity. cbn. intuition discriminate.
  - rewrite istep_byte by reflexivity. cbn. intuition discriminate.
  - rewrite istep_byte by reflexivity. cbn. intuition discriminate.
  - (* a byte inside double quotes *)
    rewrite istep_byte; try intros _; try (apply (not_class _ c _ H0); reflexivity).
    unfold is_dq_inner in H0. cbn [andb]. destruct (is_text_byte c); [|cbn [orb] in H0; rewrite H0];
      apply S; repeat split.
  - rewrite istep_byte by (reflexivity || discriminate). cbn. intuition discriminate.
  - (* a byte inside single quotes *)
    rewrite istep_byte; [|apply (not_class _ c _ H0); reflexivity|discriminate].
    unfold is_sq_inner in H0. cbn [andb]. destruct (is_text_byte c); [apply S; reflexivity|].
    destruct (c =? 96); [eauto|]. rewrite orb_false_r in H0. cbn [orb] in H0. rewrite H0. apply S. reflexivity.
  - (* backslash + byte *)
    rewrite (sqf_false q H0), (istep_esc _ _ _ H1 H2). eauto.
  - (* backslash dollar dollar *)
    rewrite (sqf_false q H0), istep_escdd. eauto.
  - (* a shell variable: the loop stops in front of it *)
    destruct (shvar_rest_head _ _ H1) as (d & t & -> & Hd & _ & _).
    rewrite (sqf_false q H0), istep_dollar_none; [apply no_text_dollar|right; exists d, (t ++ x); auto].
  - (* a make expression: the loop stops in front of it *)
    destruct (rx_head _ _ H1) as (c & t & -> & Hc). cbn [app].
    rewrite (sqf_false q H0), istep_dollar_none; [apply no_text_dollar|left; exact Hc].
Qed.

Lemma loop_land q x : tail_ok x -> forall fuel u r, wordp q u ->
  internal_loop fuel (dqf q) (sqf q) (u ++ x) = Ok r ->
  exists u1, r = u1 ++ x /\ wordp q u1.
Proof.
  intros Hx. induction fuel as [|f IH]; intros u r H E; [discriminate|].
  cbn [internal_loop] in E. pose proof (istep_word q u x H Hx) as S1.
  destruct (internal_step (dqf q) (sqf q) (u ++ x)) as [[r1|]| |]; cbn [bind] in E; try discriminate.
  - destruct S1 as (u' & -> & H'). exact (IH u' r H' E).
  - injection E as <-. eauto.
Qed.

(* c is none of the bytes that ShAtom takes itself in state q *)
Definition no_switch (q : wq) (c : N) : Prop :=
  match q with
  | WPlain => (c =? 34) = false /\ (c =? 39) = false /\ (c =? 32) = false /\ (c =? 9) = false
  | WDq => (c =? 34) = false /\ (c =? 96) = false
  | WSq => (c =? 39) = false
  end.

Lemma text_item_head q u : text_item q u -> exists c t, u = c :: t /\ (c =? 36) = false /\ no_switch q c.
Proof.
  destruct u as [|c t]; [contradiction|]. intro H. exists c, t. split; [reflexivity|].
  destruct H as [->|H]; [destruct q; cbn; auto|].
  destruct q; cbn [no_switch]; repeat split; apply (not_class _ c _ H); reflexivity.
Qed.

Lemma internal_text q u x iw : wordp q u -> tail_ok x -> text_item q u ->
  exists p u1, p <> [] /\ u = p ++ u1 /\ wordp q u1 /\
    sh_atom_internal (Qq q) (dqf q) (sqf q) (iw, u ++ x)
    = Ok (Some (mk_atom ShtText p (Qq q)), (true, u1 ++ x)).
Proof.
  intros H Hx Ht.
  assert (Hd : sh_expr (Qq q) (u ++ x) = Ok None).
  { destruct (text_item_head q u Ht) as (c & t & -> & C36 & _). unfold sh_expr, op_string, dollars.
    cbn [app]. rewrite (strip_prefix_head_false _ _ _ _ C36). reflexivity. }
  destruct (internal_loop_ok (dqf q) (sqf q) _ (u ++ x) (Nat.lt_succ_diag_r _)) as (p & r & El & Es & Hp).
  destruct (loop_land q x Hx _ _ _ H El) as (u1 & -> & H1).
  assert (Hne : p <> []).
  { (* the first iteration does not break *)
    intro Z. pose proof (istep_word q u x H Hx) as S1. rewrite (Hp Z) in S1. exact (S1 Ht). }
  exists p, u1. split; [exact Hne|]. split; [rewrite app_assoc in Es; exact (app_inv_tail _ _ _ Es)|].
  split; [exact H1|].
  unfold sh_atom_internal. rewrite Hd. cbn [bind]. rewrite El. cbn [bind].
  rewrite Es, since_app. cbn [bind]. destruct p; [congruence|reflexivity].
Qed.

Lemma expr_none_head c t : (c =? 36) = false -> expr (c :: t) = None.
Proof. intro H. apply Hnone. cbn. destruct t; [reflexivity|]. rewrite H. reflexivity. Qed.

Lemma expr_none_tail x : tail_ok x -> expr x = None.
Proof.
  intro Hx. destruct (tail_ok_cases x Hx) as [->|[(y & ->)|(y & ->)]]; [apply Hnone; reflexivity| |];
    apply expr_none_head; reflexivity.
Qed.

Definition word_first (h : N) : bool := is_wtext h || in_set [34; 39; 92; 36] h.

Lemma word_first_byte h u : wordp WPlain (h :: u) -> word_first h = true.
Proof.
  intro H. unfold word_first. inversion H; subst; try reflexivity.
  apply orb_true_iff. left. assumption.
Qed.

Definition plain_head (h : N) : bool := word_first h || is_hspace h.

Lemma word_head u x h t : wordp WPlain u -> tail_ok x -> u ++ x = h :: t -> plain_head h = true.
Proof.
  intros H Hx E. unfold plain_head. destruct u as [|c u]; cbn [app] in E.
  - rewrite E in Hx. rewrite (tail_ok_head h t Hx). apply orb_true_r.
  - injection E as <- _. rewrite (word_first_byte c u H). reflexivity.
Qed.

Lemma re_redirect_word u x : wordp WPlain u -> tail_ok x -> re_redirect (u ++ x) = None.
Proof.
  intros H Hx. unfold re_redirect.
  destruct (span_word WPlain is_digit x Hx ltac:(repeat split) u H) as (p & u' & _ & E & H').
  rewrite E. cbn [snd]. destruct (u' ++ x) as [|h t] eqn:Eu; [reflexivity|].
  pose proof (word_head u' x h t H' Hx Eu) as Hh.
  unfold redirect_ops. cbn [first_prefix].
  rewrite !strip_prefix_head_false by (apply (not_class _ h _ Hh); reflexivity). reflexivity.
Qed.

Lemma sh_operator_word q u x : wordp WPlain u -> tail_ok x -> sh_operator q (u ++ x) = Ok None.
Proof.
  intros H Hx. pose proof (re_redirect_word u x H Hx) as R.
  destruct (u ++ x) as [|h t] eqn:Eu; [reflexivity|].
  pose proof (word_head u x h t H Hx Eu) as Hh.
  rewrite sh_operator_redirect by (apply (not_class _ h _ Hh); reflexivity).
  cbn [first_alt]. rewrite R. reflexivity.
Qed.

Lemma dispatch_internal q u x iw c t : wordp q u -> tail_ok x -> u ++ x = c :: t -> no_switch q c ->
  op_string dollars_paren (c :: t) = None ->
  exists iw0, sh_atom_dispatch (Qq q) (iw, u ++ x)
              = sh_atom_internal (Qq q) (dqf q) (sqf q) (iw0, u ++ x).
Proof.
  intros H Hx Eu Hc Hsub. destruct q; cbn [Qq dqf sqf sh_atom_dispatch no_switch] in *.
  - exists false. destruct Hc as (H34 & H39 & H32 & H9). unfold sh_atom_plain.
    rewrite (sh_operator_word QPlain u x H Hx). pose proof (word_head u x c t H Hx Eu) as Hh.
    rewrite Eu. cbn [bind first_alt]. unfold op_hspace, is_hspace. rewrite op_span_head, H32, H9.
    rewrite !op_byte_head_false by (assumption || (apply (not_class _ c _ Hh); reflexivity)).
    cbn [orb bind]. rewrite (not_class _ c 35 Hh eq_refl). cbn [andb].
    unfold alts_then_internal. cbn [first_alt]. rewrite Hsub. reflexivity.
  - exists iw. destruct Hc as [A B]. rewrite Eu. unfold sh_atom_dquot, alts_then_internal. cbn [first_alt].
    rewrite (op_byte_head_false 34 c _ A), (op_byte_head_false 96 c _ B). reflexivity.
  - exists iw. rewrite Eu. unfold sh_atom_squot, alts_then_internal. cbn [first_alt].
    rewrite (op_byte_head_false 39 c _ Hc). reflexivity.
Qed.

Inductive toggle : wq -> N -> wq -> Prop :=
| T_dq : toggle WPlain 34 WDq
| T_sq : toggle WPlain 39 WSq
| T_dq_end : toggle WDq 34 WPlain
| T_sq_end : toggle WSq 39 WPlain.

Lemma dispatch_toggle q c q' iw t : toggle q c q' ->
  sh_atom_dispatch (Qq q) (iw, c :: t)
  = Ok (Some (mk_atom ShtText [c] (Qq q')), ((match q with WPlain => false | _ => iw end), t)).
Proof. intros []; cbn -[since]; rewrite since1; reflexivity. Qed.

(* rx does not take the expression that ShToken skips *)
Hypothesis Hul : forall r, rx (ulimit_cmd ++ r) = None.

Definition atom_step_result (q : wq) (u x : str) (iw : bool) : Prop :=
  exists a iw' q' u',
    sh_atom expr (Qq q) (iw, u ++ x) = Ok (Some a, (iw', u' ++ x)) /\
    a_quot a = Qq q' /\ wordp q' u' /\ u = a_text a ++ u' /\ a_text a <> [] /\
    is_word (a_type a) = true /\ a_text a <> ulimit_cmd.

Lemma atom_step_dispatch q q' u u' x iw iw' ty p :
  expr (u ++ x) = None ->
  sh_atom_dispatch (Qq q) (iw, u ++ x) = Ok (Some (mk_atom ty p (Qq q')), (iw', u' ++ x)) ->
  u = p ++ u' -> p <> [] -> is_word ty = true -> p <> ulimit_cmd -> wordp q' u' ->
  atom_step_result q u x iw.
Proof.
  intros Ex D Eu Hp Hty Hu H'. exists (mk_atom ty p (Qq q')), iw', q', u'.
  split; [|cbn [a_quot a_text a_type]; auto 8].
  unfold sh_atom. destruct (u ++ x) eqn:E; [|rewrite Ex, D; reflexivity].
  destruct p; [congruence|]. subst u. discriminate.
Qed.

Lemma atom_step_text q u x iw : wordp q u -> tail_ok x -> text_item q u -> atom_step_result q u x iw.
Proof.
  intros H Hx Ht. destruct (text_item_head q u Ht) as (c & t & -> & C36 & Hc).
  destruct (dispatch_internal q _ x iw c (t ++ x) H Hx eq_refl Hc) as (iw0 & D).
  { apply strip_prefix_head_false, C36. }
  destruct (internal_text q _ x iw0 H Hx Ht) as (p & u1 & Hp & Eu1 & H1 & Ei).
  rewrite Ei in D. apply (atom_step_dispatch q q (c :: t) u1 x iw true ShtText p (expr_none_head c _ C36)); auto.
  destruct p as [|y z]; [congruence|]. injection Eu1 as <- _. apply not_ulimit_head, C36.
Qed.

Lemma atom_step_toggle q c q' u x iw : toggle q c q' -> wordp q' u -> atom_step_result q (c :: u) x iw.
Proof.
  intros T H'.
  apply (atom_step_dispatch q q' _ u x iw (match q with WPlain => false | _ => iw end) ShtText [c]);
    try (reflexivity || discriminate || assumption).
  - apply expr_none_head. destruct T; reflexivity.
  - apply dispatch_toggle, T.
Qed.

Lemma atom_step q u x iw : wordp q u -> u <> [] -> tail_ok x -> atom_step_result q u x iw.
Proof.
  intros H Hne Hx. inversion H; subst.
  - congruence.
  - apply atom_step_text; cbn; auto.
  - apply (atom_step_toggle WPlain 34 WDq); [constructor|assumption].
  - apply (atom_step_toggle WPlain 39 WSq); [constructor|assumption].
  - apply (atom_step_toggle WDq 34 WPlain); [constructor|assumption].
  - apply atom_step_text; cbn; auto.
  - apply (atom_step_toggle WSq 39 WPlain); [constructor|assumption].
  - apply atom_step_text; cbn; auto.
  - apply atom_step_text; cbn; auto.
  - apply atom_step_text; cbn; auto.
  - (* shell variable *)
    destruct (sh_expr_shvar (Qq q) w r x H1 Hx) as (v & Hv & Ev & Es).
    destruct (shvar_rest_head w r H1) as (d & t & -> & _ & _ & D40).
    destruct (dispatch_internal q _ x iw 36 (36 :: d :: t ++ x) H Hx eq_refl) as (iw0 & D).
    { destruct q; [| |contradiction]; cbn; auto. }
    { unfold op_string, dollars_paren. cbn [strip_prefix]. rewrite !N.eqb_refl, (N.eqb_sym 40), D40. reflexivity. }
    apply (atom_step_dispatch q q (36 :: 36 :: d :: t) r x iw true ShtShExpr v (Hnone (36 :: 36 :: _) eq_refl)); auto.
    + rewrite D. unfold sh_atom_internal. cbn [app] in *. rewrite Es. reflexivity.
    + intros ->. discriminate Ev.
  - (* make expression *)
    destruct (Hrx w r x H1) as (e & Ee & Hne' & Ex).
    exists (mk_atom ShtExpr e (Qq q)), true, q, r.
    split; [unfold sh_atom; cbn [app] in *; rewrite Ex; reflexivity|].
    cbn [a_quot a_text a_type is_word]. repeat split; auto.
    intros ->. rewrite Ee, Hul in H1. discriminate.
Qed.

Lemma space_atom iw b y : is_hspace b = true ->
  sh_atom expr QPlain (@pair bool str iw (b :: y))
  = Ok (Some (mk_atom ShtSpace (fst (span is_hspace (b :: y))) QPlain), (false, snd (span is_hspace (b :: y)))).
Proof.
  intro Hb. assert (B36 : (b =? 36) = false) by (destruct (hspace_cases b Hb) as [-> | ->]; reflexivity).
  unfold sh_atom. rewrite (expr_none_head b y B36). cbn [sh_atom_dispatch]. unfold sh_atom_plain.
  assert (Ho : sh_operator QPlain (b :: y) = Ok None).
  { apply (sh_operator_word QPlain [] (b :: y)); [constructor|]. right. exists b, y. auto. }
  rewrite Ho. cbn [bind first_alt]. unfold op_hspace. rewrite op_span_head, Hb.
  rewrite <- (span_app is_hspace (b :: y)) at 1. rewrite since_app. reflexivity.
Qed.

Lemma after_atom (p u' x : str) n : p <> [] -> (length ((p ++ u') ++ x) < S n)%nat -> (length (u' ++ x) < n)%nat.
Proof. intros Hp Hl. rewrite <- app_assoc in Hl. pose proof (app_nonempty_shorter p (u' ++ x) Hp). lia. Qed.

Lemma word_collect fuel : forall q u x pq iw acc,
  wordp q u -> tail_ok x -> (length (u ++ x) < fuel)%nat ->
  exists k2 more,
    collect_atoms expr fuel (mk_tkst None (Qq q) pq (@pair bool str iw (u ++ x))) acc = Ok (k2, acc ++ more) /\
    snd (t_st k2) = x /\ t_q k2 = QPlain.
Proof.
  induction fuel as [|f IH]; intros q u x pq iw acc H Hx Hf; [lia|].
  cbn [collect_atoms]. unfold peek. cbn [t_curr t_q t_st snd].
  destruct u as [|c0 u0].
  - (* end of the word *)
    inversion H; subst. cbn [app Qq].
    destruct x as [|b y]; [|rewrite (space_atom iw b y (tail_ok_head b y Hx))];
      eexists _, []; rewrite app_nil_r; (split; [reflexivity|split; reflexivity]).
  - destruct (atom_step q (c0 :: u0) x iw H ltac:(discriminate) Hx)
      as (a & iw' & q' & u' & E & Ea & H' & Eu & Hn & Hw & _).
    unfold str in *. rewrite E. cbn [bind t_curr]. rewrite Hw. cbn [negb andb]. unfold set_curr. cbn [t_q t_prevq t_st]. rewrite Ea.
    rewrite Eu in Hf.
    destruct (IH q' u' x (Qq q) iw' (acc ++ [a]) H' Hx (after_atom _ _ _ _ Hn Hf)) as (k2 & more & E2 & R2).
    rewrite E2. exists k2, (a :: more). rewrite <- app_assoc. auto.
Qed.

(* the part of ShToken after the loop that skips the blanks *)
Definition tok_cont (f : nat) (k : tkst) (initial_mark : str) : res (option token * state) :=
  match t_curr k with
  | None => Ok (None, t_st k)
  | Some curr =>
    if str_eqb (a_text curr) ulimit_cmd then sh_token_fuel expr f (t_st k)
    else if negb (is_word (a_type curr)) && negb (quoting_eqb (t_q k) QSubsh) then
      bind (new_sh_token (a_text curr) [curr]) (fun t => Ok (Some t, t_st k))
    else
      bind (collect_atoms expr f k []) (fun '(k2, atoms) =>
      if negb (quoting_eqb (t_q k2) QPlain) then
        Ok (None, (fst (t_st k2), initial_mark))
      else
        bind (since initial_mark (snd (t_st k2))) (fun text =>
        bind (new_sh_token text atoms) (fun t => Ok (Some t, t_st k2))))
  end.

Lemma sh_token_fuel_S f st :
  sh_token_fuel expr (S f) st
  = bind (skip_spaces expr f (mk_tkst None QPlain QPlain st) (snd st)) (fun '(k, im) => tok_cont f k im).
Proof. reflexivity. Qed.

Lemma skip_blank f iw (y : str) init : LinesLib.head_not is_hspace y ->
  skip_spaces expr (S f) (mk_tkst None QPlain QPlain (@pair bool str iw (32 :: y))) init
  = skip_spaces expr f (mk_tkst None QPlain QPlain (@pair bool str false y)) y.
Proof.
  intros Hy. cbn [skip_spaces]. unfold peek. cbn [t_curr t_q t_st].
  rewrite (space_atom iw 32 y eq_refl). change (32 :: y) with ([32] ++ y).
  rewrite (LinesLib.span_app_exact is_hspace [32] y eq_refl Hy). reflexivity.
Qed.

Lemma redirect_prefix p x : In p redirect_ops -> tail_ok x -> first_prefix redirect_ops (p ++ x) = Some x.
Proof.
  intros Hin Hx. unfold redirect_ops in Hin. cbn [In] in Hin.
  destruct (tail_ok_cases x Hx) as [->|[(y & ->)|(y & ->)]];
    repeat (destruct Hin as [<-|Hin]; [reflexivity|]); contradiction.
Qed.

Lemma redirect_head p : In p redirect_ops -> exists h t, p = h :: t /\ in_set [60; 62] h = true.
Proof.
  unfold redirect_ops. cbn [In]. intro Hin.
  repeat (destruct Hin as [<-|Hin]; [eexists _, _; split; reflexivity|]). contradiction.
Qed.

Lemma existsb_str_eqb (w : str) l : existsb (str_eqb w) l = true -> In w l.
Proof.
  intro H. apply existsb_exists in H as (p & Hin & E). apply str_eqb_eq in E. subst p. exact Hin.
Qed.

Definition redirect_first (h : N) : bool := is_digit h || in_set [60; 62] h.
Definition op_head (h : N) : bool := redirect_first h || in_set [59; 38; 124; 40; 41] h.

Lemma operator_word_atom q o x : is_operator_word o = true -> tail_ok x ->
  sh_operator q (o ++ x) = Ok (Some (mk_atom ShtOperator o q, x)) /\
  exists h t, o = h :: t /\ op_head h = true.
Proof.
  intros Ho Hx. unfold is_operator_word in Ho. apply orb_true_iff in Ho as [Ho|Ho].
  - apply existsb_str_eqb in Ho. unfold plain_operators in Ho. cbn [In] in Ho.
    destruct (tail_ok_cases x Hx) as [->|[(y & ->)|(y & ->)]];
      repeat (destruct Ho as [<-|Ho];
              [split; [cbn -[since]; rewrite ?since1, ?since2; reflexivity
                      |eexists _, _; split; reflexivity]|]);
      contradiction.
  - apply existsb_str_eqb in Ho. destruct (redirect_head _ Ho) as (ph & pt & Ep & Hph).
    assert (R : re_redirect (o ++ x) = Some x).
    { unfold re_redirect. rewrite (snd_span_inside is_digit o x ph pt Ep), <- Ep.
      apply redirect_prefix; assumption. }
    destruct o as [|h t]; [discriminate Ep|].
    assert (Hh : redirect_first h = true).
    { unfold redirect_first. cbn [span] in Ep. destruct (is_digit h); [reflexivity|].
      cbn [snd] in Ep. injection Ep as -> _. exact Hph. }
    split; [|exists h, t; unfold op_head; rewrite Hh; auto]. cbn [app] in *.
    rewrite sh_operator_redirect by (apply (not_class _ h _ Hh); reflexivity).
    cbn [first_alt]. rewrite R. change (h :: t ++ x) with ((h :: t) ++ x). rewrite since_app. reflexivity.
Qed.

Lemma simple_word_nonblank w x : simple_word rx w -> tail_ok x -> LinesLib.head_not is_hspace (w ++ x).
Proof.
  intros [Hne Hw] Hx. destruct w as [|c u]; [congruence|]. cbn [app LinesLib.head_not].
  assert (Hc : word_first c || op_head c = true).
  { destruct Hw as [H|H]; [rewrite (word_first_byte c u H); reflexivity|].
    destruct (operator_word_atom QPlain _ x H Hx) as (_ & h' & t' & [= <- _] & ->). apply orb_true_r. }
  pose proof (not_class (fun c => word_first c || op_head c) c) as N. cbv beta in N.
  unfold is_hspace. rewrite (N 32 Hc eq_refl), (N 9 Hc eq_refl). reflexivity.
Qed.

Lemma token_of_skip f1 f2 iw w x : simple_word rx w -> tail_ok x -> (length (w ++ x) + 1 <= f2)%nat ->
  exists atoms iw2,
    bind (skip_spaces expr (S f1) (mk_tkst None QPlain QPlain (@pair bool str iw (w ++ x))) (w ++ x))
         (fun '(k, im) => tok_cont f2 k im)
    = Ok (Some (mk_token w atoms), (iw2, x)).
Proof.
  intros [Hne [H|H]] Hx Hf; cbn [skip_spaces]; unfold peek; cbn [t_curr t_q t_st].
  - (* a word: the loop stops at its first atom, the second loop collects the others *)
    destruct (atom_step WPlain w x iw H Hne Hx) as (a & iw' & q' & u' & E & Ea & H' & Eu & Hn & Hw & Hu).
    cbn [Qq] in E. unfold str in *. rewrite E. cbn [bind t_curr].
    replace (is_space_type (a_type a)) with false by (destruct (a_type a); try discriminate; reflexivity).
    cbn [bind]. unfold tok_cont. cbn [t_curr t_st t_q]. rewrite (str_eqb_neq _ _ Hu), Hw. cbn [negb andb].
    destruct f2 as [|f]; [lia|]. cbn [collect_atoms]. unfold peek.
    cbn [t_curr bind]. rewrite Hw. cbn [negb andb]. unfold set_curr. cbn [t_q t_prevq t_st]. rewrite Ea.
    destruct (word_collect f q' u' x QPlain iw' ([] ++ [a]) H' Hx) as (k2 & more & E2 & R2 & Q2).
    { apply (after_atom (a_text a)); [exact Hn|]. rewrite <- Eu. lia. }
    unfold str in *. rewrite E2. cbn [bind]. rewrite Q2, R2. cbn [quoting_eqb negb]. rewrite since_app. cbn [bind].
    destruct w; [congruence|]. destruct (t_st k2) as [iw2 r2]. cbn [snd] in R2. subst r2.
    cbn [new_sh_token app bind]. eauto.
  - (* an operator: a token of its own *)
    destruct (operator_word_atom QPlain w x H Hx) as (Ea & h & t & -> & Hh).
    pose proof (not_class _ h 36 Hh eq_refl) as H36.
    unfold sh_atom. cbn [app] in *. rewrite (expr_none_head h _ H36). cbn [sh_atom_dispatch].
    unfold sh_atom_plain. unfold str in *. rewrite Ea. cbn [bind t_curr a_type is_space_type].
    unfold tok_cont. cbn [t_curr a_text a_type is_word t_q t_st].
    rewrite (str_eqb_neq _ _ (not_ulimit_head h t H36)). cbn. eauto.
Qed.

Lemma simple_token f iw g w x : g = [] \/ g = [32] -> simple_word rx w -> tail_ok x ->
  (length (g ++ w ++ x) + 2 <= f)%nat ->
  exists atoms iw2,
    sh_token_fuel expr f (@pair bool str iw (g ++ w ++ x)) = Ok (Some (mk_token w atoms), (iw2, x)).
Proof.
  intros Hg Hw Hx Hf. destruct f as [|[|f]]; try lia. rewrite sh_token_fuel_S. cbn [snd].
  destruct Hg as [-> | ->]; cbn [app length] in *.
  - apply token_of_skip; auto. lia.
  - destruct f as [|f]; [lia|]. rewrite (skip_blank (S f) iw (w ++ x) _ (simple_word_nonblank w x Hw Hx)).
    apply token_of_skip; auto. lia.
Qed.

Lemma tokens_step fuel iw g w x : g = [] \/ g = [32] -> simple_word rx w -> tail_ok x ->
  exists atoms iw2,
    sh_tokens_loop expr (S fuel) (@pair bool str iw (g ++ w ++ x))
    = bind (sh_tokens_loop expr fuel (@pair bool str iw2 x)) (fun '(l, st) => Ok ((mk_token w atoms, x) :: l, st)).
Proof.
  intros Hg Hw Hx. cbn [sh_tokens_loop]. unfold sh_token. cbn [snd].
  destruct (simple_token _ iw g w x Hg Hw Hx (le_n _)) as (atoms & iw2 & E).
  rewrite E. exists atoms, iw2. reflexivity.
Qed.

Lemma tokens_words : forall ws g fuel iw, g = [] \/ g = [32] -> ws <> [] -> Forall (simple_word rx) ws ->
  (length (g ++ unwords ws) < fuel)%nat ->
  exists l iw', sh_tokens_loop expr fuel (@pair bool str iw (g ++ unwords ws)) = Ok (l, (iw', [])) /\
               map (fun p => tok_text (fst p)) l = ws.
Proof.
  induction ws as [|w ws IH]; intros g fuel iw Hg Hne Hs Hf; [congruence|].
  inversion Hs as [|? ? Hw Hws]; subst. destruct fuel as [|f]; [lia|].
  assert (Hl : (0 < length w)%nat) by (destruct Hw as [Hw _]; destruct w; [congruence|cbn; lia]).
  destruct ws as [|w' ws'].
  - cbn [unwords] in *. replace (g ++ w) with (g ++ w ++ []) in * by (rewrite app_nil_r; reflexivity).
    destruct (tokens_step f iw g w [] Hg Hw (or_introl eq_refl)) as (atoms & iw2 & E). rewrite E.
    destruct f as [|f]; [rewrite !app_length in Hf; lia|]. eexists _, iw2. split; reflexivity.
  - change (unwords (w :: w' :: ws')) with (w ++ 32 :: unwords (w' :: ws')) in *.
    destruct (tokens_step f iw g w _ Hg Hw (tail_ok_blank (unwords (w' :: ws')))) as (atoms & iw2 & E).
    rewrite E.
    destruct (IH [32] f iw2 (or_intror eq_refl) ltac:(discriminate) Hws) as (l & iw' & E' & El).
    { rewrite !app_length in Hf. cbn [app]. lia. }
    cbn [app] in E'. rewrite E'. eexists _, iw'. split; [reflexivity|]. cbn [map fst tok_text]. rewrite El. reflexivity.
Qed.

Theorem split_simple_words ws : Forall (simple_word rx) ws ->
  split_tokens expr (unwords ws) = Ok (ws, []).
Proof.
  intro Hs. destruct ws as [|w ws]; [reflexivity|]. unfold split_tokens, sh_tokens.
  destruct (tokens_words (w :: ws) [] (S (length (unwords (w :: ws)))) false (or_introl eq_refl)
              ltac:(discriminate) Hs (Nat.lt_succ_diag_r _)) as (l & iw' & E & El).
  cbn [app] in E. rewrite E. cbn [bind]. rewrite El. reflexivity.
Qed.

End Words.

Lemma word_scan_sound rx fuel : forall q u, word_scan rx fuel q u = true -> wordp rx q u.
Proof.
  induction fuel as [|f IH]; intros q u H; [discriminate|].
  cbn [word_scan] in H. destruct u as [|c t].
  - destruct q; try discriminate. constructor.
  - assert (Esc : forall q, q <> WSq ->
      match t with
      | d :: t1 => if d =? 36 then match t1 with e :: t2 => (e =? 36) && word_scan rx f q t2 | [] => false end
                   else (d <? 128) && word_scan rx f q t1
      | [] => false
      end = true -> wordp rx q (92 :: t)).
    { intros q0 Hq E. destruct t as [|d t1]; [discriminate|]. destruct (d =? 36) eqn:D.
      - destruct t1 as [|e t2]; [discriminate|]. apply andb_true_iff in E as [E E'].
        apply N.eqb_eq in D, E. subst d e. apply W_escdd; auto.
      - apply andb_true_iff in E as [L E]. apply W_esc; auto. }
    assert (Dol : forall q, q <> WSq ->
      match t with
      | d :: w => if d =? 36 then match shvar_rest w with Some r => word_scan rx f q r | None => false end
                  else match rx (36 :: t) with Some r => word_scan rx f q r | None => false end
      | [] => false
      end = true -> wordp rx q (36 :: t)).
    { intros q0 Hq E. destruct t as [|d w]; [discriminate|]. destruct (N.eqb_spec d 36) as [->|].
      - destruct (shvar_rest w) as [r|] eqn:S; [|discriminate]. apply (W_shvar rx q0 w r); auto.
      - destruct (rx (36 :: d :: w)) as [r|] eqn:R; [|discriminate]. apply (W_mk rx q0 (d :: w) r); auto. }
    destruct q.
    + (* outside quotes *)
      destruct (N.eqb_spec c 34) as [->|]; [apply WP_dq, IH, H|].
      destruct (N.eqb_spec c 39) as [->|]; [apply WP_sq, IH, H|].
      destruct (N.eqb_spec c 92) as [->|]; [apply Esc; [discriminate|exact H]|].
      destruct (N.eqb_spec c 36) as [->|]; [apply Dol; [discriminate|exact H]|].
      apply andb_true_iff in H as [T H]. apply WP_text; auto.
    + (* inside double quotes *)
      destruct (N.eqb_spec c 34) as [->|]; [apply WD_close, IH, H|].
      cbn match in H.
      destruct (N.eqb_spec c 92) as [->|]; [apply Esc; [discriminate|exact H]|].
      destruct (N.eqb_spec c 36) as [->|]; [apply Dol; [discriminate|exact H]|].
      apply andb_true_iff in H as [T H]. apply WD_byte; auto.
    + (* inside single quotes *)
      destruct (N.eqb_spec c 39) as [->|]; [apply WS_close, IH, H|].
      apply andb_true_iff in H as [T H]. apply WS_byte; auto.
Qed.

Lemma simple_word_b_sound rx w : simple_word_b rx w = true -> simple_word rx w.
Proof.
  unfold simple_word_b, simple_word. intro H. apply andb_true_iff in H as [Hn H].
  split; [destruct w; [discriminate|discriminate]|].
  apply orb_true_iff in H as [H|H]; [left; exact (word_scan_sound rx _ _ _ H)|right; exact H].
Qed.
