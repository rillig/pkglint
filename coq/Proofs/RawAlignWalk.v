(* getRawValueAlign (raw_value_align_loop) on two raw texts that share a prefix:
   if the walk along p1 stays inside the common prefix F of (F ++ x), then the walk on (F ++ y)
   along p1 ++ blanks succeeds. *)
From Coq Require Import List Lia ZArith NArith Bool.
From PV Require Import Lib.Bytes Model.MkLexPrim Model.MkLineSplit Spec.MkPartition Proofs.MkLexPrim
  Proofs.Varassign.
From Coq Require Import ZifyBool ZifyN ZifyNat.
Import ListNotations.
Open Scope N_scope.

Notation L := raw_value_align_loop.

(* ends with a byte that is no blank *)
Definition ends_nh (p : str) : Prop := rtrim_hspace p = p /\ p <> [].

Lemma ends_nh_tail c p : ends_nh (c :: p) -> p <> [] -> ends_nh p.
Proof. intros [H _] Hp. split; [eapply rtrim_fixed_tail; exact H|exact Hp]. Qed.

Lemma ends_nh_single c : ends_nh [c] -> is_hspace c = false.
Proof. intros [H _]. cbn in H. destruct (is_hspace c); [discriminate|reflexivity]. Qed.

Lemma rtrim_nil_all s : rtrim_hspace s = [] -> forallb is_hspace s = true.
Proof. intro H. destruct (rtrim_hspace_app s) as (sp & E & B). rewrite H in E. rewrite E. exact B. Qed.

Lemma span_ends_nh F z : ends_nh F ->
  span is_hspace (F ++ z) = (fst (span is_hspace F), snd (span is_hspace F) ++ z) /\
  ends_nh (snd (span is_hspace F)).
Proof.
  induction F as [|c t IH]; intros [H Hne]; [congruence|].
  cbn [span app]. destruct (is_hspace c) eqn:Hc.
  - assert (Ht : t <> []).
    { intro; subst t. cbn in H. rewrite Hc in H. discriminate. }
    destruct (IH (ends_nh_tail _ _ (conj H Hne) Ht)) as [E1 E2].
    rewrite E1. destruct (span is_hspace t) as [a b]. cbn [fst snd] in *. split; [reflexivity|exact E2].
  - split; [reflexivity|]. cbn [snd]. split; assumption.
Qed.

Lemma span_head_hspace c t : is_hspace c = true ->
  (length (snd (span is_hspace (c :: t))) < length (c :: t))%nat.
Proof.
  intro Hc. pose proof (span_length is_hspace (c :: t)) as E. cbn [span] in *. rewrite Hc in *.
  destruct (span is_hspace t) as [a b]. cbn [fst snd length] in *. lia.
Qed.

Lemma loop_suffix : forall fuel r p r', L fuel r p = Ok r' ->
  is_suffix r' r /\ ((length r <= length r')%nat -> forallb is_hspace p = true).
Proof.
  induction fuel as [|f IH]; intros r p r' H; [discriminate|].
  cbn [raw_value_align_loop] in H.
  destruct p as [|pch p1]; [inversion H; split; [apply is_suffix_refl|reflexivity]|].
  assert (Chop : forall r1, chops r r1 -> L f r1 p1 = Ok r' ->
            is_suffix r' r /\ ((length r <= length r')%nat -> forallb is_hspace (pch :: p1) = true)).
  { intros r1 C H1. destruct (IH _ _ _ H1) as [S1 _].
    pose proof (chops_length _ _ C). pose proof (is_suffix_length _ _ S1).
    split; [eapply is_suffix_trans; [exact S1|apply chops_suffix, C]|lia]. }
  destruct (match r with rch :: _ => pch =? rch | [] => false end).
  - destruct r as [|rch r1]; [discriminate|]. apply (Chop r1); [apply chops_cons|exact H].
  - destruct (is_hspace pch).
    + destruct (IH _ _ _ H) as [S1 B1]. pose proof (next_bytes_suffix is_hspace r) as S0.
      split; [eapply is_suffix_trans; eassumption|]. intro Hl. apply is_suffix_length in S0.
      rewrite <- (span_app is_hspace (pch :: p1)), forallb_app, span_all. apply B1. lia.
    + destruct (negb (pch =? 35)); [discriminate|].
      destruct (skip_string [92; 35] r) as [r1|] eqn:E; [|discriminate].
      apply (Chop r1); [exact (skip_string_chops [92; 35] r r1 ltac:(discriminate) E)|exact H].
Qed.

Lemma loop_blanks : forall fuel q r, forallb is_hspace q = true -> (length q < fuel)%nat ->
  exists r', L fuel r q = Ok r'.
Proof.
  induction fuel as [|f IH]; intros q r Hq Hf; [lia|].
  cbn [raw_value_align_loop]. destruct q as [|pch q1]; [eexists; reflexivity|].
  cbn [forallb] in Hq. apply andb_true_iff in Hq as [Hc Hq1].
  destruct (match r with rch :: _ => pch =? rch | [] => false end) eqn:M.
  - destruct r as [|rch r1]; [discriminate|]. rewrite skip_ok by (simpl; lia). cbn [bind skipn].
    apply IH; [exact Hq1|simpl in Hf; lia].
  - rewrite Hc. apply IH.
    + pose proof (span_app is_hspace (pch :: q1)) as Hp. unfold next_bytes.
      assert (Hall : forallb is_hspace (pch :: q1) = true) by (cbn [forallb]; rewrite Hc, Hq1; reflexivity).
      rewrite <- Hp in Hall. rewrite forallb_app in Hall. apply andb_true_iff in Hall as [_ H2]. exact H2.
    + pose proof (span_head_hspace pch q1 Hc). unfold next_bytes. simpl in *. lia.
Qed.

Lemma loop_prefix : forall fuel fuel' r p1 hs rr, rtrim_hspace p1 = p1 -> L fuel r (p1 ++ hs) = Ok rr ->
  (length p1 < fuel')%nat -> exists r', L fuel' r p1 = Ok r'.
Proof.
  induction fuel as [|f IH]; intros fuel' r p1 hs rr Hp H Hf; [discriminate|].
  destruct fuel' as [|f']; [lia|].
  destruct p1 as [|pch p1']; [eexists; reflexivity|].
  cbn [raw_value_align_loop app] in *.
  assert (Next : forall r1, L f r1 (p1' ++ hs) = Ok rr -> exists r', L f' r1 p1' = Ok r').
  { intros r1 H1. eapply IH; [eapply rtrim_fixed_tail; exact Hp|exact H1|simpl in Hf; lia]. }
  destruct (match r with rch :: _ => pch =? rch | [] => false end).
  - destruct (skip 1 r) as [r1| |]; cbn [bind] in *; try discriminate. apply Next; exact H.
  - destruct (is_hspace pch) eqn:Hh.
    + destruct (span_ends_nh (pch :: p1') hs) as [E1 [E2 _]]; [split; [exact Hp|discriminate]|].
      unfold next_bytes in *. rewrite app_comm_cons, E1 in H. cbn [snd] in H.
      eapply IH; [exact E2|exact H|].
      pose proof (span_head_hspace pch p1' Hh). simpl in *. lia.
    + destruct (negb (pch =? 35)); [discriminate|].
      destruct (skip_string [92; 35] r) as [r1|]; [|discriminate]. apply Next; exact H.
Qed.

Lemma loop_common_prefix : forall fuelT fuel p1 hs F x y rT,
  rtrim_hspace p1 = p1 -> forallb is_hspace hs = true -> rtrim_hspace F = F ->
  L fuelT (F ++ x) p1 = Ok rT -> (length x <= length rT)%nat ->
  (length (p1 ++ hs) < fuel)%nat ->
  exists r', L fuel (F ++ y) (p1 ++ hs) = Ok r'.
Proof.
  induction fuelT as [|fT IH]; intros fuel p1 hs F x y rT Hp Hhs HF H Hl Hf; [discriminate|].
  destruct p1 as [|pch p1']; [apply loop_blanks; assumption|].
  destruct fuel as [|f]; [lia|].
  (* an empty common prefix: the walk would have to consume something of x *)
  destruct F as [|c F'].
  { exfalso. cbn [app] in H. pose proof (proj2 (loop_suffix _ _ _ _ H) Hl) as B.
    apply rtrim_all_blanks in B. rewrite B in Hp. discriminate. }
  cbn [raw_value_align_loop app] in *.
  assert (Next : forall F2, rtrim_hspace F2 = F2 -> L fT (F2 ++ x) p1' = Ok rT ->
            exists r', L f (F2 ++ y) (p1' ++ hs) = Ok r').
  { intros F2 HF2 H1.
    eapply IH; [eapply rtrim_fixed_tail; exact Hp|exact Hhs|exact HF2|exact H1|exact Hl|simpl in Hf; lia]. }
  destruct (pch =? c) eqn:Ec.
  - rewrite skip_ok in * by (simpl; lia). cbn [bind skipn] in *.
    apply (Next F'); [eapply rtrim_fixed_tail; exact HF|exact H].
  - destruct (is_hspace pch) eqn:Hh.
    + assert (HFn : ends_nh (c :: F')) by (split; [exact HF|discriminate]).
      assert (Hpn : ends_nh (pch :: p1')) by (split; [exact Hp|discriminate]).
      destruct (span_ends_nh _ x HFn) as [Ex [E2 _]]. destruct (span_ends_nh _ y HFn) as [Ey _].
      destruct (span_ends_nh _ hs Hpn) as [Eh [Ep2 _]].
      unfold next_bytes in *. rewrite !app_comm_cons in *.
      rewrite Ex in H. rewrite Ey, Eh. cbn [snd] in *.
      eapply IH; [exact Ep2|exact Hhs|exact E2|exact H|exact Hl|].
      pose proof (span_head_hspace pch p1' Hh) as Hs.
      rewrite app_length in *. cbn [length] in *. lia.
    + destruct (negb (pch =? 35)); [discriminate|].
      unfold skip_string in *. cbn [strip_prefix] in *.
      destruct (92 =? c) eqn:E92; [|discriminate].
      destruct F' as [|c2 F3].
      * exfalso. cbn [app] in H. destruct x as [|x0 x1]; [discriminate|].
        destruct (35 =? x0); [|discriminate].
        apply loop_suffix, proj1, is_suffix_length in H. simpl in Hl. lia.
      * cbn [app] in *. destruct (35 =? c2); [|discriminate].
        apply (Next F3); [|exact H].
        eapply rtrim_fixed_tail. eapply rtrim_fixed_tail. exact HF.
Qed.
