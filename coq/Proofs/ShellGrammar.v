(* The generated inductive [derives] (one constructor per production of
   shell.y) and the generic derivation relation [gderives] over the generated
   production list are the same relation. *)
From Coq Require Import List.
From PV Require Import Gen.ShellGrammar Spec.Derivation.
Import ListNotations.

Lemma GDL_last s w : gderives s w -> gderives_list [s] w.
Proof. intro H. rewrite <- (app_nil_r w). apply GDL_cons; [exact H | apply GDL_nil]. Qed.

Lemma GDL_T t ss ws : gderives_list ss ws -> gderives_list (T t :: ss) (t :: ws).
Proof. apply (GDL_cons (T t) ss [t] ws), GD_term. Qed.

(* The right-hand sides of a nonterminal.  Both directions go through them: a
   proof of [In p productions] repeats the rest of the list at every step, which
   over 101 productions times 101 constructors is a minute of checking, while no
   nonterminal has more than seven alternatives. *)
Definition alternatives (lhs : nonterm) : list (list symbol) :=
  map snd (filter (fun p => nonterm_beq (fst p) lhs) productions).

Lemma in_alternatives lhs rhs : In (lhs, rhs) productions <-> In rhs (alternatives lhs).
Proof.
  unfold alternatives. rewrite in_map_iff. split.
  - intro H. exists (lhs, rhs). rewrite filter_In. simpl.
    repeat split; [exact H | apply internal_nonterm_dec_lb; reflexivity].
  - intros ([lhs' rhs'] & <- & H). apply filter_In in H. destruct H as [H E].
    apply internal_nonterm_dec_bl in E. simpl in E. subst lhs'. exact H.
Qed.

Lemma GD_alternative lhs rhs w :
  gderives_list rhs w -> In rhs (alternatives lhs) -> gderives (NT lhs) w.
Proof. intros Hw H. apply in_alternatives in H. exact (GD_prod lhs rhs w H Hw). Qed.

(* The yield in a constructor of [derives] spells out its right-hand side:
   [t :: _] for a terminal, [w ++ _] (or a last [w]) for a nonterminal whose
   derivation of [w] is an induction hypothesis. *)
Ltac spell_rhs :=
  repeat first
    [ apply GDL_nil
    | apply GDL_T
    | apply GDL_cons; [ eassumption | ]
    | apply GDL_last; eassumption ].

Theorem derives_gderives : forall n w, derives n w -> gderives (NT n) w.
Proof.
  induction 1; (eapply GD_alternative; [ solve [ spell_rhs ] | cbv; tauto ]).
Qed.

Fixpoint dl (ss : list symbol) (w : list term) : Prop :=
  match ss with
  | [] => w = []
  | T t :: ss' => exists ws, w = t :: ws /\ dl ss' ws
  | NT n :: ss' => exists w1 ws, w = w1 ++ ws /\ derives n w1 /\ dl ss' ws
  end.

Lemma production_sound : forall lhs rhs w, In (lhs, rhs) productions -> dl rhs w -> derives lhs w.
Proof.
  intros lhs rhs w Hin Hdl. apply in_alternatives in Hin.
  destruct lhs; cbv in Hin;
    repeat (destruct Hin as [<- | Hin];
      [ cbn [dl] in Hdl; decompose [ex and] Hdl; subst; rewrite ?app_nil_r;
        econstructor; eassumption | ]);
    destruct Hin.
Qed.

Scheme gderives_mut := Induction for gderives Sort Prop
  with gderives_list_mut := Induction for gderives_list Sort Prop.

Theorem gderives_derives : forall n w, gderives (NT n) w -> derives n w.
Proof.
  intros n w H.
  refine (gderives_mut
    (fun s w _ => match s with NT n => derives n w | T t => w = [t] end)
    (fun ss ws _ => dl ss ws) _ _ _ _ (NT n) w H).
  - reflexivity.
  - intros lhs rhs w0 Hin _ Hdl. exact (production_sound lhs rhs w0 Hin Hdl).
  - reflexivity.
  - intros s ss w0 ws _ Hs _ Hss. destruct s as [t | m]; simpl.
    + subst w0. exists ws. split; [reflexivity | exact Hss].
    + exists w0, ws. repeat split; assumption.
Qed.

Theorem derives_iff_gderives : forall n w, derives n w <-> gderives (NT n) w.
Proof. split; [apply derives_gderives | apply gderives_derives]. Qed.
