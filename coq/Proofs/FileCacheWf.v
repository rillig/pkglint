(* The cache's own bookkeeping: table and mapping stay in bijection, the table
   never exceeds its capacity, and what removeOldEntries evicts does not depend
   on which sorted permutation the unstable sort.Slice produced. *)
From PV Require Import Lib.Bytes Model.FileCache Proofs.FileCacheLists.
From Coq Require Import Permutation Sorting.Sorted Arith.
Open Scope N_scope.
Arguments map_set : simpl never.

(* what Put writes into an entry and nothing changes afterwards: everything but the count *)
Definition shape (e : entry) : N * N * list nat := (e_key e, e_opts e, e_lines e).

Lemma shape_eq e e' : shape e = shape e' ->
  e_key e = e_key e' /\ e_opts e = e_opts e' /\ e_lines e = e_lines e'.
Proof. unfold shape. intros H. inversion H. auto. Qed.

Definition same_shape (st st' : list entry) : Prop :=
  length st' = length st /\ forall i, shape (entry_at st' i) = shape (entry_at st i).

Lemma same_shape_refl st : same_shape st st.
Proof. split; auto. Qed.

Lemma same_shape_trans a b c : same_shape a b -> same_shape b c -> same_shape a c.
Proof. intros [L1 H1] [L2 H2]. split; [congruence|]. intros i. rewrite H2, H1; auto. Qed.

Lemma entry_at_upd_same st i e : (i < length st)%nat -> entry_at (upd i e st) i = e.
Proof. apply nth_upd_same. Qed.

Lemma entry_at_upd_other st i j e : i <> j -> entry_at (upd i e st) j = entry_at st j.
Proof. apply nth_upd_other. Qed.

Lemma entry_at_beyond st i : (length st <= i)%nat -> entry_at st i = dummy_entry.
Proof. intros; apply nth_overflow; auto. Qed.

Lemma entry_at_upd_inv {X} (f : entry -> X) st i e : f e = f (entry_at st i) ->
  forall j, f (entry_at (upd i e st) j) = f (entry_at st j).
Proof.
  intros H j. destruct (Nat.eq_dec i j) as [<-|Hne]; [|rewrite entry_at_upd_other; auto].
  destruct (Nat.lt_ge_cases i (length st)); [rewrite entry_at_upd_same|rewrite upd_beyond]; auto.
Qed.

Lemma same_shape_upd st i e : shape e = shape (entry_at st i) -> same_shape st (upd i e st).
Proof. intros H. split; [apply upd_length|apply entry_at_upd_inv, H]. Qed.

Lemma halve_all_shape tbl st : same_shape st (halve_all st tbl).
Proof.
  unfold halve_all. revert st; induction tbl as [|x t IH]; intros st; simpl; [apply same_shape_refl|].
  eapply same_shape_trans; [|apply IH]. apply same_shape_upd. reflexivity.
Qed.

Lemma halve_all_perm t1 t2 st : Permutation t1 t2 -> halve_all st t1 = halve_all st t2.
Proof.
  intros P. apply fold_left_perm; auto. clear. intros s x y.
  destruct (Nat.eq_dec x y) as [->|Hne]; auto.
  rewrite !entry_at_upd_other by auto. apply upd_comm; auto.
Qed.

Definition desc_sorted (st : list entry) (l : list nat) : Prop :=
  StronglySorted (fun a b => count_of st b <= count_of st a) l.
Definition asc_sorted (st : list entry) (l : list nat) : Prop :=
  StronglySorted (fun a b => count_of st a <= count_of st b) l.

Lemma insert_desc_perm st x l : Permutation (x :: l) (insert_desc st x l).
Proof.
  induction l as [|y t IH]; simpl; auto.
  destruct (count_of st y <? count_of st x); auto.
  eapply Permutation_trans; [apply perm_swap|]. auto.
Qed.

Lemma sort_desc_perm st l : Permutation l (sort_desc st l).
Proof.
  unfold sort_desc. induction l as [|x t IH]; simpl; auto.
  eapply Permutation_trans; [|apply insert_desc_perm]. auto.
Qed.

Lemma insert_desc_sorted st x l : desc_sorted st l -> desc_sorted st (insert_desc st x l).
Proof.
  unfold desc_sorted. induction l as [|y t IH]; simpl; intros H.
  - constructor; constructor.
  - inversion H as [|? ? Hs Hall]; subst.
    destruct (N.ltb_spec (count_of st y) (count_of st x)).
    + constructor; auto. constructor; [lia|].
      rewrite Forall_forall in *. intros z Hz. specialize (Hall z Hz). lia.
    + constructor; auto.
      rewrite Forall_forall in *. intros z Hz.
      apply (Permutation_in _ (Permutation_sym (insert_desc_perm st x t))) in Hz.
      destruct Hz as [<-|Hz]; auto.
Qed.

Lemma sort_desc_sorted st l : desc_sorted st (sort_desc st l).
Proof.
  unfold sort_desc. induction l; simpl; [constructor|]. apply insert_desc_sorted; auto.
Qed.

Lemma strongly_sorted_app {A} (R : A -> A -> Prop) l1 l2 :
  StronglySorted R l1 -> StronglySorted R l2 -> (forall a b, In a l1 -> In b l2 -> R a b) ->
  StronglySorted R (l1 ++ l2).
Proof.
  induction l1 as [|x t IH]; simpl; intros H1 H2 H; auto.
  inversion H1; subst. constructor; [apply IH; auto|].
  rewrite Forall_forall in *. intros y Hy. apply in_app_or in Hy. destruct Hy; auto.
Qed.

Lemma desc_rev_asc st l : desc_sorted st l -> asc_sorted st (rev l).
Proof.
  unfold desc_sorted, asc_sorted. induction l as [|x t IH]; simpl; intros H; [constructor|].
  inversion H as [|? ? Hs Hall]; subst. apply strongly_sorted_app; auto.
  - constructor; constructor.
  - intros a b Ha [<-|[]]. rewrite Forall_forall in Hall. apply Hall. apply in_rev; auto.
Qed.

Record wf_cache (c : cache) : Prop := {
  wf_get_in : forall k eid, map_get k (c_map c) = Some eid ->
    In eid (c_table c) /\ e_key (entry_at (c_store c) eid) = k;
  wf_in_get : forall eid, In eid (c_table c) ->
    (eid < length (c_store c))%nat /\
    map_get (e_key (entry_at (c_store c) eid)) (c_map c) = Some eid;
  wf_nodup : NoDup (c_table c);
  wf_keys : NoDup (map fst (c_map c));
  wf_cap : (length (c_table c) <= c_cap c)%nat
}.

Lemma wf_new size : wf_cache (new_file_cache size).
Proof.
  constructor; simpl; try (intros; discriminate); try tauto; try constructor; lia.
Qed.

Definition same_keys (st st' : list entry) : Prop :=
  length st' = length st /\ forall i, e_key (entry_at st' i) = e_key (entry_at st i).

Lemma same_shape_keys st st' : same_shape st st' -> same_keys st st'.
Proof. intros [HL HS]. split; auto. intros i. apply shape_eq, HS. Qed.

(* well-formedness looks at the keys of the stored entries and at the table as a set *)
Lemma wf_same_keys c st' tbl' h m :
  wf_cache c -> same_keys (c_store c) st' -> Permutation (c_table c) tbl' ->
  wf_cache (mkCache st' tbl' (c_map c) (c_cap c) h m).
Proof.
  intros [G I ND K C] [HL Hk] P. constructor; simpl; auto.
  - intros k eid H. rewrite Hk. destruct (G _ _ H). split; auto. eapply Permutation_in; eauto.
  - intros eid H. rewrite Hk, HL. apply I. eapply Permutation_in; [apply Permutation_sym|]; eauto.
  - eapply Permutation_NoDup; eauto.
  - rewrite <- (Permutation_length P). auto.
Qed.

Lemma same_keys_refl st : same_keys st st.
Proof. split; auto. Qed.

(* one entry leaves table and mapping: what Evict does, and removeOldEntries for every oldest entry *)
Lemma wf_drop c eid tbl' h m :
  wf_cache c -> Permutation (c_table c) (eid :: tbl') ->
  wf_cache (mkCache (c_store c) tbl' (map_del (e_key (entry_at (c_store c) eid)) (c_map c)) (c_cap c) h m).
Proof.
  intros [G I ND K C] P.
  assert (ND' : NoDup (eid :: tbl')) by (eapply Permutation_NoDup; eauto).
  inversion ND' as [|? ? Hnot ND'']; subst.
  assert (Hin : forall x, In x (c_table c) <-> x = eid \/ In x tbl').
  { intros x. split; intros H; [apply (Permutation_in _ P) in H|apply (Permutation_in _ (Permutation_sym P))];
      simpl in *; intuition. }
  destruct (I eid) as [_ E]; [apply Hin; auto|].
  constructor; simpl; auto.
  - intros k' eid' H. rewrite map_get_del in H.
    destruct (N.eqb_spec k' (e_key (entry_at (c_store c) eid))) as [->|Hne]; [discriminate|].
    destruct (G _ _ H) as [Hi Hk]. split; auto. apply Hin in Hi. destruct Hi as [->|]; auto. congruence.
  - intros eid' H. destruct (I eid') as [HL HG]; [apply Hin; auto|]. split; auto.
    rewrite map_get_del_other; auto. intros Heq. rewrite Heq, E in HG. congruence.
  - apply map_del_nodup; auto.
  - apply Permutation_length in P. simpl in P. lia.
Qed.

Definition keys_of (st : list entry) (l : list nat) : list N := map (fun x => e_key (entry_at st x)) l.

Lemma wf_drops rem : forall c keep h m, wf_cache c -> Permutation (c_table c) (rem ++ keep) ->
  wf_cache (mkCache (c_store c) keep (map_dels (keys_of (c_store c) rem) (c_map c)) (c_cap c) h m).
Proof.
  induction rem as [|x rem IH]; intros c keep h m W P; simpl.
  - apply wf_same_keys; auto using same_keys_refl.
  - apply (IH (mkCache (c_store c) (rem ++ keep) (map_del (e_key (entry_at (c_store c) x)) (c_map c)) (c_cap c) h m));
      [apply wf_drop|]; auto.
Qed.

Definition kept (c c' : cache) : Prop :=
  c_cap c' = c_cap c /\
  forall eid, In eid (c_table c') ->
    In eid (c_table c) /\ shape (entry_at (c_store c') eid) = shape (entry_at (c_store c) eid).

Lemma kept_refl c : kept c c.
Proof. split; auto. Qed.

Lemma kept_trans a b c : kept a b -> kept b c -> kept a c.
Proof.
  intros [C1 K1] [C2 K2]. split; [congruence|]. intros eid H.
  destruct (K2 _ H) as [H' S2]. destruct (K1 _ H') as [H'' S1]. split; [auto|congruence].
Qed.

Lemma kept_none c c' k : wf_cache c -> wf_cache c' -> kept c c' ->
  map_get k (c_map c) = None -> map_get k (c_map c') = None.
Proof.
  intros W W' [_ K] N. destruct (map_get k (c_map c')) as [eid|] eqn:E; auto.
  destruct (wf_get_in _ W' _ _ E) as [Hin Hk]. destruct (K _ Hin) as [Hin0 HS].
  destruct (wf_in_get _ W _ Hin0) as [_ G]. apply shape_eq in HS. destruct HS as [HS _]. congruence.
Qed.

Definition pruned (c : cache) (minc : N) (s : list nat) : cache :=
  let old x := count_of (c_store c) x =? minc in
  let keep := filter (fun x => negb (old x)) s in
  mkCache (halve_all (c_store c) keep) keep (map_dels (keys_of (c_store c) (filter old s)) (c_map c))
          (c_cap c) (c_hits c) (c_misses c).

Lemma strip_min_asc st minc l : forall m,
  asc_sorted st l -> (forall x, In x l -> minc <= count_of st x) ->
  strip_min st minc l m =
  (filter (fun x => negb (count_of st x =? minc)) l,
   map_dels (keys_of st (filter (fun x => count_of st x =? minc) l)) m).
Proof.
  induction l as [|x t IH]; intros m Hs Hmin; simpl; auto.
  inversion Hs as [|? ? Hs' Hall]; subst. rewrite Forall_forall in Hall.
  destruct (N.eqb_spec (count_of st x) minc) as [E|Hne]; simpl.
  - apply IH; auto using in_cons.
  - (* the table ascends: nothing after x has the least count *)
    assert (Hgt : forall y, In y t -> count_of st y =? minc = false).
    { intros y Hy. specialize (Hall y Hy). specialize (Hmin x (or_introl eq_refl)). apply N.eqb_neq. lia. }
    rewrite filter_id, filter_nil; auto. intros y Hy. rewrite Hgt; auto.
Qed.

Lemma remove_old_sorted_spec c s :
  desc_sorted (c_store c) s -> s <> [] ->
  exists lst, In lst s /\ (forall x, In x s -> count_of (c_store c) lst <= count_of (c_store c) x) /\
    remove_old_entries_sorted c s = Ok (pruned c (count_of (c_store c) lst) s).
Proof.
  intros Hs Hne. unfold remove_old_entries_sorted.
  pose proof (desc_rev_asc _ _ Hs) as Ha.
  destruct (rev s) as [|lst r] eqn:E.
  - exfalso. apply Hne. rewrite <- (rev_involutive s), E. auto.
  - assert (Hmin : forall x, In x s -> count_of (c_store c) lst <= count_of (c_store c) x).
    { intros x Hx. apply in_rev in Hx. rewrite E in Hx. destruct Hx as [<-|Hx]; [lia|].
      inversion Ha as [|? ? _ Hall]; subst. rewrite Forall_forall in Hall. auto. }
    exists lst. split; [apply in_rev; rewrite E; left; auto|]. split; auto.
    rewrite strip_min_asc; auto.
    + rewrite <- E, !filter_rev, rev_involutive. unfold pruned, keys_of. do 2 f_equal.
      apply map_dels_perm, Permutation_map, Permutation_sym, Permutation_rev.
    + intros x Hx. apply Hmin, in_rev. rewrite E; auto.
Qed.

Lemma pruned_perm c minc s1 s2 : Permutation s1 s2 ->
  c_map (pruned c minc s1) = c_map (pruned c minc s2) /\
  c_store (pruned c minc s1) = c_store (pruned c minc s2) /\
  Permutation (c_table (pruned c minc s1)) (c_table (pruned c minc s2)).
Proof.
  intros P. simpl. split; [|split].
  - apply map_dels_perm, Permutation_map, filter_perm; auto.
  - apply halve_all_perm, filter_perm; auto.
  - apply filter_perm; auto.
Qed.

Lemma wf_pruned c minc s : wf_cache c -> Permutation (c_table c) s -> wf_cache (pruned c minc s).
Proof.
  intros W P. unfold pruned.
  set (old := fun x => count_of (c_store c) x =? minc).
  apply (wf_same_keys (mkCache (c_store c) (filter (fun x => negb (old x)) s)
                               (map_dels (keys_of (c_store c) (filter old s)) (c_map c)) (c_cap c) 0 0));
    [|apply same_shape_keys, halve_all_shape|reflexivity].
  apply wf_drops; auto. eapply Permutation_trans; [apply P|apply filter_partition].
Qed.

Theorem evicted_set_order_independent : forall c s1 s2 c1 c2,
  NoDup (c_table c) ->
  Permutation (c_table c) s1 -> desc_sorted (c_store c) s1 ->
  Permutation (c_table c) s2 -> desc_sorted (c_store c) s2 ->
  remove_old_entries_sorted c s1 = Ok c1 ->
  remove_old_entries_sorted c s2 = Ok c2 ->
  c_map c1 = c_map c2 /\ c_store c1 = c_store c2 /\ Permutation (c_table c1) (c_table c2) /\
  c_cap c1 = c_cap c2 /\ c_hits c1 = c_hits c2 /\ c_misses c1 = c_misses c2.
Proof.
  intros c s1 s2 c1 c2 Hnd P1 S1 P2 S2 R1 R2.
  assert (P : Permutation s1 s2) by (eapply Permutation_trans; [apply Permutation_sym|]; eauto).
  destruct (remove_old_sorted_spec c s1 S1) as (l1 & I1 & M1 & Q1); [intros ->; discriminate|].
  destruct (remove_old_sorted_spec c s2 S2) as (l2 & I2 & M2 & Q2); [intros ->; discriminate|].
  (* both sorts end in an entry of the least count *)
  assert (Hm : count_of (c_store c) l1 = count_of (c_store c) l2).
  { apply N.le_antisymm; [apply M1; eapply Permutation_in; [apply Permutation_sym|]|apply M2; eapply Permutation_in]; eauto. }
  rewrite Q1 in R1. rewrite Q2, <- Hm in R2. injection R1 as <-. injection R2 as <-.
  destruct (pruned_perm c (count_of (c_store c) l1) s1 s2 P) as (Hmap & Hst & Htb).
  repeat split; auto.
Qed.

(* the model's own choice is one of the admissible results of the sort *)
Lemma model_sort_admissible c :
  Permutation (c_table c) (sort_desc (c_store c) (c_table c)) /\
  desc_sorted (c_store c) (sort_desc (c_store c) (c_table c)).
Proof. split; [apply sort_desc_perm | apply sort_desc_sorted]. Qed.

Lemma wf_remove_old c : wf_cache c -> c_table c <> [] ->
  exists c1, remove_old_entries c = Ok c1 /\ wf_cache c1 /\ kept c c1 /\
    (length (c_table c1) < length (c_table c))%nat.
Proof.
  intros W Hne. unfold remove_old_entries.
  destruct (model_sort_admissible c) as [P S].
  set (s := sort_desc (c_store c) (c_table c)) in *.
  destruct (remove_old_sorted_spec c s S) as (lst & Hl & _ & Q).
  { intros E. rewrite E in P. apply Permutation_sym, Permutation_nil in P. auto. }
  rewrite Q. eexists; split; [reflexivity|]. split; [apply wf_pruned; auto|]. simpl.
  set (old := fun x => count_of (c_store c) x =? count_of (c_store c) lst).
  split; [split; auto|].
  - intros eid H. apply filter_In in H. split; [|apply halve_all_shape].
    eapply Permutation_in; [apply Permutation_sym; eauto|tauto].
  - rewrite (Permutation_length P), (Permutation_length (filter_partition old s)), app_length.
    assert (H : In lst (filter old s)) by (apply filter_In; split; auto; apply N.eqb_refl).
    destruct (filter old s); [contradiction|]. unfold old. simpl. lia.
Qed.

Lemma wf_none_no_entry c k eid : wf_cache c -> map_get k (c_map c) = None ->
  In eid (c_table c) -> e_key (entry_at (c_store c) eid) <> k.
Proof. intros W N Hin Hk. destruct (wf_in_get _ W _ Hin) as [_ G]. congruence. Qed.

Lemma wf_evict c k : wf_cache c -> wf_cache (evict c k).
Proof.
  intros W. unfold evict. destruct (map_get k (c_map c)) as [eid|] eqn:E; auto.
  destruct (wf_get_in _ W _ _ E) as [Hin <-].
  apply wf_drop; auto. apply swap_remove_perm; [auto|apply W].
Qed.

Lemma evict_no_key c k : wf_cache c ->
  map_get k (c_map (evict c k)) = None /\
  forall eid, In eid (c_table (evict c k)) -> e_key (entry_at (c_store (evict c k)) eid) <> k.
Proof.
  intros W. pose proof (wf_evict c k W) as W'.
  assert (H : map_get k (c_map (evict c k)) = None).
  { unfold evict. destruct (map_get k (c_map c)) eqn:E; simpl; auto. apply map_get_del_same. }
  split; auto. intros eid. apply wf_none_no_entry; auto.
Qed.

Lemma evict_store c k : c_store (evict c k) = c_store c.
Proof. unfold evict. destruct (map_get k (c_map c)); auto. Qed.

Lemma evict_cap c k : c_cap (evict c k) = c_cap c.
Proof. unfold evict. destruct (map_get k (c_map c)); auto. Qed.

Lemma kept_evict c k : wf_cache c -> kept c (evict c k).
Proof.
  intros W. split; [apply evict_cap|]. rewrite evict_store. intros eid H. split; auto.
  unfold evict in H. destruct (map_get k (c_map c)); auto.
  apply swap_remove_in in H; [tauto|apply W].
Qed.

(* evicting a list of keys: what SaveAutofixChanges does to the cache *)
Definition evicts (ks : list N) (c : cache) : cache := fold_left evict ks c.

Lemma evicts_spec ks : forall c, wf_cache c ->
  wf_cache (evicts ks c) /\ kept c (evicts ks c) /\
  forall k, In k ks -> map_get k (c_map (evicts ks c)) = None.
Proof.
  unfold evicts. induction ks as [|k t IH]; intros c W; simpl.
  - split; auto. split; [apply kept_refl|]. intros k [].
  - pose proof (wf_evict c k W) as W1. destruct (IH _ W1) as (W' & K & HN).
    split; auto. split; [eapply kept_trans; [apply kept_evict|]; eauto|].
    intros k' [<-|Hk]; auto. apply (kept_none (evict c k)); auto. apply evict_no_key; auto.
Qed.

Lemma entry_at_app_l st e i : (i < length st)%nat -> entry_at (st ++ [e]) i = entry_at st i.
Proof. intros; apply app_nth1; auto. Qed.
Lemma entry_at_app_new st e : entry_at (st ++ [e]) (length st) = e.
Proof. unfold entry_at. rewrite app_nth2, Nat.sub_diag; auto. Qed.

(* the first half of a Put of a new key: afterwards there is room in the table *)
Lemma wf_make_room c : wf_cache c -> (1 <= c_cap c)%nat ->
  exists c1, (if Nat.eqb (length (c_table c)) (c_cap c) then remove_old_entries c else Ok c) = Ok c1 /\
    wf_cache c1 /\ kept c c1 /\ (length (c_table c1) < c_cap c)%nat.
Proof.
  intros W Hcap. destruct (Nat.eqb_spec (length (c_table c)) (c_cap c)) as [Heq|Hne].
  - destruct (wf_remove_old c W) as (c1 & R & W1 & K & HL).
    { destruct (c_table c); simpl in *; [lia|discriminate]. }
    exists c1. split; [|split; [|split]]; auto. lia.
  - exists c. pose proof (wf_cap _ W). split; [|split; [|split]]; auto using kept_refl. lia.
Qed.

Lemma wf_append c e h m : wf_cache c -> map_get (e_key e) (c_map c) = None ->
  (length (c_table c) < c_cap c)%nat ->
  wf_cache (mkCache (c_store c ++ [e]) (c_table c ++ [length (c_store c)])
                    (map_set (e_key e) (length (c_store c)) (c_map c)) (c_cap c) h m).
Proof.
  intros [G I ND K C] E HL.
  assert (Hnew : ~ In (length (c_store c)) (c_table c)) by (intros H; destruct (I _ H); lia).
  constructor; cbn [c_store c_table c_map c_cap].
  - intros k' eid' H. destruct (N.eq_dec k' (e_key e)) as [->|Hne].
    + rewrite map_get_set_same in H. inversion H; subst. split; [apply in_or_app; right; left; auto|].
      rewrite entry_at_app_new; auto.
    + rewrite map_get_set_other in H by auto. destruct (G _ _ H) as [Hin Hkey].
      split; [apply in_or_app; auto|]. destruct (I _ Hin). rewrite entry_at_app_l; auto.
  - intros eid' H. rewrite app_length; cbn [length]. apply in_app_or in H. destruct H as [H|[<-|[]]].
    + destruct (I _ H) as [HLt HG]. split; [lia|]. rewrite entry_at_app_l by auto.
      rewrite map_get_set_other; auto. congruence.
    + split; [lia|]. rewrite entry_at_app_new. apply map_get_set_same.
  - eapply Permutation_NoDup; [apply Permutation_cons_append|]. constructor; auto.
  - apply map_set_nodup; auto.
  - rewrite app_length; cbn [length]. lia.
Qed.

Lemma wf_put c k o ls : wf_cache c -> (1 <= c_cap c)%nat ->
  exists c' eid, put c k o ls = Ok c' /\ wf_cache c' /\ c_cap c' = c_cap c /\
    map_get k (c_map c') = Some eid /\ entry_at (c_store c') eid = mkEntry 1 k o ls /\
    (forall eid', In eid' (c_table c') -> eid' <> eid ->
       In eid' (c_table c) /\ shape (entry_at (c_store c') eid') = shape (entry_at (c_store c) eid')).
Proof.
  intros W Hcap. unfold put.
  destruct (map_get k (c_map c)) as [eid|] eqn:E.
  - eexists; exists eid.
    destruct (wf_get_in _ W _ _ E) as [Hin Hkey].
    destruct (wf_in_get _ W _ Hin) as [HL _].
    split; [reflexivity|]. split; [|split; [auto|split; [auto|split]]]; simpl.
    + apply wf_same_keys; auto. split; [apply upd_length|apply (entry_at_upd_inv e_key); auto].
    + apply entry_at_upd_same; auto.
    + intros eid' H Hne. split; auto. rewrite entry_at_upd_other; auto.
  - destruct (wf_make_room c W Hcap) as (c1 & R & W1 & [HC K] & HL). rewrite R. cbn [bind].
    eexists; exists (length (c_store c1)). split; [reflexivity|].
    split; [|split; [auto|split; [|split]]]; cbn [c_store c_table c_map c_cap].
    + apply (wf_append c1 (mkEntry 1 k o ls)); auto; [apply (kept_none c)|lia]; auto. split; auto.
    + apply map_get_set_same.
    + apply entry_at_app_new.
    + intros eid' H Hne. apply in_app_or in H. destruct H as [H|[<-|[]]]; [|congruence].
      destruct (wf_in_get _ W1 _ H). rewrite entry_at_app_l by auto. auto.
Qed.

(* what Get does to the cache: counters and one count *)
Definition touched (c c1 : cache) : Prop :=
  c_table c1 = c_table c /\ c_map c1 = c_map c /\ c_cap c1 = c_cap c /\
  same_shape (c_store c) (c_store c1).

Lemma wf_touched c c1 : wf_cache c -> touched c c1 -> wf_cache c1.
Proof.
  intros W (HT & HM & HC & HS). destruct c1; simpl in *; subst.
  apply wf_same_keys; auto using same_shape_keys.
Qed.

Lemma touched_kept c c1 : touched c c1 -> kept c c1.
Proof. intros (HT & _ & HC & _ & HS). split; auto. rewrite HT. auto. Qed.

(* what a hit hands out: a copy of the cached Line, read now *)
Definition fresh_copy (fn : fname) (h : heap) (a : nat) : line :=
  let l := line_at h a in mkLine fn (ln_lineno l) (ln_text l) (ln_raw l) None.

Lemma get_spec c h fn o : exists c1, touched c c1 /\
  ((exists eid, map_get (key fn) (c_map c) = Some eid /\ e_opts (entry_at (c_store c) eid) = o /\
      c_hits c1 = c_hits c + 1 /\
      get c h fn o = (c1, h ++ map (fresh_copy fn h) (e_lines (entry_at (c_store c) eid)),
                      Some (seq (length h) (length (e_lines (entry_at (c_store c) eid)))))) \/
   ((forall eid, map_get (key fn) (c_map c) = Some eid -> e_opts (entry_at (c_store c) eid) <> o) /\
    c_hits c1 = c_hits c /\ get c h fn o = (c1, h, None))).
Proof.
  unfold get. destruct (map_get (key fn) (c_map c)) as [eid|] eqn:E.
  - destruct (N.eqb_spec (e_opts (entry_at (c_store c) eid)) o) as [Ho|Ho].
    + eexists; split; cycle 1.
      * left. exists eid. rewrite map_length. repeat split; auto.
      * split; [|split; [|split]]; auto. apply same_shape_upd. reflexivity.
    + eexists; split; cycle 1.
      * right. split; [intros eid' E'; congruence|]. split; [|reflexivity]. reflexivity.
      * split; [|split; [|split]]; auto using same_shape_refl.
  - eexists; split; cycle 1.
    + right. split; [discriminate|]. split; [|reflexivity]. reflexivity.
    + split; [|split; [|split]]; auto using same_shape_refl.
Qed.
