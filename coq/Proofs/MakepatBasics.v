(* Basic facts about the slice helpers and the character-class loop of Model/Makepat.v. *)
From PV Require Import Lib.Bytes Lib.ByteRange Model.Makepat.
From Coq Require Import ZifyBool ZifyN ZifyNat.
Open Scope N_scope.

Lemma nlen_length {A} (l : list A) : nlen l = N.of_nat (length l).
Proof. induction l as [|x l IH]; [reflexivity|]. cbn [nlen length]. rewrite IH. lia. Qed.

Lemma nlen_app {A} (l1 l2 : list A) : nlen (l1 ++ l2) = nlen l1 + nlen l2.
Proof. rewrite !nlen_length, app_length. lia. Qed.

Lemma nlen_cons {A} (x : A) l : nlen (x :: l) = N.succ (nlen l).
Proof. reflexivity. Qed.

Lemma nth_n_cons {A} (x : A) l i : nth_n (x :: l) i = if i =? 0 then Some x else nth_n l (N.pred i).
Proof. reflexivity. Qed.

Lemma nth_n_succ {A} (x : A) l i : nth_n (x :: l) (N.succ i) = nth_n l i.
Proof. rewrite nth_n_cons, N.pred_succ. destruct (N.eqb_spec (N.succ i) 0); [lia|reflexivity]. Qed.

Lemma nth_n_error {A} (l : list A) i : nth_n l i = nth_error l (N.to_nat i).
Proof.
  revert i; induction l as [|x l IH]; intro i; [destruct (N.to_nat i); reflexivity|].
  rewrite nth_n_cons, IH. destruct (N.eqb_spec i 0) as [->|Hi]; [reflexivity|].
  replace (N.to_nat i) with (S (N.to_nat (N.pred i))) by lia. reflexivity.
Qed.

Lemma nth_n_ge {A} (l : list A) i : nlen l <= i -> nth_n l i = None.
Proof. rewrite nth_n_error, nlen_length, nth_error_None. lia. Qed.

Lemma nth_n_lt {A} (l : list A) i : i < nlen l -> exists x, nth_n l i = Some x.
Proof.
  rewrite nth_n_error, nlen_length. intro H. destruct (nth_error l (N.to_nat i)) eqn:E; [eauto|].
  apply nth_error_None in E. lia.
Qed.

Lemma nth_n_some_lt {A} (l : list A) i x : nth_n l i = Some x -> i < nlen l.
Proof.
  intro H. destruct (N.lt_ge_cases i (nlen l)) as [|G]; [assumption|].
  rewrite (nth_n_ge l i G) in H. discriminate.
Qed.

Lemma nth_n_app_l {A} (l1 l2 : list A) i : i < nlen l1 -> nth_n (l1 ++ l2) i = nth_n l1 i.
Proof. rewrite !nth_n_error, nlen_length. intro H. apply nth_error_app1. lia. Qed.

Lemma nth_n_app_r {A} (l1 l2 : list A) i : nlen l1 <= i -> nth_n (l1 ++ l2) i = nth_n l2 (i - nlen l1).
Proof. rewrite !nth_n_error, nlen_length. intro H. rewrite nth_error_app2 by lia. f_equal. lia. Qed.

Lemma nth_n_In {A} (l : list A) i x : nth_n l i = Some x -> In x l.
Proof. rewrite nth_n_error. apply nth_error_In. Qed.

Lemma In_nth_n {A} (l : list A) x : In x l -> exists i, nth_n l i = Some x.
Proof.
  intro H. apply In_nth_error in H as [n E]. exists (N.of_nat n). rewrite nth_n_error, Nat2N.id. exact E.
Qed.

Lemma nth_n_app_some {A} (l l' : list A) i x : nth_n l i = Some x -> nth_n (l ++ l') i = Some x.
Proof. intro H. rewrite nth_n_app_l; [exact H|exact (nth_n_some_lt _ _ _ H)]. Qed.

Lemma nth_n_snoc_inv {A} (l : list A) y i x : nth_n (l ++ [y]) i = Some x -> nth_n l i = Some x \/ x = y.
Proof.
  intro H. destruct (N.lt_ge_cases i (nlen l)) as [L|G]; [left; rewrite nth_n_app_l in H; assumption|].
  rewrite nth_n_app_r in H by exact G. apply nth_n_In in H as [->|[]]. right; reflexivity.
Qed.

Lemma upd_n_cons {A} (x : A) l i f :
  upd_n (x :: l) i f = if i =? 0 then Some (f x :: l)
                       else match upd_n l (N.pred i) f with Some t' => Some (x :: t') | None => None end.
Proof. reflexivity. Qed.

Lemma upd_n_lt {A} (l : list A) i f : i < nlen l -> exists l', upd_n l i f = Some l'.
Proof.
  revert i; induction l as [|x l IH]; intros i H.
  - cbn in H. lia.
  - rewrite upd_n_cons. destruct (N.eqb_spec i 0); [eauto|].
    destruct (IH (N.pred i)) as [l' E]; [rewrite nlen_cons in H; lia|]. rewrite E. eauto.
Qed.

Lemma upd_n_some {A} (l : list A) i f l' : upd_n l i f = Some l' ->
  i < nlen l /\ nlen l' = nlen l /\
  forall j, nth_n l' j = if j =? i then option_map f (nth_n l j) else nth_n l j.
Proof.
  revert i l'; induction l as [|x l IH]; intros i l' H; [discriminate|].
  rewrite upd_n_cons in H. destruct (N.eqb_spec i 0) as [->|Hi].
  - inversion H; subst. split; [rewrite nlen_cons; lia|]. split; [reflexivity|].
    intro j. rewrite !nth_n_cons. destruct (N.eqb_spec j 0); reflexivity.
  - destruct (upd_n l (N.pred i) f) as [t'|] eqn:E; [|discriminate]. inversion H; subst.
    destruct (IH _ _ E) as (H1 & H2 & H3). split; [rewrite nlen_cons; lia|].
    split; [rewrite !nlen_cons; lia|].
    intro j. rewrite !nth_n_cons. destruct (N.eqb_spec j 0) as [->|Hj].
    + destruct (N.eqb_spec 0 i); [lia|reflexivity].
    + rewrite H3. destruct (N.eqb_spec (N.pred j) (N.pred i)); destruct (N.eqb_spec j i); try lia; reflexivity.
Qed.

Lemma upd_n_none {A} (l : list A) i f : upd_n l i f = None -> nlen l <= i.
Proof.
  intro H. destruct (N.lt_ge_cases i (nlen l)) as [L|]; [|assumption].
  destruct (upd_n_lt l i f L) as [l' E]. congruence.
Qed.

Lemma upd_n_mid {A} (pre : list A) x post f : upd_n (pre ++ x :: post) (nlen pre) f = Some (pre ++ f x :: post).
Proof.
  induction pre as [|y pre IH]; [reflexivity|].
  cbn [app]. rewrite upd_n_cons, nlen_cons, N.pred_succ, IH. destruct (N.eqb_spec (N.succ (nlen pre)) 0); [lia|reflexivity].
Qed.

Lemma upd_n_at {A} (l : list A) i f x : nth_n l i = Some x ->
  exists l', upd_n l i f = Some l' /\ nlen l' = nlen l
    /\ forall j, nth_n l' j = if j =? i then Some (f x) else nth_n l j.
Proof.
  intro Hx. destruct (upd_n_lt l i f (nth_n_some_lt _ _ _ Hx)) as [l' E]. exists l'.
  destruct (upd_n_some _ _ _ _ E) as (_ & L & H). split; [exact E|]. split; [exact L|].
  intro j. rewrite H. destruct (N.eqb_spec j i) as [->|]; [rewrite Hx|]; reflexivity.
Qed.

Lemma nlen_snoc {A} (l : list A) x : nlen (l ++ [x]) = nlen l + 1.
Proof. rewrite nlen_app. reflexivity. Qed.

Lemma zeros_like_nlen {A B} (z : B) (l : list A) : nlen (zeros_like z l) = nlen l.
Proof. unfold zeros_like. rewrite !nlen_length, map_length. reflexivity. Qed.

Lemma zeros_like_nth {A B} (z : B) (l : list A) j p : nth_n (zeros_like z l) j = Some p -> p = z.
Proof.
  unfold zeros_like. rewrite nth_n_error, nth_error_map.
  destruct (nth_error l (N.to_nat j)); cbn; congruence.
Qed.

Lemma to_state_id_id i : to_state_id i = i.
Proof. reflexivity. Qed.

Lemma add_state_spec p e :
  add_state p e = (p ++ [mkS [] e], to_state_id (nlen p)).
Proof. unfold add_state. f_equal. rewrite nlen_app. cbn [nlen]. f_equal. lia. Qed.

Lemma add_transition_lt p from t : from < nlen p -> exists p', add_transition p from t = Some p' /\ nlen p' = nlen p.
Proof.
  intro H. unfold add_transition. destruct (upd_n_lt p from (fun st => mkS (trans st ++ [t]) (fin st)) H) as [p' E].
  exists p'. split; [exact E|]. apply upd_n_some in E. tauto.
Qed.

Lemma add_transitions_list_lt rs : forall p from to, from < nlen p ->
  exists p', add_transitions_list p from rs to = Some p' /\ nlen p' = nlen p.
Proof.
  induction rs as [|[lo hi] rs IH]; intros p from to H; cbn [add_transitions_list]; [eauto|].
  destruct (add_transition_lt p from (mkT lo hi to) H) as (p' & E & L). rewrite E.
  destruct (IH p' from to) as (p'' & E' & L'); [lia|]. exists p''. split; [exact E'|lia].
Qed.

Lemma skip_byte_spec b rest neg r1 : skip_byte b rest = (neg, r1) ->
  rest = (if neg then b :: r1 else r1) /\ neg = match rest with c :: _ => c =? b | [] => false end.
Proof.
  unfold skip_byte. destruct rest as [|c r]; [intro H; injection H as <- <-; auto|].
  destruct (N.eqb_spec c b) as [->|]; intro H; injection H as <- <-; auto.
Qed.

Lemma set_range_nlen chars lo hi : nlen (set_range chars lo hi) = nlen chars.
Proof.
  unfold set_range. generalize 0. induction chars as [|b chars IH]; intro i; cbn [set_range_from nlen]; [reflexivity|].
  rewrite IH. reflexivity.
Qed.

(* 93 = ']', 45 = '-' *)
Lemma class_loop_ind (P : str -> list bool -> option (list bool * str) -> Prop) :
  (forall cs, P [] cs None) ->
  (forall r cs, P (93 :: r) cs (Some (cs, r))) ->
  (forall x cs, x <> 93 -> P [x] cs None) ->
  (forall x cs, x <> 93 -> P [x; 45] cs None) ->
  (forall x e r cs res, x <> 93 ->
     P r (set_range cs (N.min x e) (N.max x e)) res -> P (x :: 45 :: e :: r) cs res) ->
  (forall x d r cs res, x <> 93 -> d <> 45 ->
     P (d :: r) (set_range cs x x) res -> P (x :: d :: r) cs res) ->
  forall r cs, P r cs (class_loop r cs).
Proof.
  intros Hnil Hend Hx1 Hx2 Hrange Hsingle r.
  induction r as [r IH] using (induction_ltof1 _ (@length N)). unfold ltof in IH. intro cs.
  destruct r as [|x r1]; [apply Hnil|]. cbn [class_loop].
  destruct (N.eqb_spec x 93) as [->|Hx]; [apply Hend|].
  destruct r1 as [|d r2]; [apply Hx1; exact Hx|].
  destruct (N.eqb_spec d 45) as [->|Hd].
  - destruct r2 as [|e r3]; [apply Hx2; exact Hx|]. apply Hrange; [exact Hx|].
    destruct (N.ltb_spec e x); [rewrite N.min_r, N.max_l by lia|rewrite N.min_l, N.max_r by lia];
      apply IH; cbn [length]; lia.
  - apply Hsingle; [exact Hx|exact Hd|]. apply IH. cbn [length]. lia.
Qed.

Lemma class_loop_some r cs : forall chars rest2, class_loop r cs = Some (chars, rest2) ->
  (length rest2 < length r)%nat /\ (is_bytes r -> is_bytes rest2) /\ nlen chars = nlen cs.
Proof.
  apply class_loop_ind with
    (P := fun r cs res => forall chars rest2, res = Some (chars, rest2) ->
            (length rest2 < length r)%nat /\ (is_bytes r -> is_bytes rest2) /\ nlen chars = nlen cs);
    clear r cs; try discriminate.
  - intros r cs chars rest2 H. injection H as <- <-. split; [cbn [length]; lia|].
    split; [apply Forall_inv_tail|reflexivity].
  - intros x e r cs res _ IH chars rest2 H. destruct (IH _ _ H) as (L & B & E).
    split; [cbn [length]; lia|]. split; [|rewrite E; apply set_range_nlen].
    intro Hb. do 3 apply Forall_inv_tail in Hb. exact (B Hb).
  - intros x d r cs res _ _ IH chars rest2 H. destruct (IH _ _ H) as (L & B & E).
    split; [cbn [length] in *; lia|]. split; [|rewrite E; apply set_range_nlen].
    intro Hb. exact (B (Forall_inv_tail Hb)).
Qed.

Lemma ex_N (P : N -> Prop) : (exists i, P i) <-> P 0 \/ exists j, P (N.succ j).
Proof.
  split; [|intros [H|[j H]]; eauto].
  intros [i H]. destruct (N.zero_or_succ i) as [->|[j ->]]; eauto.
Qed.

Lemma existsb_flat_map {A B} (f : B -> bool) (g : A -> list B) l :
  existsb f (flat_map g l) = existsb (fun x => existsb f (g x)) l.
Proof. induction l as [|x l IH]; [reflexivity|]. cbn [flat_map existsb]. rewrite existsb_app, IH. reflexivity. Qed.
