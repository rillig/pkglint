(* The partial soundness theorems for programs whose files are spelled
   arbitrarily - the analysis as the Go code does it (names compared as strings)
   and the analysis on denotations - and for programs with conditional sections.
   In all cases "deletable" is a statement about the lines alone
   (deletable_spelling_independent). *)
From PV Require Import Lib.Bytes Model.Redundant Model.RedundantPaths Model.RedundantCond
  Spec.VerdictSound Spec.VerdictSound2 Spec.PathDenote Spec.SpellingIndep
  Proofs.RedundantSound3 Proofs.RedundantPaths Proofs.RedundantCondSim.

Theorem verdict_sound_spelled4 (p : pprogram) (vs : list verdict) (vd : verdict) :
  wf_program (forget p) = true -> check_spelled p = Ok vs -> In vd vs ->
  guard4 (forget p) vd = true -> deletable (forget p) (vd_flagged vd).
Proof. exact (verdict_sound_partial4 (forget p) vs vd). Qed.

Theorem verdict_sound_denoted4 cwd (p : pprogram) (vs : list verdict) (vd : verdict) :
  wf_program (forget p) = true -> check_denoted cwd p = Ok vs -> In vd vs ->
  guard4 (intern_by (same_denotation cwd) p) vd = true -> deletable (forget p) (vd_flagged vd).
Proof.
  intros Hw Hc Hi Hg.
  apply (deletable_spelling_independent cwd (same_denotation cwd) str_eqb p p _ (same_shape_refl cwd p)).
  apply (verdict_sound_partial4 (intern_by (same_denotation cwd) p) vs vd); try assumption.
  rewrite (wf_intern _ str_eqb). exact Hw.
Qed.

(* A section ".if <condition without variables>" that make does not take is
   outside this statement: deletable speaks about the lines make reads. *)
Theorem verdict_sound_cond4 (p : cprogram) (vsc : list verdict) (vd : verdict) :
  wf_program (map snd p) = true -> check_c p = Ok vsc -> In vd vsc ->
  guard4 (map snd p) vd = true -> deletable (map snd p) (vd_flagged vd).
Proof.
  intros Hw E2 Hin Hg. destruct (cond_verdicts_subset_total p vsc E2) as (vs & E1 & Hsub).
  apply (verdict_sound_partial4 (map snd p) vs vd Hw E1); [|exact Hg]. apply Hsub. exact Hin.
Qed.

Theorem verdict_sound_spelled (p : pprogram) (vs : list verdict) (vd : verdict) :
  wf_program (forget p) = true -> check_spelled p = Ok vs -> In vd vs ->
  guard (forget p) vd = true -> deletable (forget p) (vd_flagged vd).
Proof. intros Hw Hc Hi Hg. apply (verdict_sound_spelled4 p vs vd); auto using guard4_weakest. Qed.

Theorem verdict_sound_denoted cwd (p : pprogram) (vs : list verdict) (vd : verdict) :
  wf_program (forget p) = true -> check_denoted cwd p = Ok vs -> In vd vs ->
  guard (intern_by (same_denotation cwd) p) vd = true -> deletable (forget p) (vd_flagged vd).
Proof. intros Hw Hc Hi Hg. apply (verdict_sound_denoted4 cwd p vs vd); auto using guard4_weakest. Qed.

Theorem verdict_sound_cond_total (p : cprogram) (vsc : list verdict) (vd : verdict) :
  wf_program (map snd p) = true -> check_c p = Ok vsc -> In vd vsc ->
  guard (map snd p) vd = true -> deletable (map snd p) (vd_flagged vd).
Proof. intros Hw Hc Hi Hg. apply (verdict_sound_cond4 p vsc vd); auto using guard4_weakest. Qed.
