(* The spec's reader maps the texts of the model's rewrites to the trees the
   model says they mean: parse_cond (rw_from rw) = rw_from_c rw and
   parse_cond (rw_to rw) = rw_to_c rw, for every rewrite of simplify_word,
   simplify_yesno and simplify_match, under explicit conditions on the variable
   name and on the modifiers ([name_ok], [mods_ok]). *)
From PV Require Import Lib.Bytes Gen.CondSimpSets Spec.BmakeCond Model.CondSimp
  Proofs.CondSimpA Proofs.CondSimpB Proofs.CondSimpC Proofs.CondSimpF.
From Coq Require Import ZifyBool ZifyN ZifyNat.
Open Scope N_scope.

Definition name_ok (v : str) : bool := nonempty v && forallb is_name_char v.

(* a modifier the reader takes as one segment: scanned alone it is consumed to the
   end (plain bytes, i.e. none of : $ \ ( ) { } and the double quote, and nested
   references ${NAME}), and '$' occurs only if it starts with M or N ([seg_ok]) *)
Definition mod_readable (m : str) : bool :=
  let (seg, r) := scan_seg (S (length m)) 125 m in
  str_eqb seg m && negb (nonempty r) && seg_ok m.
Definition mods_ok (ms : list str) : bool := forallb mod_readable ms.

(* sufficient for [mod_readable]: [mod_ok_readable] *)
Definition mod_ok (m : str) : bool := forallb (plain_mod_char 125) m.

Lemma span_app_stop f a rest :
  forallb f a = true -> match rest with [] => True | c :: _ => f c = false end ->
  span f (a ++ rest) = (a, rest).
Proof.
  intros Ha Hr. induction a as [|c a IH]; cbn [app].
  - destruct rest as [|c r]; [reflexivity|]. cbn [span]. rewrite Hr. reflexivity.
  - cbn [forallb] in Ha. apply andb_true_iff in Ha as [Hc Ha]. cbn [span].
    rewrite Hc, (IH Ha). reflexivity.
Qed.

Lemma forallb_ext_eq (f g : N -> bool) l : (forall c, f c = g c) -> forallb f l = forallb g l.
Proof. intros H. induction l as [|c l IH]; [reflexivity|]. cbn [forallb]. rewrite H, IH. reflexivity. Qed.

Lemma forallb_in_set (f : N -> bool) set p :
  forallb f set = true -> forallb (in_set set) p = true -> forallb f p = true.
Proof.
  intros Hset Hp. rewrite forallb_forall in *. intros c Hc. apply Hset, in_set_true_In, Hp, Hc.
Qed.

Lemma mods_text_cons m ms : mods_text (m :: ms) = 58 :: m ++ mods_text ms.
Proof. reflexivity. Qed.

Lemma mods_text_app a b : mods_text (a ++ b) = mods_text a ++ mods_text b.
Proof. unfold mods_text. rewrite map_app, concat_app. reflexivity. Qed.

Lemma mods_ok_app a b : mods_ok (a ++ b) = mods_ok a && mods_ok b.
Proof. apply forallb_app. Qed.

Lemma mods_then_close_head close ms rest :
  exists c r, mods_text ms ++ close :: rest = c :: r /\ (c = 58 \/ c = close).
Proof.
  destruct ms as [|m ms]; [exists close, rest|rewrite mods_text_cons; eexists 58, _];
    (split; [reflexivity|auto]).
Qed.

Definition stop_head (close : N) (rest : str) : Prop :=
  match rest with [] => True | c :: _ => plain_mod_char close c = false /\ c <> 36 end.

Lemma scan_seg_stop fuel close rest : stop_head close rest -> scan_seg fuel close rest = ([], rest).
Proof.
  destruct fuel; [reflexivity|]. destruct rest as [|c r]; [reflexivity|]. intros [Hp Hd].
  cbn [scan_seg]. rewrite Hp. destruct (N.eqb_spec c 36); [contradiction|reflexivity].
Qed.

(* a text that is one segment by itself, scanned up to '}', is one segment in front
   of ":" or the closer, which may also be ')' *)
Lemma scan_seg_ext close : close = 125 \/ close = 41 -> forall fuel m fuel' rest,
  scan_seg fuel 125 m = (m, []) -> (fuel <= fuel')%nat -> stop_head close rest ->
  scan_seg fuel' close (m ++ rest) = (m, rest).
Proof.
  intros Hclose.
  assert (Hp : forall c, plain_mod_char close c = plain_mod_char 125 c).
  { intros c. destruct Hclose as [-> | ->]; [reflexivity|]. unfold plain_mod_char.
    destruct (c =? 41), (c =? 125); rewrite ?orb_true_r; reflexivity. }
  induction fuel as [|f IH]; intros m fuel' rest H Hle Hstop.
  - injection H as H _. subst m. apply scan_seg_stop, Hstop.
  - destruct m as [|c r]; [apply scan_seg_stop, Hstop|].
    destruct fuel' as [|f']; [lia|].
    revert H. cbn [app scan_seg]. rewrite Hp.
    destruct (plain_mod_char 125 c).
    + destruct (scan_seg f 125 r) as [seg r'] eqn:Es. intros H. injection H as -> ->.
      rewrite (IH r f' rest Es); [reflexivity|lia|exact Hstop].
    + destruct (N.eqb_spec c 36) as [->|_]; [|discriminate].
      destruct r as [|b r1]; [discriminate|]. cbn [app].
      destruct (N.eqb_spec b 123) as [->|_]; [|discriminate].
      pose proof (span_app is_name_char r1) as Happ. pose proof (span_all is_name_char r1) as Hall.
      destruct (span is_name_char r1) as [name r2]. cbn [fst snd] in Happ, Hall. subst r1.
      destruct name as [|n0 name']; [discriminate|]. destruct r2 as [|d r3]; [discriminate|].
      destruct (N.eqb_spec d 125) as [->|_]; [|discriminate].
      destruct (scan_seg f 125 r3) as [seg r'] eqn:Es. intros H. injection H as H ->.
      apply app_inv_head in H. injection H as ->.
      rewrite <- app_assoc.
      rewrite (span_app_stop is_name_char (n0 :: name') ((125 :: r3) ++ rest) Hall eq_refl).
      cbn [app]. rewrite N.eqb_refl, (IH r3 f' rest Es); [reflexivity|lia|exact Hstop].
Qed.

Lemma mod_readable_inv m :
  mod_readable m = true -> scan_seg (S (length m)) 125 m = (m, []) /\ seg_ok m = true.
Proof.
  unfold mod_readable. destruct (scan_seg (S (length m)) 125 m) as [seg r]. intros H.
  apply andb_true_iff in H as [H Hok]. apply andb_true_iff in H as [Hs Hr].
  apply str_eqb_spec in Hs. subst seg. destruct r; [|discriminate]. split; [reflexivity|exact Hok].
Qed.

Lemma scan_seg_plain close m : forall fuel,
  forallb (plain_mod_char close) m = true -> (length m < fuel)%nat -> scan_seg fuel close m = (m, []).
Proof.
  induction m as [|c m IH]; intros [|f] Hm Hf; try (cbn [length] in Hf; lia); [reflexivity|].
  cbn [forallb] in Hm. apply andb_true_iff in Hm as [Hc Hm].
  cbn [scan_seg]. rewrite Hc, (IH f Hm); [reflexivity|cbn [length] in Hf; lia].
Qed.

Lemma mod_ok_readable m : mod_ok m = true -> mod_readable m = true.
Proof.
  intros H. unfold mod_readable. rewrite (scan_seg_plain 125 m _ H (Nat.lt_succ_diag_r _)), str_eqb_refl.
  unfold seg_ok. replace (existsb (N.eqb 36) m) with false; [reflexivity|].
  unfold mod_ok in H. induction m as [|c m IH]; [reflexivity|]. cbn [forallb existsb] in *.
  apply andb_true_iff in H as [Hc Hm]. rewrite <- (IH Hm). unfold plain_mod_char in Hc. lia.
Qed.

Lemma parse_mods_text close ms : close = 125 \/ close = 41 -> forall fuel rest,
  mods_ok ms = true ->
  (length (mods_text ms ++ close :: rest) <= fuel)%nat ->
  parse_mods fuel close (mods_text ms ++ close :: rest) = Some (map classify_mod ms, rest).
Proof.
  intros Hclose. unfold mods_ok.
  induction ms as [|m ms IH]; intros [|f] rest Hms Hf; try (cbn [mods_text map concat app length] in Hf; lia).
  - cbn [mods_text map concat app parse_mods]. rewrite N.eqb_refl. reflexivity.
  - cbn [forallb] in Hms. apply andb_true_iff in Hms as [Hm Hms].
    destruct (mod_readable_inv m Hm) as [Hscan Hok].
    rewrite mods_text_cons in *. cbn [app parse_mods length] in *. rewrite <- app_assoc in *.
    rewrite app_length in Hf.
    destruct (N.eqb_spec 58 close) as [E|_]; [lia|]. rewrite N.eqb_refl.
    rewrite (scan_seg_ext close Hclose _ m _ _ Hscan).
    + rewrite Hok. cbn [negb]. rewrite (IH f rest Hms); [reflexivity|lia].
    + rewrite app_length. lia.
    + destruct (mods_then_close_head close ms rest) as (c & r & -> & Hc).
      unfold stop_head, plain_mod_char. lia.
Qed.

Lemma parse_name_mods_text close v ms rest : close = 125 \/ close = 41 ->
  name_ok v = true -> mods_ok ms = true ->
  parse_name_mods close (v ++ mods_text ms ++ close :: rest) = Some (v, map classify_mod ms, rest).
Proof.
  intros Hclose Hv Hms. unfold name_ok in Hv. apply andb_true_iff in Hv as [Hne Hv].
  unfold parse_name_mods. rewrite (span_app_stop is_name_char v _ Hv).
  - destruct v; [discriminate|]. rewrite (parse_mods_text close ms Hclose _ rest Hms); auto.
  - destruct (mods_then_close_head close ms rest) as (c & r & -> & Hc).
    unfold is_name_char, is_alnum, is_alpha, is_lower, is_upper, is_digit. lia.
Qed.

(* parse_or's inner loops, named. *)

Definition after_leaf (l : leaf) (r1 : str) : option (cond * str) :=
  let r2 := skip_hspace r1 in
  match r2 with
  | o1 :: o2 :: r3 =>
    if ((o1 =? 61) || (o1 =? 33)) && (o2 =? 61) then
      match parse_leaf (skip_hspace r3) with
      | Some (rl, r4) => Some (CCmp l (o1 =? 61) rl, r4)
      | None => None
      end
    else if (o1 =? 60) || (o1 =? 62) then
      let orEqual := o2 =? 61 in
      match parse_leaf (skip_hspace (if orEqual then r3 else o2 :: r3)) with
      | Some (rl, r4) => Some (CCmpOrd l (o1 =? 60) orEqual rl, r4)
      | None => None
      end
    else Some (CLeaf l, r1)
  | _ => Some (CLeaf l, r1)
  end.

Definition term_step (self paren : str -> option (cond * str)) (s : str) : option (cond * str) :=
  let s := skip_hspace s in
  match s with
  | [] => None
  | c :: r =>
    if (c =? 33) && negb (match r with d :: _ => d =? 61 | [] => false end) then
      match self r with
      | Some (t, r1) => Some (CNot t, r1)
      | None => None
      end
    else if c =? 40 then
      match paren r with
      | Some (t, r1) =>
        match skip_hspace r1 with
        | d :: r2 => if d =? 41 then Some (t, r2) else None
        | [] => None
        end
      | None => None
      end
    else match strip_prefix str_defined_lp s with
    | Some r1 =>
      let (name, r2) := span is_name_char r1 in
      match name, r2 with
      | _ :: _, d :: r3 => if d =? 41 then Some (CDefined name, r3) else None
      | _, _ => None
      end
    | None =>
    match strip_prefix str_empty_lp s with
    | Some r1 =>
      match parse_name_mods 41 r1 with
      | Some (v, ms, r2) => Some (CEmpty v ms, r2)
      | None => None
      end
    | None =>
      match parse_leaf s with
      | Some (l, r1) => after_leaf l r1
      | None => None
      end
    end
    end
  end.

Definition pterm (f : nat) : nat -> str -> option (cond * str) :=
  fix parse_term (g : nat) (s : str) : option (cond * str) :=
    match g with
    | O => None
    | S g' => term_step (parse_term g') (parse_or f) s
    end.

Definition chain (op : N) (mk : cond -> cond -> cond) (item next : str -> option (cond * str)) (s : str)
    : option (cond * str) :=
  match item s with
  | Some (t, r) =>
    match skip_hspace r with
    | a :: b :: r1 =>
      if (a =? op) && (b =? op) then
        match next r1 with
        | Some (t2, r2) => Some (mk t t2, r2)
        | None => None
        end
      else Some (t, r)
    | _ => Some (t, r)
    end
  | None => None
  end.

Definition pand (f : nat) : nat -> str -> option (cond * str) :=
  fix parse_and (g : nat) (s : str) : option (cond * str) :=
    match g with
    | O => None
    | S g' => chain 38 CAnd (pterm f f) (parse_and g') s
    end.

Lemma parse_or_S f s : parse_or (S f) s = chain 124 COr (pand f f) (parse_or f) s.
Proof. reflexivity. Qed.

Lemma chain_done op mk item next s t : item s = Some (t, []) -> chain op mk item next s = Some (t, []).
Proof. intros H. unfold chain. rewrite H. reflexivity. Qed.

Lemma parse_cond_term s t :
  s <> [] -> (forall f g, pterm f (S (S g)) s = Some (t, [])) -> parse_cond s = Some t.
Proof.
  intros Hs H. unfold parse_cond. destruct s as [|c s']; [congruence|]. cbn [length].
  rewrite parse_or_S, (chain_done _ _ _ _ _ t); [reflexivity|].
  exact (chain_done 38 CAnd _ _ _ t (H _ _)).
Qed.

Lemma pterm_bang f g s : match s with c :: _ => c =? 61 | [] => false end = false ->
  pterm f (S g) (s_bang ++ s) =
  match pterm f g s with Some (t, r1) => Some (CNot t, r1) | None => None end.
Proof.
  intros Hs. change (pterm f (S g) (s_bang ++ s)) with (term_step (pterm f g) (parse_or f) (33 :: s)).
  unfold term_step. change (skip_hspace (33 :: s)) with (33 :: s). cbv zeta iota.
  rewrite Hs. reflexivity.
Qed.

Lemma pterm_empty f g X :
  pterm f (S g) (s_empty_lp ++ X) =
  match parse_name_mods 41 X with Some (v, ms, r2) => Some (CEmpty v ms, r2) | None => None end.
Proof. reflexivity. Qed.

Lemma pterm_expr f g X :
  pterm f (S g) (s_dollar_lbrace ++ X) =
  match parse_name_mods 125 X with Some (v, ms, r2) => after_leaf (LExpr v ms) r2 | None => None end.
Proof.
  change (pterm f (S g) (s_dollar_lbrace ++ X)) with (term_step (pterm f g) (parse_or f) (36 :: 123 :: X)).
  unfold term_step. change (skip_hspace (36 :: 123 :: X)) with (36 :: 123 :: X). cbv zeta.
  change (parse_leaf (36 :: 123 :: X)) with
    (match parse_name_mods 125 X with Some (v, ms, r2) => Some (LExpr v ms, r2) | None => None end).
  cbn [N.eqb Pos.eqb andb strip_prefix str_defined_lp str_empty_lp].
  destruct (parse_name_mods 125 X) as [[[v ms] r2]|]; reflexivity.
Qed.

Lemma after_leaf_cmp l (is_eq : bool) R rl : parse_leaf (skip_hspace R) = Some (rl, []) ->
  after_leaf l ([32] ++ cond_str is_eq s_eq s_ne ++ [32] ++ R) = Some (CCmp l is_eq rl, []).
Proof.
  intros HR. unfold after_leaf.
  destruct is_eq; cbn [cond_str s_eq s_ne app skip_hspace is_hspace N.eqb Pos.eqb orb andb];
    rewrite HR; reflexivity.
Qed.

(* The shape of all the texts:  ["!"] "empty(" name mods ")"  and
   ["!"] "${" name mods "}" tail. *)

Definition atom_text (bang fe : bool) (v : str) (ms : list str) (tail : str) : str :=
  cond_str bang s_bang [] ++ cond_str fe s_empty_lp s_dollar_lbrace ++ v ++ mods_text ms
  ++ cond_str fe [41] [125] ++ tail.

Definition after_atom (fe : bool) (v : str) (ms : list modifier) (tail : str) : option (cond * str) :=
  if fe then Some (CEmpty v ms, tail) else after_leaf (LExpr v ms) tail.

Lemma atom_text_read (bang fe : bool) v ms tail t :
  name_ok v = true -> mods_ok ms = true ->
  after_atom fe v (map classify_mod ms) tail = Some (t, []) ->
  parse_cond (atom_text bang fe v ms tail) = Some (if bang then CNot t else t).
Proof.
  intros Hv Hms Ht.
  assert (Hatom : forall f g,
    pterm f (S g) (cond_str fe s_empty_lp s_dollar_lbrace ++ v ++ mods_text ms ++ cond_str fe [41] [125] ++ tail)
    = Some (t, [])).
  { intros f g. destruct fe; cbn [cond_str app].
    - rewrite pterm_empty, parse_name_mods_text by auto. exact Ht.
    - rewrite pterm_expr, parse_name_mods_text by auto. exact Ht. }
  unfold atom_text. apply parse_cond_term; [destruct bang, fe; discriminate|].
  intros f g. destruct bang; cbn [cond_str]; [|apply Hatom].
  rewrite pterm_bang, Hatom by (destruct fe; reflexivity). reflexivity.
Qed.

(* "${" name [":U"] mods "} == " right-hand side, the to-text of simplifyWord / simplifyYesNo *)
Lemma cmp_text_read v (add_u is_eq : bool) ms rhs rl :
  name_ok v = true -> mods_ok ms = true -> parse_leaf (skip_hspace rhs) = Some (rl, []) ->
  parse_cond (s_dollar_lbrace ++ v ++ cond_str add_u s_colon_U [] ++ mods_text ms
              ++ [125; 32] ++ cond_str is_eq s_eq s_ne ++ [32] ++ rhs) =
  Some (CCmp (LExpr v (u_mods add_u ++ map classify_mod ms)) is_eq rl).
Proof.
  intros Hv Hms Hrhs.
  apply (atom_text_read false false v ((if add_u then [s_U] else []) ++ ms)
           ([32] ++ cond_str is_eq s_eq s_ne ++ [32] ++ rhs)
           (CCmp (LExpr v (map classify_mod ((if add_u then [s_U] else []) ++ ms))) is_eq rl)) in Hv.
  - unfold atom_text in Hv. rewrite mods_text_app, <- app_assoc in Hv. destruct add_u; exact Hv.
  - rewrite mods_ok_app, Hms. destruct add_u; reflexivity.
  - apply after_leaf_cmp, Hrhs.
Qed.

Lemma parse_leaf_word w : w <> [] -> forallb word_char w = true ->
  parse_leaf (skip_hspace w) = Some (LWord w, []).
Proof.
  intros Hne Hw. pose proof (span_app_stop word_char w [] Hw I) as Hs. rewrite app_nil_r in Hs.
  destruct w as [|c r]; [congruence|].
  cbn [forallb] in Hw. apply andb_true_iff in Hw as [Hc _]. unfold word_char in Hc.
  cbn [skip_hspace]. replace (is_hspace c) with false by lia.
  unfold parse_leaf. replace (c =? 36) with false by lia. replace (c =? 34) with false by lia.
  rewrite Hs. reflexivity.
Qed.

Lemma parse_leaf_quoted p : p <> [] -> forallb plain_quoted_char p = true ->
  parse_leaf (34 :: p ++ [34]) = Some (LQuoted [PLit p], []).
Proof.
  intros Hne Hp.
  pose proof (span_app_stop plain_quoted_char p [34] Hp eq_refl) as Hs.
  destruct p as [|c r]; [congruence|].
  cbn [forallb] in Hp. apply andb_true_iff in Hp as [Hc _]. unfold plain_quoted_char in Hc.
  cbn [app] in *. cbn [parse_leaf N.eqb Pos.eqb length parse_quoted].
  replace (c =? 34) with false by lia. replace (c =? 36) with false by lia.
  replace (c =? 92) with false by lia. rewrite Hs. reflexivity.
Qed.

Lemma lit_pattern_plain_quoted : forallb plain_quoted_char lit_pattern_set = true.
Proof. vm_compute. reflexivity. Qed.

Lemma rhs_read pat :
  pat <> [] -> forallb (in_set lit_pattern_set) pat = true ->
  parse_leaf (skip_hspace (cond_str (needs_quotes pat) s_quote [] ++ pat ++ cond_str (needs_quotes pat) s_quote []))
  = Some (rhs_leaf (needs_quotes pat) pat, []).
Proof.
  intros Hne Hpat. destruct (needs_quotes pat) eqn:Eq; cbn [cond_str rhs_leaf].
  - apply parse_leaf_quoted; [exact Hne|exact (forallb_in_set _ _ _ lit_pattern_plain_quoted Hpat)].
  - unfold needs_quotes in Eq. apply orb_false_iff in Eq as [Eq _]. apply orb_false_iff in Eq as [Eq _].
    apply negb_false_iff in Eq. cbn [app]. rewrite app_nil_r.
    apply parse_leaf_word; [exact Hne|exact (forallb_in_set _ _ _ lit_unquoted_are_word_bytes Eq)].
Qed.

Lemma mods_text_snoc prefix (positive : bool) pat tail :
  mods_text prefix ++ cond_str positive s_colon_M s_colon_N ++ pat ++ tail =
  mods_text (prefix ++ [mn positive :: pat]) ++ tail.
Proof.
  rewrite mods_text_app, <- app_assoc. f_equal.
  change (mods_text [mn positive :: pat]) with ((58 :: mn positive :: pat) ++ []).
  rewrite app_nil_r. destruct positive; reflexivity.
Qed.

Lemma mods_ok_snoc prefix (positive : bool) pat :
  mods_ok prefix = true -> mod_ok pat = true -> mods_ok (prefix ++ [mn positive :: pat]) = true.
Proof.
  intros Hp Hm. rewrite mods_ok_app, Hp. unfold mods_ok. cbn [forallb andb]. rewrite andb_true_r.
  apply mod_ok_readable. unfold mod_ok in *. cbn [forallb]. rewrite Hm. destruct positive; reflexivity.
Qed.

Lemma from_text_read neg fe positive v prefix pat :
  name_ok v = true -> mods_ok prefix = true -> mod_ok pat = true ->
  parse_cond (from_text neg fe positive v (mods_text prefix) pat) =
  Some (from_cond neg fe positive v prefix pat).
Proof.
  intros Hv Hp Hm.
  apply (atom_text_read (Bool.eqb neg fe) fe v (prefix ++ [mn positive :: pat]) []
           (atom fe v (map classify_mod (prefix ++ [mn positive :: pat])))) in Hv.
  - unfold atom_text in Hv. rewrite <- mods_text_snoc, map_app in Hv.
    unfold from_text, from_cond. destruct neg, fe, positive; exact Hv.
  - apply mods_ok_snoc; assumption.
  - destruct fe; reflexivity.
Qed.

Lemma lit_pattern_mod_ok pat : forallb (in_set lit_pattern_set) pat = true -> mod_ok pat = true.
Proof.
  apply forallb_in_set. pose proof lit_pattern_are_mod_bytes as H. rewrite forallb_forall in *.
  intros c Hc. apply (andb_prop _ _ (H c Hc)).
Qed.

Theorem word_text_is_tree : forall cx v mods fe neg rw,
  In rw (simplify_word cx v mods fe neg) ->
  name_ok v = true -> mods_ok (removelast mods) = true ->
  parse_cond (rw_from rw) = rw_from_c rw /\ parse_cond (rw_to rw) = rw_to_c rw.
Proof.
  intros cx v mods fe neg rw Hin Hv Hp.
  destruct (simplify_word_inv _ _ _ _ _ _ Hin) as (pat & positive & _ & _ & _ & Hne & Hpat & _ & _ & ->).
  cbn [rw_from rw_to rw_from_c rw_to_c]. split.
  - apply from_text_read; [exact Hv|exact Hp|apply lit_pattern_mod_ok, Hpat].
  - apply cmp_text_read; [exact Hv|exact Hp|apply rhs_read; assumption].
Qed.

Lemma yn_pattern_mod_ok p ls : yn_pattern p ls -> mod_ok p = true.
Proof.
  unfold mod_ok. induction 1 as [|a b l p ls H _ IH]; [reflexivity|].
  cbn [forallb]. rewrite IH. unfold plain_mod_char, is_upper, is_lower in *. lia.
Qed.

Lemma lower_word_chars ls : forallb is_lower ls = true -> forallb word_char ls = true.
Proof.
  intros H. rewrite forallb_forall in *. intros c Hc. specialize (H c Hc).
  unfold word_char, is_hspace, is_lower in *. lia.
Qed.

Lemma mods_text_tl prefix tail :
  mods_text prefix ++ s_colon_tl ++ tail = mods_text (prefix ++ [[116; 108]]) ++ tail.
Proof. rewrite mods_text_app, <- app_assoc. reflexivity. Qed.

Theorem yesno_text_is_tree : forall cx v mods fe neg rw,
  In rw (fst (simplify_yesno cx v mods fe neg)) ->
  name_ok v = true -> mods_ok (removelast mods) = true ->
  parse_cond (rw_from rw) = rw_from_c rw /\ parse_cond (rw_to rw) = rw_to_c rw.
Proof.
  intros cx v mods fe neg rw Hin Hv Hp.
  destruct (simplify_yesno_inv _ _ _ _ _ _ Hin) as (pat & positive & _ & _ & Hlow & _ & ->).
  pose proof (to_lower_pat_yn pat Hlow) as Hyn.
  cbn [rw_from rw_to rw_from_c rw_to_c]. split.
  - apply from_text_read; [exact Hv|exact Hp|exact (yn_pattern_mod_ok _ _ Hyn)].
  - rewrite mods_text_tl, (cmp_text_read v _ _ _ _ (LWord (to_lower_pat pat)) Hv).
    + rewrite map_app. reflexivity.
    + rewrite mods_ok_app, Hp. reflexivity.
    + apply parse_leaf_word, lower_word_chars, (yn_pattern_lower _ _ Hyn). exact Hlow.
Qed.

(* simplifyMatch's regex lets ':' through: a modifier that contains one is read as two *)
Definition no_colon (m : str) : bool := negb (existsb (N.eqb 58) m).

Lemma simple_no_colon_ok m :
  forallb (in_set simple_mod_set) m = true -> no_colon m = true -> mod_ok m = true.
Proof.
  pose proof simple_mod_are_mod_bytes as Hset.
  rewrite forallb_forall in Hset. unfold mod_ok, no_colon.
  induction m as [|c m IH]; [reflexivity|]. cbn [forallb existsb]. intros H Hn.
  apply andb_true_iff in H as [Hc Hm]. apply negb_true_iff, orb_false_iff in Hn as [Hn1 Hn2].
  rewrite IH; [|exact Hm|rewrite Hn2; reflexivity]. rewrite andb_true_r.
  specialize (Hset c (in_set_true_In _ _ Hc)). cbv beta in Hset.
  rewrite N.eqb_sym, Hn1 in Hset. apply (andb_prop _ _ Hset).
Qed.

Lemma simple_mods_ok ms :
  simple_mod_text (mods_text ms) = true -> forallb no_colon ms = true -> mods_ok ms = true.
Proof.
  intros H Hn. apply simple_mod_text_all in H. unfold mods_ok. rewrite forallb_forall in *.
  intros m Hm. apply mod_ok_readable, simple_no_colon_ok; auto.
Qed.

Theorem match_text_is_tree : forall cx v mods fe neg rw,
  In rw (simplify_match cx v mods fe neg) ->
  name_ok v = true -> forallb no_colon mods = true ->
  parse_cond (rw_from rw) = rw_from_c rw /\ parse_cond (rw_to rw) = rw_to_c rw.
Proof.
  intros cx v mods fe neg rw Hin Hv Hn.
  destruct (simplify_match_inv _ _ _ _ _ _ Hin) as (pat & Hne & Hlast & _ & _ & _ & Hsimple & Hrw).
  pose proof (simple_mods_ok mods Hsimple Hn) as Hok.
  cbv zeta in Hrw. set (prefix := removelast mods) in *.
  set (may := match cx_mmn cx pat with MmnYes => true | _ => false end) in *.
  assert (Hsplit : mods = prefix ++ [77 :: pat]) by (rewrite <- Hlast; apply app_removelast_last, Hne).
  assert (Htext : forall tail, (v ++ mods_text prefix ++ s_colon_M ++ pat) ++ tail = v ++ mods_text mods ++ tail).
  { intros tail. rewrite Hsplit, <- !app_assoc. f_equal. exact (mods_text_snoc prefix true pat tail). }
  assert (Hms : map classify_mod prefix ++ [ModM pat] = map classify_mod mods)
    by (rewrite Hsplit, map_app; reflexivity).
  subst rw. cbn [rw_from rw_to rw_from_c rw_to_c]. rewrite !Htext, Hms. split.
  - exact (atom_text_read neg true v mods [] _ Hv Hok eq_refl).
  - pose proof (atom_text_read (negb neg) false v mods (cond_str may s_ne_empty [])
                  (if may then CCmp (LExpr v (map classify_mod mods)) false (LQuoted [])
                   else CLeaf (LExpr v (map classify_mod mods))) Hv Hok) as H.
    destruct neg; apply H; destruct may; reflexivity.
Qed.
