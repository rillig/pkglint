(* Proofs about Model/ShTok.v, part 4: splitIntoShellTokens.  Tokens, gaps and rest
   weave back to the input; per token, what the chain of ShToken calls says of it. *)
From PV Require Import Lib.Bytes Model.ShTok Spec.ShPartition Spec.ShWords
  Proofs.ShTok Proofs.ShTokLoop.
Open Scope N_scope.

Lemma chain_weave : forall (l : list (str * list str * str)) (before final : str),
  chain_ok before l final ->
  Forall (fun x => fst (fst x) <> [] /\ fst (fst x) = concat (snd (fst x)) /\ snd (fst x) <> []) l /\
  exists gaps, length gaps = S (length l) /\ Forall gap_ok gaps /\
    before = weave gaps (map (fun x => fst (fst x)) l) final.
Proof.
  induction l as [|[[text atoms] after] l IH]; intros before final H; cbn [chain_ok] in H.
  - destruct H as (pieces & Hp & ->). split; [constructor|].
    exists [concat pieces]. split; [reflexivity|]. split; [|reflexivity].
    constructor; [|constructor]. exists pieces. auto.
  - destruct H as ((pieces & Hp & ->) & Hn & Ht & Ha & _ & Hc).
    destruct (IH after final Hc) as (Hl & gaps & Hg & Hgo & ->).
    split; [constructor; cbn; auto|].
    exists (concat pieces :: gaps). split; [cbn; lia|]. split.
    + constructor; [exists pieces; auto|exact Hgo].
    + destruct gaps; [discriminate|]. reflexivity.
Qed.

Section WithExpr.

Variable expr : str -> option (str * str).
Hypothesis Hexpr : expr_contract expr.

Definition split_result (text : str) (toks : list str) (rest : str) : Prop :=
  exists l in_word,
    sh_tokens expr text = Ok (l, (in_word, rest)) /\
    toks = map (fun p => tok_text (fst p)) l /\
    Forall (fun t => t <> []) toks /\
    Forall (fun p => tok_text (fst p) = concat (map a_text (tok_atoms (fst p))) /\
                     tok_atoms (fst p) <> [] /\
                     atoms_chain QPlain (tok_atoms (fst p))) l /\
    exists gaps, length gaps = S (length toks) /\ Forall gap_ok gaps /\
                 text = weave gaps toks rest.

Theorem split_tokens_ok (text : str) :
  exists toks rest, split_tokens expr text = Ok (toks, rest) /\ split_result text toks rest.
Proof.
  unfold split_tokens.
  destruct (sh_tokens_ok expr Hexpr text) as (l & iw & r & E & Hc & Hi).
  rewrite E. cbn [bind].
  exists (map (fun p => tok_text (fst p)) l), r. split; [reflexivity|].
  exists l, iw. split; [exact E|]. split; [reflexivity|].
  destruct (chain_weave _ _ _ Hc) as (Hg & gaps & Hl & Hgo & Hw).
  rewrite Forall_map in Hg. rewrite map_length in Hl. rewrite map_map in Hw.
  split; [|split].
  - apply Forall_map. refine (Forall_impl _ _ Hg). intros p (A & _). exact A.
  - refine (Forall_impl _ _ (Forall_and Hg Hi)). cbn. intros p [(_ & A & B) C].
    repeat split; auto. intro Z. apply B. rewrite Z. reflexivity.
  - exists gaps. rewrite map_length. auto.
Qed.

End WithExpr.
