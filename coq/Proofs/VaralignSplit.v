(* Proofs about Model/VaralignSplit.v: the parts of VaralignSplitter.split
   concatenate to the raw text; the splitter never runs out of fuel; a follow-up
   line without newline is always split. *)
From PV Require Import Lib.Bytes Model.MkLexPrim Model.MkLineSplit
  Model.VaralignSplit Spec.MkPartition Proofs.MkLexPrim Proofs.MkLexer Proofs.MkLineSplit.
From Coq Require Import ZifyBool ZifyN ZifyNat.
Open Scope N_scope.

Lemma parse_leading_comment_app initial s lc r :
  parse_leading_comment initial s = (lc, r) -> s = lc ++ r.
Proof.
  unfold parse_leading_comment. destruct (has_prefix [35; 32] s).
  { intro H; inversion H; reflexivity. }
  destruct (skip_string [35] s) as [r1|] eqn:E1.
  { intro H; inversion H; subst. apply skip_string_some in E1. exact E1. }
  intro H; inversion H; subst. symmetry. apply since_suffix.
  destruct initial; [|apply is_suffix_refl].
  destruct (skip_byte 32 s) as [r1|] eqn:E2; [|apply is_suffix_refl].
  eapply is_suffix_trans; [apply next_bytes_suffix|apply chops_suffix, (skip_byte_chops _ _ _ E2)].
Qed.

Lemma mk_op_chops s r : mk_op s = Some r -> chops s r.
Proof.
  assert (K : forall p o, p <> [] -> (o = Some r -> chops s r) ->
            match skip_string p s with Some r' => Some r' | None => o end = Some r -> chops s r).
  { intros p o Hp Ho. destruct (skip_string p s) eqn:E; [|exact Ho].
    intros [= ->]. exact (skip_string_chops p s r Hp E). }
  unfold mk_op. repeat (apply K; [discriminate|]). apply skip_string_chops. discriminate.
Qed.

(* Panic: assert(ok) of parseVarnameOp, or an assert of unescapeComment or getRawValueAlign *)
Lemma parse_varname_op_post initial s :
  match parse_varname_op initial s with
  | Ok (vo, sp, r) => s = vo ++ sp ++ r
  | Panic => initial = true
  | OutOfFuel => False
  end.
Proof.
  unfold parse_varname_op. destruct initial; cbn [negb].
  2:{ destruct (next_bytes is_hspace s) as [sp r] eqn:E. apply next_bytes_eq in E. exact E. }
  pose proof (unescape_comment_fuel s) as F0.
  destruct (unescape_comment s) as [[main0 c0]| |]; cbn [bind]; [|congruence|reflexivity].
  destruct (varname_partition (rtrim_hspace main0)) as (v & m1 & Ev & _). rewrite Ev. cbn [bind].
  destruct (mk_op (snd (next_bytes is_hspace m1))) as [m3|]; [|reflexivity].
  pose proof (get_raw_value_align_post s (since (rtrim_hspace main0) m3)) as P.
  destruct (get_raw_value_align s (since (rtrim_hspace main0) m3)) as [ra| |]; cbn [bind]; [|contradiction|reflexivity].
  destruct P as (r0 & Hr0).
  rewrite skip_ok by (rewrite Hr0, app_length; lia). cbn [bind].
  destruct (next_bytes is_hspace (skipn (length ra) s)) as [sp r] eqn:E4.
  apply next_bytes_eq in E4.
  pose proof (since_suffix s (skipn (length ra) s) (skipn_suffix _ _)) as Q.
  rewrite E4 in Q at 2. symmetry. exact Q.
Qed.

Lemma parse_value_loop_post : forall fuel s, (length s < fuel)%nat ->
  match parse_value_loop fuel s with
  | Ok _ => True
  | Panic => In 10 s
  | OutOfFuel => False
  end.
Proof.
  induction fuel as [|f IH]; intros s Hf; [lia|].
  cbn [parse_value_loop]. destruct s as [|c t]; [exact I|].
  destruct ((c =? 35) || str_eqb (c :: t) [92]) eqn:Estop; [exact I|].
  apply orb_false_iff in Estop as [Hc35 Hone].
  assert (Rec : forall r, chops (c :: t) r ->
            match parse_value_loop f r with Ok _ => True | Panic => In 10 (c :: t) | OutOfFuel => False end).
  { intros r C. pose proof (chops_length _ _ C) as L. specialize (IH r ltac:(lia)).
    destruct (parse_value_loop f r); [exact I|exact IH|].
    destruct C as (x & _ & ->). apply in_or_app; right; exact IH. }
  destruct (next_bytes comment_safe (c :: t)) as [plain r] eqn:Esp.
  pose proof (next_bytes_eq _ _ _ _ Esp) as Eq.
  destruct plain as [|p0 plain'].
  2:{ apply Rec. exists (p0 :: plain'). split; [discriminate|exact Eq]. }
  assert (Hhd : comment_safe c = false).
  { pose proof (span_rest_head comment_safe (c :: t)) as H. unfold next_bytes in Esp. rewrite Esp in H.
    simpl in Eq. subst r. exact H. }
  destruct (skip_string [91; 35] (c :: t)) as [r1|] eqn:E1.
  { apply Rec. eapply skip_string_chops; [|exact E1]. discriminate. }
  destruct (skip_byte 91 (c :: t)) as [r2|] eqn:E2.
  { apply Rec. eapply skip_byte_chops; exact E2. }
  destruct (skip_byte 92 (c :: t)) as [r3|] eqn:E3.
  - apply skip_byte_some in E3. inversion E3; subst c r3.
    destruct t as [|d t']; [simpl in Hone; discriminate|].
    rewrite skip_ok by (simpl; lia). cbn [bind skipn].
    apply Rec. exists [92; d]. split; [discriminate|reflexivity].
  - left. destruct (comment_safe_false c Hhd) as [Hc|[Hc|[Hc|Hc]]]; subst c; try reflexivity; exfalso.
    + simpl in E3. discriminate.
    + simpl in Hc35. discriminate.
    + simpl in E2. discriminate.
Qed.

Lemma parse_value_post s :
  match parse_value s with
  | Ok (v, sa, c) => s = v ++ sa ++ c
  | Panic => In 10 s
  | OutOfFuel => False
  end.
Proof.
  unfold parse_value. pose proof (parse_value_loop_post (S (length s)) s ltac:(lia)) as P.
  destruct (parse_value_loop (S (length s)) s); cbn [bind]; [|exact P|exact P].
  destruct (Nat.even (trailing_backslashes s)).
  - rewrite !app_nil_r. reflexivity.
  - set (b := (length s - 1)%nat).
    rewrite app_assoc, <- rtrim_hspace_skipn. symmetry. apply firstn_skipn.
Qed.

Lemma has_suffix_nl_in raw : has_suffix [10] raw = true -> In 10 raw.
Proof.
  unfold has_suffix. intro H. apply andb_true_iff in H as [H1 H2].
  apply str_eqb_spec in H2. rewrite <- (firstn_skipn (length raw - length [10]) raw).
  apply in_or_app; right. rewrite H2. left; reflexivity.
Qed.

Lemma varalign_split_post raw initial :
  let (lc, s1) := parse_leading_comment initial raw in
  match varalign_split raw initial with
  | Ok p => parts_string p = raw /\ vp_leading_comment p = lc /\ exists rest,
      parse_varname_op initial s1 = Ok (vp_varname_op p, vp_space_before_value p, rest)
  | Panic => In 10 raw \/ initial = true /\ parse_varname_op initial s1 = Panic
  | OutOfFuel => False
  end.
Proof.
  unfold varalign_split. destruct (has_suffix [10] raw) eqn:Hs.
  { destruct (parse_leading_comment initial raw). left. apply has_suffix_nl_in; exact Hs. }
  destruct (parse_leading_comment initial raw) as [lc s1] eqn:E1.
  apply parse_leading_comment_app in E1.
  pose proof (parse_varname_op_post initial s1) as P2.
  destruct (parse_varname_op initial s1) as [[[vo sp] s2]| |]; cbn [bind]; [|exact P2|right; auto].
  pose proof (parse_value_post s2) as P3.
  destruct (parse_value s2) as [[[v sa] c]| |]; cbn [bind]; [|exact P3|].
  - split; [|split; [reflexivity|eexists; reflexivity]].
    unfold parts_string. cbn. rewrite E1, P2, P3. reflexivity.
  - left. rewrite E1, P2, !in_app_iff. auto.
Qed.

(* String(split(raw)) = raw *)
Lemma varalign_recombines raw initial p : varalign_split raw initial = Ok p -> parts_string p = raw.
Proof.
  intro H. pose proof (varalign_split_post raw initial) as P.
  destruct (parse_leading_comment initial raw). rewrite H in P. apply P.
Qed.

Lemma varalign_fuel raw initial : varalign_split raw initial <> OutOfFuel.
Proof.
  intro H. pose proof (varalign_split_post raw initial) as P.
  destruct (parse_leading_comment initial raw). rewrite H in P. exact P.
Qed.

Lemma varalign_initial_total raw : ~ In 10 raw ->
  (exists p, varalign_split raw true = Ok p) \/
  (varalign_split raw true = Panic /\
   parse_varname_op true (snd (parse_leading_comment true raw)) = Panic).
Proof.
  intro Hn. pose proof (varalign_split_post raw true) as P.
  destruct (parse_leading_comment true raw). cbn [snd].
  destruct (varalign_split raw true); [eauto|contradiction|].
  destruct P as [P|[_ P]]; [contradiction|auto].
Qed.

Lemma varalign_follow_total raw : ~ In 10 raw -> exists p, varalign_split raw false = Ok p.
Proof.
  intro Hn. pose proof (varalign_split_post raw false) as P.
  destruct (parse_leading_comment false raw).
  destruct (varalign_split raw false); [eauto|contradiction|].
  destruct P as [P|[P _]]; [contradiction|discriminate].
Qed.
