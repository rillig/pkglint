(* posix_accepted: for every tree that is the POSIX reading of its own text and
   whose words are well classified, the lexer of pkglint turns the printed
   program into exactly the terminal string the tree is meant to be, and that
   string is a sentence of shell.y. *)
From Coq Require Import NArith ZArith List Bool Lia.
From PV Require Import Lib.Bytes Gen.ShellGrammar Model.ShellLex Spec.PosixSh
  Proofs.ShellLex Proofs.PosixGrammar Proofs.PosixLex.
Import ListNotations.

Lemma length_tm_toks l : (length (tm l) <= 2 * length (toks l))%nat.
Proof.
  induction l as [| p l IH]; [simpl; lia |].
  change (tm (p :: l)) with (ptok_terms p ++ tm l). rewrite app_length. cbn [toks map length].
  fold (toks l). destruct p; cbn [ptok_terms length]; lia.
Qed.

Lemma lex_stream_end fuel a f c i g :
  lex_stream (S fuel) (mkLx [] [] a f c i g) = Lexed [].
Proof. reflexivity. Qed.

Theorem lexer_recovers_terms : forall p : program,
  wf_words p = true -> faithful p = true -> shell_lex (tokens p) = Lexed (terms p).
Proof.
  intros p Hwf Hfa.
  destruct lexer_reads_tree as (_ & _ & _ & _ & _ & _ & _ & _ & Hcl).
  destruct (Hcl p Hwf Hfa (-1)%Z (-1)%Z safe_m1) as (a' & f' & c' & i' & g' & _ & Hrun).
  specialize (Hrun []). rewrite app_nil_r in Hrun.
  unfold shell_lex, new_lexer, tokens. fold (toks (print_clist p)).
  pose proof (length_tm_toks (print_clist p)) as Hlen.
  replace (2 * length (toks (print_clist p)) + 1)%nat
    with (length (tm (print_clist p)) + S (2 * length (toks (print_clist p)) - length (tm (print_clist p))))%nat by lia.
  rewrite (Hrun _). rewrite lex_stream_end. cbn [prepend]. rewrite app_nil_r. reflexivity.
Qed.

Theorem terms_derivable : forall p : program,
  wf_words p = true -> derives start_symbol (terms p).
Proof.
  intros p Hwf.
  destruct ast_in_grammar as (_ & _ & _ & _ & _ & _ & _ & _ & Hcl).
  apply D_start_1. apply D_program_1. apply D_clist_of_term. apply Hcl; assumption.
Qed.

Theorem posix_accepted : forall p : program,
  wf_words_posix p = true -> faithful p = true ->
  shell_lex (tokens p) = Lexed (terms p) /\ derives start_symbol (terms p).
Proof.
  intros p Hwf Hfa. split; [apply lexer_recovers_terms | apply terms_derivable]; assumption.
Qed.
