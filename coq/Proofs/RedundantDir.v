(* Proofs about RedundantScope on makefiles with directives (Model/RedundantDir.v)
   and about the evaluator with directives (Spec/MakeEvalDir.v). *)
From Coq Require Import List Bool Arith Lia.
From PV Require Import Lib.Bytes Model.Redundant Model.RedundantCond Model.RedundantDir
  Spec.MakeEval Spec.MakeEvalDir Spec.VerdictSound Spec.VerdictSoundDir
  Proofs.Redundant Proofs.RedundantCond Proofs.RedundantPaths Proofs.RedundantSound3.
Import ListNotations.

Lemma check_line_d_inv g s lv i l s' lv' vs :
  check_line_d g s lv i l = Ok (s', lv', vs) ->
  let lv1 := track_before g lv i (dl_body l) in
  lv' = track_after lv1 (dl_body l) /\
  exists p, let s1 := mkScope (s_vars s) p (s_names s) in
    match dl_body l with
    | DAssign a => exists s2, handle_varassign s1 i a (is_conditional lv1) = Ok (s2, vs) /\
                              handle_expr (add_refs s2 (a_var a) (varnames lv1)) a = Ok s'
    | DUndef xs => s' = fold_left undef_one xs s1 /\ vs = []
    | _ => (exists us, s' = fold_left read_one us s1) /\ vs = []
    end.
Proof.
  unfold check_line_d. destruct (update_include_path s (dplain l)) as [s1| |] eqn:E1; try discriminate.
  apply update_include_path_inv in E1 as [p ->]. cbv zeta.
  assert (reads : forall ws lvx,
            (if dl_infra l then Ok (mkScope (s_vars s) p (s_names s), lvx, [])
             else match handle_expr (mkScope (s_vars s) p (s_names s)) (reads_assign ws) with
                  | Ok s2 => Ok (s2, lvx, []) | Panic => Panic | OutOfFuel => OutOfFuel end)
            = Ok (s', lv', vs) ->
            lv' = lvx /\ exists p0, (exists us, s' = fold_left read_one us (mkScope (s_vars s) p0 (s_names s))) /\ vs = []).
  { intros ws lvx. destruct (dl_infra l).
    - intros [= <- <- <-]. split; [reflexivity|]. exists p. split; [exists []|]; reflexivity.
    - destruct (handle_expr _ _) as [s2| |] eqn:E3; try discriminate. intros [= <- <- <-].
      destruct (handle_expr_shape _ _ _ E3) as [us ->]. split; [reflexivity|]. exists p. split; [eexists|]; reflexivity. }
  destruct (dl_body l) as [a| | |xs|n c| | |u n|]; try apply reads;
    try (intros [= <- <- <-]; split; [reflexivity|]; exists p; split; [try exists []|]; reflexivity).
  destruct (handle_varassign _ i a _) as [[s2 vs2]| |] eqn:E2; try discriminate.
  destruct (handle_expr _ a) as [s3| |] eqn:E3; try discriminate.
  intros [= <- <- <-]. split; [reflexivity|]. exists p, s2. auto.
Qed.

Lemma add_refs_is_cond s y ws x : is_cond (add_refs s y ws) x = is_cond s x.
Proof.
  unfold add_refs. destruct ws; [reflexivity|]. apply (upd_keeps (fun i => v_cond (vi_var i))). reflexivity.
Qed.

Lemma undef_one_is_cond s y x : is_cond (undef_one s y) x = is_cond s x || str_eqb y x.
Proof.
  unfold is_cond, undef_one; simpl; unfold upd.
  destruct (str_eqb y x) eqn:E; [rewrite orb_true_r|rewrite orb_false_r]; reflexivity.
Qed.

Lemma fold_undef_is_cond xs : forall s x,
  is_cond (fold_left undef_one xs s) x = is_cond s x || existsb (fun y => str_eqb y x) xs.
Proof.
  induction xs as [|y xs IH]; intros s x; simpl; [rewrite orb_false_r; reflexivity|].
  rewrite IH, undef_one_is_cond, orb_assoc. reflexivity.
Qed.

Lemma check_line_d_is_cond g s lv i l s' lv' vs x :
  check_line_d g s lv i l = Ok (s', lv', vs) ->
  (is_cond s x = true -> is_cond s' x = true) /\ (d_undefs x l = true -> is_cond s' x = true).
Proof.
  intro H. apply check_line_d_inv in H as (_ & p & H). unfold d_undefs.
  destruct (dl_body l) as [a| | |xs|n c| | |u n|];
    try (destruct H as [[us ->] _]; rewrite fold_read_is_cond; split; [tauto|discriminate]).
  - destruct H as (s2 & E2 & E3). split; [|discriminate].
    rewrite (handle_expr_is_cond _ _ _ x E3), add_refs_is_cond, (handle_varassign_is_cond _ _ _ _ _ _ x E2).
    change (is_cond (mkScope (s_vars s) p (s_names s)) x) with (is_cond s x).
    destruct (str_eqb (a_var a) x); intros ->; reflexivity.
  - destruct H as [-> _]. rewrite fold_undef_is_cond.
    change (is_cond (mkScope (s_vars s) p (s_names s)) x) with (is_cond s x).
    split; intros ->; [reflexivity|apply orb_true_r].
Qed.

Lemma check_line_d_silent g s lv i l a s' lv' vs :
  dl_body l = DAssign a -> is_cond s (a_var a) || is_conditional lv = true ->
  check_line_d g s lv i l = Ok (s', lv', vs) -> vs = [].
Proof.
  intros Hb Hc H. apply check_line_d_inv in H as (_ & p & H). rewrite Hb in H.
  destruct H as (s2 & E & _). apply handle_varassign_silent in E; [exact E|exact Hc].
Qed.

Lemma check_from_d_cons g s lv idx l p per :
  check_from_d g s lv idx (l :: p) = Ok per ->
  exists s' lv' vs rest,
    check_line_d g s lv idx l = Ok (s', lv', vs) /\ check_from_d g s' lv' (S idx) p = Ok rest /\ per = vs :: rest.
Proof.
  simpl. destruct (check_line_d g s lv idx l) as [[[s' lv'] vs]| |]; try discriminate.
  destruct (check_from_d g s' lv' (S idx) p) as [rest| |] eqn:E; try discriminate.
  intros [= <-]. exists s', lv', vs, rest. auto.
Qed.

Lemma silent_once_cond g x : forall p s lv idx per,
  check_from_d g s lv idx p = Ok per -> is_cond s x = true ->
  forall j l2, nth_error p j = Some l2 -> d_assigns x l2 = true -> nth_error per j = Some [].
Proof.
  induction p as [|l0 p IH]; intros s lv idx per H Hc j l2 Hn Ha; [destruct j; discriminate|].
  apply check_from_d_cons in H as (s' & lv' & vs & rest & E & E2 & ->). destruct j as [|j]; simpl in *.
  - inversion Hn; subst. unfold d_assigns in Ha. destruct (dl_body l2) as [a| | | | | | | |] eqn:Eb; try discriminate.
    apply str_eqb_spec in Ha. subst x. apply (check_line_d_silent _ _ _ _ _ _ _ _ _ Eb) in E; [subst; reflexivity|].
    rewrite Hc. reflexivity.
  - eapply IH; try eassumption. exact (proj1 (check_line_d_is_cond _ _ _ _ _ _ _ _ x E) Hc).
Qed.

Lemma undef_forgets_from g x l rest : forall pre s lv idx per,
  check_from_d g s lv idx (pre ++ l :: rest) = Ok per -> d_undefs x l = true ->
  forall j l2, nth_error rest j = Some l2 -> d_assigns x l2 = true ->
  nth_error per (S (length pre + j)) = Some [].
Proof.
  induction pre as [|l0 pre IH]; intros s lv idx per H Hu j l2 Hn Ha;
    apply check_from_d_cons in H as (s' & lv' & vs & r & E & E2 & ->); simpl.
  - eapply silent_once_cond; try eassumption. exact (proj2 (check_line_d_is_cond _ _ _ _ _ _ _ _ x E) Hu).
  - eapply IH; eassumption.
Qed.

(* After ".undef x" (in a package file or in a file from mk/, conditional or
   not), no assignment to x gets or causes a verdict: no verdict relates lines
   across the .undef, whatever stands in between. *)
Theorem undef_forgets g pre l rest per x j l2 :
  check_lines_d g (pre ++ l :: rest) = Ok per -> d_undefs x l = true ->
  nth_error rest j = Some l2 -> d_assigns x l2 = true ->
  nth_error per (S (length pre + j)) = Some [].
Proof. unfold check_lines_d. intros. eapply undef_forgets_from; eassumption. Qed.

Lemma existsb_map {A B} (f : B -> bool) (h : A -> B) l : existsb f (map h l) = existsb (fun a => f (h a)) l.
Proof. induction l; simpl; [reflexivity|]. rewrite IHl. reflexivity. Qed.

Lemma is_conditional_guards g lv stack :
  map lv_guard lv = map (is_guard_line g) stack ->
  is_conditional lv = existsb (fun o => negb (is_guard_line g o)) stack.
Proof.
  intro H. unfold is_conditional.
  rewrite <- (existsb_map negb lv_guard), H, existsb_map. reflexivity.
Qed.

Definition step_stack (idx : nat) (stack : list nat) (b : dbody) : list nat :=
  match b with
  | DIf _ _ | DFor _ _ => idx :: stack
  | DEndif | DEndfor => match stack with [] => [] | _ :: s => s end
  | _ => stack
  end.

Lemma open_sections_from_step idx stack l r :
  open_sections_from idx stack (l :: r) = open_sections_from (S idx) (step_stack idx stack (dl_body l)) r.
Proof. simpl. unfold step_stack. destruct (dl_body l); reflexivity. Qed.

Lemma track_guards g lv stack idx b :
  map lv_guard lv = map (is_guard_line g) stack ->
  map lv_guard (track_after (track_before g lv idx b) b) = map (is_guard_line g) (step_stack idx stack b).
Proof.
  intro H. destruct b; simpl; try assumption.
  (* .if and .for push the same mark on both sides; .endif and .endfor pop both *)
  1, 3: rewrite H; reflexivity.
  all: destruct lv, stack; try discriminate H; [reflexivity|]; injection H as _ H2; exact H2.
Qed.

Lemma conditional_silent_from g : forall p s lv idx stack per,
  check_from_d g s lv idx p = Ok per -> map lv_guard lv = map (is_guard_line g) stack ->
  forall j l a, nth_error p j = Some l -> dl_body l = DAssign a ->
  existsb (fun o => negb (is_guard_line g o)) (open_sections_from idx stack (firstn j p)) = true ->
  nth_error per j = Some [].
Proof.
  induction p as [|l0 p IH]; intros s lv idx stack per H Hg j l a Hn Hb Hc; [destruct j; discriminate|].
  apply check_from_d_cons in H as (s' & lv' & vs & rest & E & E2 & ->). destruct j as [|j].
  - simpl in Hn. inversion Hn; subst l0. simpl in Hc.
    rewrite <- (is_conditional_guards g lv stack Hg) in Hc.
    apply (check_line_d_silent _ _ _ _ _ _ _ _ _ Hb) in E; [subst; reflexivity|]. rewrite Hc. apply orb_true_r.
  - simpl in Hn. rewrite firstn_cons, open_sections_from_step in Hc. simpl.
    eapply IH; try eassumption.
    apply check_line_d_inv in E as [-> _]. apply track_guards. assumption.
Qed.

(* An assignment that lies inside an .if/.for section other than the
   multiple-inclusion guard of its MkLines - whatever the condition is and
   whether make takes it or not - gets no verdict and causes none. *)
Theorem conditional_line_silent_d g p per j l a :
  check_lines_d g p = Ok per -> nth_error p j = Some l -> dl_body l = DAssign a ->
  in_conditional_section g (firstn j p) = true -> nth_error per j = Some [].
Proof.
  unfold check_lines_d, in_conditional_section, open_sections. intros.
  eapply (conditional_silent_from g p new_scope [] 0 []); try eassumption. reflexivity.
Qed.

Lemma unroll_lift p : forall out, unroll_from [] out (lift p) = Some (rev out ++ lift p).
Proof.
  induction p as [|l p IH]; intro out; simpl; [rewrite app_nil_r; reflexivity|].
  destruct l; simpl; rewrite IH; simpl; rewrite <- app_assoc; reflexivity.
Qed.

Lemma exec_d_lift fuel p : forall st,
  fold_left (exec_dline fuel) (lift p) (mkD st [] false) = mkD (fold_left (exec_line fuel) p st) [] false.
Proof. induction p as [|l p IH]; intro st; simpl; [reflexivity|]. destruct l; simpl; apply IH. Qed.

Theorem evaldir_conservative fuel p x : final_d fuel (lift p) x = final fuel p x.
Proof.
  unfold final_d, unroll. rewrite unroll_lift. simpl. unfold exec_d, dinit.
  rewrite exec_d_lift. reflexivity.
Qed.

Lemma blank_from_past i : forall (p : sdprogram) k, (i < k)%nat -> blank_from k [i] p = p.
Proof.
  induction p as [|l p IH]; intros k H; simpl; [reflexivity|]. rewrite IH by lia.
  destruct (Nat.eqb_spec k i); [lia|reflexivity].
Qed.

Lemma blank_from_lift (i : nat) : forall (p : sprogram) (idx : nat) st fuel,
  fold_left (exec_dline fuel) (blank_from idx [(idx + i)%nat] (lift p)) (mkD st [] false)
  = mkD (fold_left (exec_line fuel) (delete_nth i p) st) [] false.
Proof.
  induction i as [|i IH]; intros [|l p] idx st fuel; simpl; try reflexivity.
  - rewrite Nat.add_0_r, Nat.eqb_refl, blank_from_past by lia. simpl. apply exec_d_lift.
  - destruct (Nat.eqb_spec idx (idx + S i)%nat); [lia|]. simpl.
    replace (idx + S i)%nat with (S idx + i)%nat by lia.
    destruct l; simpl; apply IH.
Qed.

Lemma unroll_blank_lift is p : forall idx out,
  unroll_from [] out (blank_from idx is (lift p)) = Some (rev out ++ blank_from idx is (lift p)).
Proof.
  induction p as [|l p IH]; intros idx out; simpl; [rewrite app_nil_r; reflexivity|].
  destruct (existsb (Nat.eqb idx) is); [|destruct l]; simpl; rewrite IH; simpl; rewrite <- app_assoc; reflexivity.
Qed.

Lemma final_d_blank_lift fuel i p x : final_d fuel (blank [i] (lift p)) x = final fuel (delete_nth i p) x.
Proof.
  unfold final_d, unroll, blank. rewrite unroll_blank_lift. simpl. unfold exec_d, dinit.
  rewrite (blank_from_lift i p 0). reflexivity.
Qed.

Lemma to_spec_d_embed p : to_spec_d (embed p) = lift (to_spec p).
Proof.
  unfold to_spec_d, embed, lift, to_spec. rewrite !map_map. apply map_ext. intro l.
  unfold spec_dline, embed_line, spec_line. simpl. destruct (l_body l); reflexivity.
Qed.

Theorem deletable_d_embed p i : deletable_d (embed p) [i] <-> deletable p i.
Proof.
  unfold deletable_d, deletable. split; intros H fuel x; specialize (H fuel x);
    rewrite to_spec_d_embed, final_d_blank_lift, evaldir_conservative, <- to_spec_delete in *; assumption.
Qed.

Lemma check_line_d_embed g s i l :
  check_line_d g s [] i (embed_line l)
  = match check_line s i l with
    | Ok (s', vs) => Ok (s', [], vs)
    | Panic => Panic
    | OutOfFuel => OutOfFuel
    end.
Proof.
  unfold check_line_d, check_line, embed_line, dplain. simpl.
  change (update_include_path s (mkLine (l_file l) (l_lineno l) None)) with (update_include_path s l).
  destruct (update_include_path s l) as [s1| |]; try reflexivity.
  destruct (l_body l) as [a|]; simpl; [|reflexivity].
  destruct (handle_varassign s1 i a false) as [[s2 vs]| |]; try reflexivity.
  simpl. destruct (handle_expr s2 a); reflexivity.
Qed.

Lemma check_from_d_embed g p : forall s i, check_from_d g s [] i (embed p) = check_from_c s i (plain p).
Proof.
  induction p as [|l p IH]; intros s i; simpl; [reflexivity|].
  rewrite check_line_d_embed, check_line_c_false.
  destruct (check_line s i l) as [[s' vs]| |]; try reflexivity. rewrite IH. reflexivity.
Qed.

Theorem check_d_embed g p : check_d g (embed p) = check p.
Proof. unfold check_d, check_lines_d. rewrite check_from_d_embed. apply check_c_plain. Qed.

Lemma infra_at_embed p i : infra_at (embed p) i = false.
Proof.
  unfold infra_at, embed. rewrite nth_error_map. destruct (nth_error p i); reflexivity.
Qed.

Theorem check_pkg_embed p : check_pkg (embed p) = check p.
Proof.
  unfold check_pkg. rewrite check_d_embed. destruct (check p) as [vs| |]; try reflexivity.
  f_equal. induction vs as [|v vs IH]; simpl; [reflexivity|]. rewrite infra_at_embed. simpl. f_equal. exact IH.
Qed.

(* false (verdict_sound_dir_refuted); true on makefiles without directives (verdict_sound_dir_partial) *)
Definition verdict_sound_dir_full : Prop :=
  forall (p : dprogram) (vs : list verdict) (vd : verdict),
    check_pkg p = Ok vs -> In vd vs -> deletable_d p [vd_flagged vd].

(* cat/pa/Makefile: VA= a / .include "../../mk/reset.mk" / VA= b
   mk/reset.mk:     .if defined(VA) / VB= a / .endif *)
Definition w_VA : var := [86; 65].
Definition w_VB : var := [86; 66].
Definition witness_infra_condition : dprogram :=
  [ mkDLine 0 1 false (DAssign (mkAssign w_VA OpAssign [Lit [97]]));
    mkDLine 0 2 false DInclude;
    mkDLine 1 1 true (DIf false (DCDefined w_VA));
    mkDLine 1 2 true (DAssign (mkAssign w_VB OpAssign [Lit [97]]));
    mkDLine 1 3 true DEndif;
    mkDLine 0 3 false (DAssign (mkAssign w_VA OpAssign [Lit [98]])) ].

Lemma witness_infra_condition_verdict :
  check_pkg witness_infra_condition = Ok [mkVerdict 0 5 KOverwritten].
Proof. vm_compute. reflexivity. Qed.

Theorem verdict_sound_dir_refuted : ~ verdict_sound_dir_full.
Proof.
  intro H.
  specialize (H witness_infra_condition _ (mkVerdict 0 5 KOverwritten) witness_infra_condition_verdict (or_introl eq_refl)).
  specialize (H 5%nat w_VB). vm_compute in H. discriminate.
Qed.

(* the same program with the condition in a file of the package: no verdict *)
Definition witness_package_condition : dprogram :=
  map (fun l => mkDLine (dl_file l) (dl_lineno l) false (dl_body l)) witness_infra_condition.
Lemma package_condition_is_a_read : check_pkg witness_package_condition = Ok [].
Proof. vm_compute. reflexivity. Qed.

Theorem verdict_sound_dir_partial p vs vd :
  wf_program p = true -> check_pkg (embed p) = Ok vs -> In vd vs -> guard p vd = true ->
  deletable_d (embed p) [vd_flagged vd].
Proof.
  intros Hwf Hc Hin Hg. rewrite check_pkg_embed in Hc. apply deletable_d_embed.
  eapply (verdict_sound_partial p vs vd); eassumption.
Qed.

Lemma find_guard_from_shape : forall p idx g,
  find_guard_from idx p = Some g ->
  exists pre x post,
    p = pre ++ DIf true (DCDefined x) :: post /\ Forall (fun b => b = DComment) pre /\
    g = (idx + length pre)%nat /\ guard_name_ok x = true /\ closes_at_end [true] post = true.
Proof.
  induction p as [|b p IH]; intros idx g H; simpl in H; [discriminate|].
  destruct b; try discriminate.
  - apply IH in H. destruct H as (pre & x & post & -> & Hf & -> & Hn & Hc).
    exists (DComment :: pre), x, post. simpl. repeat split; auto; try lia.
  - destruct neg; try discriminate. destruct c; try discriminate.
    destruct (guard_name_ok x && closes_at_end [true] p) eqn:E; try discriminate.
    apply andb_prop in E. destruct E as [En Ec]. inversion H; subst g.
    exists [], x, p. simpl. repeat split; auto.
Qed.

Theorem find_guard_shape p g :
  find_guard p = Some g ->
  exists pre l x post,
    p = pre ++ l :: post /\ length pre = g /\ dl_body l = DIf true (DCDefined x) /\
    guard_name_ok x = true /\ Forall (fun l0 => dl_body l0 = DComment) pre.
Proof.
  unfold find_guard. intro H. apply find_guard_from_shape in H.
  destruct H as (bpre & x & bpost & Hm & Hf & -> & Hn & _).
  apply map_eq_app in Hm. destruct Hm as (pre & rest & -> & Hpre & Hrest).
  destruct rest as [|l post]; [discriminate|]. simpl in Hrest. inversion Hrest as [[Hl Hpost]].
  exists pre, l, x, post. repeat split; auto.
  - rewrite <- Hpre. rewrite map_length. reflexivity.
  - rewrite <- Hpre in Hf. apply Forall_map in Hf. exact Hf.
Qed.

Lemma exec_comments fuel pre : Forall (fun l0 => dl_body l0 = DComment) pre ->
  forall s, fold_left (exec_dline fuel) (to_spec_d pre) s = s.
Proof.
  induction 1 as [|l pre Hl _ IH]; intro s; simpl; [reflexivity|].
  unfold spec_dline at 1. rewrite Hl.
  assert (E : exec_dline fuel s SDNop = s) by (unfold exec_dline; destruct (d_err s); reflexivity).
  rewrite E. apply IH.
Qed.

(* When a file with a guard line is read on its own (closed world: nothing was
   read before it), make takes the guard: after the guard line the body is
   active and the variable table is still empty.  This is why NewMkLines may
   treat the body as unconditional for ONE file - and why the same exemption is
   wrong for the whole-package scan, where other lines come first. *)
Theorem guard_taken_when_read_alone p g fuel :
  find_guard p = Some g ->
  fold_left (exec_dline fuel) (to_spec_d (firstn (S g) p)) dinit
  = mkD empty_store [mkFrame true true false] false.
Proof.
  intro H. apply find_guard_shape in H. destruct H as (pre & l & x & post & -> & <- & Hl & _ & Hf).
  replace (S (length pre)) with (length (pre ++ [l])) by (rewrite app_length; simpl; lia).
  replace (pre ++ l :: post) with ((pre ++ [l]) ++ post) by (rewrite <- app_assoc; reflexivity).
  rewrite firstn_app, firstn_all, Nat.sub_diag. simpl. rewrite app_nil_r.
  unfold to_spec_d. rewrite map_app, fold_left_app. fold (to_spec_d pre).
  rewrite (exec_comments fuel pre Hf). simpl. unfold spec_dline. rewrite Hl. reflexivity.
Qed.
