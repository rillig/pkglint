(* escapePrintable only ever produces printable ASCII, tab and newline -- for every
   byte string (in fact for every list of numbers). *)
From PV Require Import Lib.Bytes Lib.Utf8 Model.Escape.
From Coq Require Import ZifyBool ZifyN ZifyNat.
Open Scope N_scope.

(* every byte is in textproc.XPrint: newline, tab, 0x20..0x7E *)
Definition safe (s : str) : Prop := Forall (fun b => xprint b = true) s.

Lemma safe_app a b : safe a -> safe b -> safe (a ++ b).
Proof. unfold safe. intros. apply Forall_app. split; assumption. Qed.

Lemma safe_cons x s : xprint x = true -> safe s -> safe (x :: s).
Proof. unfold safe. intros. constructor; assumption. Qed.

Lemma safe_nil : safe []. Proof. constructor. Qed.

Lemma safe_if (c : bool) a b : safe a -> safe b -> safe (if c then a else b).
Proof. destruct c; auto. Qed.

Lemma safe_forallb s : forallb xprint s = true -> safe s.
Proof. intro H. apply Forall_forall, forallb_forall, H. Qed.

(* `auto with safe`: a string put together from safe pieces; a literal by evaluation *)
Create HintDb safe.
#[export] Hint Resolve safe_nil safe_cons safe_app safe_if : safe.
#[export] Hint Extern 1 (safe (_ :: _)) => (apply safe_forallb; reflexivity) : safe.

Lemma xprint_ascii b : xprint b = true -> b <? 128 = true.
Proof. unfold xprint. lia. Qed.

(* the bytes of the two escape forms <0xXX> and <U+XXXX>:  < > U + x 0-9 A-F *)
Definition escape_alphabet (c : N) : bool :=
  (c =? 60) || (c =? 62) || (c =? 85) || (c =? 43) || (c =? 120) || is_digit c || ((65 <=? c) && (c <=? 70)).

Definition in_alphabet (s : str) : Prop := Forall (fun c => escape_alphabet c = true) s.

Lemma hex_digit_alphabet d : d < 16 -> escape_alphabet (hex_digit d) = true.
Proof. intro H. unfold escape_alphabet, hex_digit, is_digit. destruct (N.ltb_spec d 10); lia. Qed.

Lemma hex_aux_alphabet fuel n acc : in_alphabet acc -> in_alphabet (hex_aux fuel n acc).
Proof.
  revert n acc. induction fuel as [|fuel IH]; intros n acc Ha; cbn [hex_aux]; [assumption|].
  assert (escape_alphabet (hex_digit (n mod 16)) = true) by (apply hex_digit_alphabet, N.mod_lt; lia).
  destruct (n / 16 =? 0); [|apply IH]; constructor; assumption.
Qed.

Lemma fmt_02X_alphabet b : in_alphabet (fmt_02X b).
Proof. unfold fmt_02X. repeat constructor; apply hex_digit_alphabet, N.mod_lt; lia. Qed.

Lemma fmt_U_alphabet r : in_alphabet (fmt_U r).
Proof.
  unfold fmt_U. cbn [app]. do 2 (apply Forall_cons; [reflexivity|]). apply Forall_app. split.
  - apply Forall_forall. intros c Hc. apply repeat_spec in Hc. subst. reflexivity.
  - apply hex_aux_alphabet. constructor.
Qed.

(* The piece for one rune is the byte itself, if that is in XPrint, or one of the escape
   forms.  So a predicate that holds of the escape alphabet and of the XPrint bytes of s
   holds of every byte of the result: both theorems below are instances. *)
Lemma escape_piece_Forall (P : N -> Prop) b0 s' r w :
  (forall c, escape_alphabet c = true -> P c) -> (xprint b0 = true -> P b0) ->
  decode_rune (b0 :: s') = (r, w) -> Forall P (escape_piece (b0 :: s') b0 r).
Proof.
  intros Ha Hb Hd. unfold escape_piece.
  destruct ((r <? 256) && xprint b0) eqn:E1.
  - apply andb_true_iff in E1 as [_ Hx].
    rewrite (decode_rune_ascii b0 s' (xprint_ascii _ Hx)) in Hd. inversion Hd; subst. auto.
  - apply (Forall_impl _ Ha).
    destruct ((r =? rune_error) && negb (has_prefix utf8_rune_error (b0 :: s'))); cbn [app].
    + do 3 (apply Forall_cons; [reflexivity|]). apply Forall_app. split; [apply fmt_02X_alphabet|repeat constructor].
    + apply Forall_cons; [reflexivity|]. apply Forall_app. split; [apply fmt_U_alphabet|repeat constructor].
Qed.

Lemma escape_from_Forall (P : N -> Prop) s k :
  (forall c, escape_alphabet c = true -> P c) -> (forall c, In c s -> xprint c = true -> P c) ->
  Forall P (escape_from s k).
Proof.
  intros Ha. revert k. induction s as [|b0 s IH]; intros k Hs; cbn [escape_from]; [constructor|].
  assert (IH' : forall k', Forall P (escape_from s k')) by (intro; apply IH; intros c Hc; apply Hs; right; assumption).
  destruct k as [|k]; [|apply IH'].
  destruct (decode_rune (b0 :: s)) as [r w] eqn:Hd.
  apply Forall_app. split; [|apply IH'].
  apply (escape_piece_Forall P b0 s r w Ha); [apply Hs; left; reflexivity|assumption].
Qed.

Theorem escape_printable_safe s : safe (escape_printable s).
Proof.
  apply escape_from_Forall; [|auto]. intro c. unfold escape_alphabet, xprint, is_digit. lia.
Qed.
#[export] Hint Resolve escape_printable_safe : safe.

(* used for newline (10), ':' (58) and ' ' (32) *)
Theorem escape_keeps_out c s : escape_alphabet c = false -> ~ In c s -> ~ In c (escape_printable s).
Proof.
  intros Hc Hs Hin.
  assert (Forall (fun c' => c' <> c) (escape_printable s)) as H.
  { apply escape_from_Forall; [intros c' H ->; congruence|intros c' H _ ->; contradiction]. }
  rewrite Forall_forall in H. exact (H c Hin eq_refl).
Qed.

(* what may follow a cut: nothing, or an ASCII byte first.  Escaping distributes over such
   a cut (escape_app_ascii) *)
Definition ascii_head (b : str) : Prop := match b with [] => True | c :: _ => c < 128 end.

Lemma ascii_head_safe p r : safe p -> ascii_head r -> ascii_head (p ++ r).
Proof. intros [|c p' Hc _] Hr; [exact Hr|]. apply N.ltb_lt, xprint_ascii, Hc. Qed.

(* an ASCII byte is not a continuation byte *)
Lemma decode_rune_app_ascii x b : x <> [] -> ascii_head b -> decode_rune (x ++ b) = decode_rune x.
Proof.
  intros Hx Hb. destruct b as [|c b]; [rewrite app_nil_r; reflexivity|]. cbn [ascii_head] in Hb.
  assert (Hr : forall lo hi, 128 <= lo -> in_range lo hi c = false) by (unfold in_range; lia).
  assert (Hc : is_cont c = false) by (apply Hr; lia).
  (* the decoder looks at most three bytes past the first: wherever it meets c the test fails,
     as it does at the end of x; the tests on the bytes of x are the same on both sides *)
  destruct x as [|x0 [|x1 [|x2 [|x3 x]]]]; [congruence|..]; destruct b as [|c1 [|c2 b]];
    unfold decode_rune; cbn [app]; rewrite ?Hc, ?Hr by (destruct (x0 =? 224), (x0 =? 240); lia);
    repeat match goal with
           | |- context [if in_range ?lo ?hi ?y then _ else _] => destruct (in_range lo hi y)
           | |- context [if is_cont ?y then _ else _] => destruct (is_cont y)
           end; reflexivity.
Qed.

Lemma has_prefix_app_ascii p x b :
  Forall (fun c => 128 <= c) p -> x <> [] -> ascii_head b -> has_prefix p (x ++ b) = has_prefix p x.
Proof.
  intros Hp Hx Hb. unfold has_prefix. revert x Hx. induction Hp as [|c p Hc Hp IH]; intros x Hx; [reflexivity|].
  destruct x as [|x0 x]; [congruence|]. cbn [app strip_prefix].
  destruct (c =? x0); [|reflexivity].
  destruct x as [|x1 x]; [|apply IH; discriminate].
  cbn [app]. destruct p as [|c' p]; [reflexivity|]. cbn [strip_prefix].
  destruct b as [|b0 b]; [reflexivity|]. cbn [ascii_head] in Hb.
  inversion Hp; subst. destruct (N.eqb_spec c' b0); [lia|reflexivity].
Qed.

Lemma escape_piece_app_ascii x b b0 r :
  x <> [] -> ascii_head b -> escape_piece (x ++ b) b0 r = escape_piece x b0 r.
Proof.
  intros Hx Hb. unfold escape_piece.
  rewrite (has_prefix_app_ascii utf8_rune_error x b); [reflexivity| |assumption|assumption].
  unfold utf8_rune_error. repeat constructor; lia.
Qed.

Lemma decode_width_app_ascii x b : x <> [] -> ascii_head b ->
  (snd (decode_rune (x ++ b)) <= length x)%nat.
Proof. intros Hx Hb. rewrite decode_rune_app_ascii by assumption. apply decode_rune_width_le. Qed.

Lemma escape_from_app_ascii a b k : ascii_head b -> (k <= length a)%nat ->
  escape_from (a ++ b) k = escape_from a k ++ escape_from b 0.
Proof.
  intro Hb. revert k. induction a as [|a0 a IH]; intros k Hk.
  - destruct k; [reflexivity|simpl in Hk; lia].
  - cbn [app escape_from]. destruct k as [|k]; [|apply IH; simpl in Hk; lia].
    change (a0 :: a ++ b) with ((a0 :: a) ++ b).
    rewrite (decode_rune_app_ascii (a0 :: a) b ltac:(discriminate) Hb).
    pose proof (decode_rune_width_le (a0 :: a)) as Hw.
    destruct (decode_rune (a0 :: a)) as [r w]. cbn [snd length] in Hw.
    rewrite (escape_piece_app_ascii (a0 :: a) b a0 r ltac:(discriminate) Hb).
    rewrite IH by lia. rewrite app_assoc. reflexivity.
Qed.

Theorem escape_app_ascii a b : ascii_head b ->
  escape_printable (a ++ b) = escape_printable a ++ escape_printable b.
Proof. intro Hb. apply escape_from_app_ascii; [assumption|lia]. Qed.

Lemma escape_safe_prefix p r : safe p -> escape_printable (p ++ r) = p ++ escape_printable r.
Proof.
  unfold escape_printable. induction 1 as [|c p Hc Hp IH]; [reflexivity|].
  cbn [app escape_from]. rewrite (decode_rune_ascii c (p ++ r) (xprint_ascii _ Hc)).
  unfold escape_piece. replace (c <? 256) with true by (pose proof (xprint_ascii _ Hc); lia).
  rewrite Hc. cbn [andb app Nat.sub]. rewrite IH. reflexivity.
Qed.

Lemma escape_safe_id p : safe p -> escape_printable p = p.
Proof. intro H. rewrite <- (app_nil_r p) at 1. rewrite escape_safe_prefix by assumption. apply app_nil_r. Qed.

Definition ends_nl (s : str) : Prop := exists p, s = p ++ [10].

Lemma ends_nl_app a b : ends_nl b -> ends_nl (a ++ b).
Proof. intros [p ->]. exists (a ++ p). apply app_assoc. Qed.

Lemma ends_nl_nl : ends_nl [10].
Proof. exists []. reflexivity. Qed.

Lemma ends_nl_cons c s : ends_nl s -> ends_nl (c :: s).
Proof. apply (ends_nl_app [c]). Qed.

Lemma escape_ends_nl s : ends_nl s -> ends_nl (escape_printable s).
Proof. intros [p ->]. rewrite escape_app_ascii by (cbn; lia). apply ends_nl_app, ends_nl_nl. Qed.

Create HintDb ends_nl.
#[export] Hint Resolve ends_nl_nl ends_nl_cons ends_nl_app escape_ends_nl : ends_nl.
