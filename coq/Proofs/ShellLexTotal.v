(* The fuel of Model.ShellLex.shell_lex always suffices: every call of Lex that
   returns a terminal consumes a token of `remaining` or the pending `ioRedirect`. *)
From Coq Require Import NArith ZArith List Bool Lia.
From PV Require Import Lib.Bytes Gen.ShellGrammar Model.ShellLex.
Import ListNotations.

(* only taking the token and the io-number arm change it *)
Definition queue (lx : lexer) : list tok * str := (remaining lx, ioRedirect lx).

Definition redirect_op (io : str) : Prop := existsb (str_eqb io) redirect_ops = true.

Definition io_ok (lx : lexer) : Prop := ioRedirect lx = [] \/ redirect_op (ioRedirect lx).

Definition measure (lx : lexer) : nat :=
  2 * length (remaining lx) + match ioRedirect lx with [] => 0 | _ => 1 end.

Definition classify (token : str) (kind : wkind) (aa : bool) (lx : lexer) : lex_result :=
  match lookup operator_table token with
  | Some (t, eff) => LexTok t (eff lx)
  | None =>
    match match_io_number token with
    | Some (_, op) => LexTok tkIO_NUMBER (set_io op lx)
    | None =>
      let lx := if atCommandStart lx then set_for (-1) (set_case (-1) lx) else lx in
      match (if atCommandStart lx && negb (inCasePattern lx) && negb aa
             then lookup keyword_table token else None) with
      | Some (t, eff) => LexTok t (eff lx)
      | None => lex_word token kind aa (bump lx)
      end
    end
  end.

Lemma Lex_shape lx :
  Lex lx =
  match remaining lx with
  | [] => LexEOF lx
  | first :: rest =>
    match ioRedirect lx with
    | [] => classify (t_text first) (t_kind first) (afterAssign lx)
              (set_aa false (set_remaining rest (set_io [] lx)))
    | io => classify io WkPlain (afterAssign lx) (set_aa false (set_io [] lx))
    end
  end.
Proof. unfold Lex. destruct (remaining lx); [| destruct (ioRedirect lx)]; reflexivity. Qed.

Lemma effects_keep tbl s t eff :
  tbl = operator_table \/ tbl = keyword_table ->
  lookup tbl s = Some (t, eff) -> forall lx, queue (eff lx) = queue lx.
Proof.
  intros [-> | ->]; cbn [lookup operator_table keyword_table];
    repeat (destruct (str_eqb s _); [intros [= <- <-] lx; reflexivity |]); discriminate.
Qed.

Lemma bump_keeps lx : queue (bump lx) = queue lx.
Proof.
  unfold bump. destruct (0 <=? sinceFor lx)%Z; cbn [sinceCase set_for];
    destruct (0 <=? sinceCase lx)%Z; reflexivity.
Qed.

Lemma lex_word_result token kind aa lx :
  match lex_word token kind aa lx with
  | LexTok _ lx' => queue lx' = queue lx
  | LexEOF _ => True
  | LexPanic => kind = WkNil
  end.
Proof.
  unfold lex_word.
  repeat match goal with |- context [if ?b then _ else _] => destruct b end;
    try destruct kind; reflexivity || exact I.
Qed.

Lemma match_io_number_op token ds op : match_io_number token = Some (ds, op) -> redirect_op op.
Proof.
  unfold match_io_number, redirect_op. destruct (span is_digit token) as [d r]. destruct d; [discriminate |].
  destruct (existsb (str_eqb r) redirect_ops) eqn:E; [| discriminate].
  intros [= _ <-]. exact E.
Qed.

Lemma classify_result token kind aa lx :
  match classify token kind aa lx with
  | LexTok _ lx' =>
      queue lx' = queue lx \/
      lookup operator_table token = None /\ remaining lx' = remaining lx /\ redirect_op (ioRedirect lx')
  | LexEOF _ => True
  | LexPanic => kind = WkNil
  end.
Proof.
  unfold classify. cbv zeta.
  destruct (lookup operator_table token) as [[t eff] |] eqn:Eop.
  { left. exact (effects_keep _ _ _ _ (or_introl eq_refl) Eop lx). }
  destruct (match_io_number token) as [[ds op] |] eqn:Eio.
  { right. repeat split. exact (match_io_number_op _ _ _ Eio). }
  set (lx1 := if atCommandStart lx then _ else lx).
  assert (H1 : queue lx1 = queue lx) by (unfold lx1; destruct (atCommandStart lx); reflexivity).
  destruct (if _ : bool then lookup keyword_table token else None) as [[t eff] |] eqn:Ekw.
  - left. rewrite <- H1. destruct (_ && _ && _)%bool in Ekw; [| discriminate].
    exact (effects_keep _ _ _ _ (or_intror eq_refl) Ekw lx1).
  - pose proof (lex_word_result token kind aa (bump lx1)) as R.
    destruct (lex_word _ _ _ _); [left; rewrite R, bump_keeps; exact H1 | exact I | exact R].
Qed.

Lemma redirect_op_is_operator io : redirect_op io -> lookup operator_table io <> None.
Proof.
  intro H. apply existsb_exists in H. destruct H as (k & Hin & Heq).
  apply str_eqb_spec in Heq. subst k. unfold redirect_ops in Hin. simpl in Hin.
  repeat (destruct Hin as [<- | Hin]; [discriminate |]). destruct Hin.
Qed.

Lemma Lex_result lx :
  match Lex lx with
  | LexTok _ lx' =>
      match ioRedirect lx with
      | [] => (exists first, remaining lx = first :: remaining lx') /\ io_ok lx'
      | io => remaining lx' = remaining lx /\ (redirect_op io -> ioRedirect lx' = [])
      end
  | LexEOF _ => True
  | LexPanic => exists first rest, remaining lx = first :: rest /\ t_kind first = WkNil
  end.
Proof.
  rewrite Lex_shape. destruct (remaining lx) as [| first rest] eqn:Erem; [exact I |].
  destruct (ioRedirect lx) as [| b bs];
    match goal with |- context [classify ?s ?k ?aa ?l] =>
      pose proof (classify_result s k aa l) as R; destruct (classify s k aa l) as [t lx' | |] end;
    try exact I.
  - unfold io_ok. destruct R as [[= -> ->] | (_ & -> & R)]; eauto.
  - eauto.
  - destruct R as [[= -> ->] | (Hop & -> & _)]; (split; [exact Erem |]); [reflexivity |].
    intro H. destruct (redirect_op_is_operator _ H Hop).
  - discriminate.
Qed.

Lemma Lex_panic lx : Lex lx = LexPanic ->
  exists first rest, remaining lx = first :: rest /\ t_kind first = WkNil.
Proof. intro H. pose proof (Lex_result lx) as R. rewrite H in R. exact R. Qed.

Lemma Lex_remaining lx t lx' : Lex lx = LexTok t lx' ->
  remaining lx' = remaining lx \/ exists first, remaining lx = first :: remaining lx'.
Proof.
  intro H. pose proof (Lex_result lx) as R. rewrite H in R.
  destruct (ioRedirect lx); [right | left]; apply R.
Qed.

Lemma Lex_progress lx t lx' :
  io_ok lx -> Lex lx = LexTok t lx' -> io_ok lx' /\ (measure lx' < measure lx)%nat.
Proof.
  intros Hio H. pose proof (Lex_result lx) as R. rewrite H in R.
  unfold measure. destruct Hio as [Hio | Hio].
  - rewrite Hio in *. destruct R as [(first & ->) Hio']. split; [exact Hio' |].
    cbn [length]. destruct (ioRedirect lx'); lia.
  - destruct (ioRedirect lx) as [| b bs]; [discriminate Hio |].
    destruct R as [-> R]. split; [left |]; rewrite (R Hio); [reflexivity | lia].
Qed.

Lemma lex_stream_result fuel : forall lx,
  match lex_stream fuel lx with
  | Lexed _ => True
  | LexedPanic => exists t, In t (remaining lx) /\ t_kind t = WkNil
  | LexedOutOfFuel => ~ (io_ok lx /\ (measure lx < fuel)%nat)
  end.
Proof.
  induction fuel as [| fuel IH]; intro lx; cbn [lex_stream]; [lia |].
  destruct (Lex lx) as [t lx' | lx' |] eqn:E; [| exact I |].
  - specialize (IH lx'). destruct (lex_stream fuel lx'); [exact I | |].
    + destruct IH as (t0 & Hin & Hk). exists t0. split; [| exact Hk].
      destruct (Lex_remaining _ _ _ E) as [<- | (first & ->)]; [exact Hin | right; exact Hin].
    + intros [Hio Hm]. destruct (Lex_progress lx t lx' Hio E) as [Hio' Hm']. apply IH. split; [exact Hio' | lia].
  - destruct (Lex_panic lx E) as (first & rest & -> & Hk). exists first. split; [left; reflexivity | exact Hk].
Qed.

Theorem shell_lex_total : forall tokens, shell_lex tokens <> LexedOutOfFuel.
Proof.
  intros tokens E. pose proof (lex_stream_result (2 * length tokens + 1) (new_lexer tokens)) as R.
  unfold shell_lex in E. rewrite E in R. apply R. split; [left; reflexivity |].
  unfold measure. cbn [new_lexer remaining ioRedirect]. lia.
Qed.

Theorem shell_lex_defined : forall tokens,
  (forall t, In t tokens -> t_kind t <> WkNil) -> exists ts, shell_lex tokens = Lexed ts.
Proof.
  intros tokens Hk. destruct (shell_lex tokens) as [ts | |] eqn:E; [eauto | | destruct (shell_lex_total _ E)].
  pose proof (lex_stream_result (2 * length tokens + 1) (new_lexer tokens)) as R.
  unfold shell_lex in E. rewrite E in R. destruct R as (t & Hin & Hn). destruct (Hk t Hin Hn).
Qed.
