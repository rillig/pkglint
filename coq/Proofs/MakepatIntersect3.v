(* Intersect, the result: the product accepts a word iff both factors do. *)
From PV Require Import Lib.Bytes Model.Makepat
  Proofs.MakepatBasics Proofs.MakepatNFA Proofs.MakepatReach Proofs.MakepatIntersect2.
From Coq Require Import ZifyBool ZifyN ZifyNat.
Open Scope N_scope.

Lemma fires_edge c u1 u2 to : fires c (edge_of u1 u2 to) = fires c u1 && fires c u2.
Proof. unfold fires, edge_of. cbn [tmin tmax]. rewrite bmax_max, bmin_min. lia. Qed.

Lemma fires_overlap c u1 u2 : fires c u1 = true -> fires c u2 = true -> overlap u1 u2.
Proof. unfold fires, overlap. rewrite bmax_max, bmin_min. lia. Qed.

Section Sim.
Variables a b : pattern.
Variable st : istate.
Hypothesis Hj : J a b st.
Hypothesis Hall : forall x, In x (work a b) -> has_edge st x.

Lemma sim s : forall s1 s2 id, tab st s1 s2 id ->
  accepts (ires st) id s = accepts a s1 s && accepts b s2 s.
Proof.
  induction s as [|c s IH]; intros s1 s2 id I;
    destruct (j_fin _ _ _ Hj _ _ _ I) as (x & x1 & x2 & Nx & N1 & N2 & F).
  - rewrite !accepts_nil, Nx, N1, N2. exact F.
  - rewrite !accepts_cons, Nx, N1, N2.
    apply eq_true_iff_eq. rewrite andb_true_iff, !existsb_exists. split.
    + intros (t & It & H). apply andb_true_iff in H as [Hf Ha].
      destruct (j_sound _ _ _ Hj _ _ _ Nx It)
        as (k1 & k2 & y1 & y2 & u1 & u2 & I' & Ny1 & Ny2 & I1 & I2 & _ & I3 & E).
      destruct (j_inj _ _ _ Hj _ _ _ _ _ I' I) as [-> ->].
      replace y1 with x1 in I1 by congruence. replace y2 with x2 in I2 by congruence.
      rewrite E, fires_edge in Hf. apply andb_true_iff in Hf as [F1 F2].
      rewrite (IH _ _ _ I3) in Ha. apply andb_true_iff in Ha as [A1 A2].
      split; [exists u1; rewrite F1, A1|exists u2; rewrite F2, A2]; auto.
    + intros [(u1 & I1 & H1) (u2 & I2 & H2)].
      apply andb_true_iff in H1 as [F1 A1]. apply andb_true_iff in H2 as [F2 A2].
      destruct (Hall (s1, s2, u1, u2)) as (id1 & id' & y & J1 & J2 & Ny & Ie);
        [apply work_In; exists x1, x2; auto|exact (fires_overlap c u1 u2 F1 F2)|].
      replace id1 with id in Ny by (unfold tab in *; congruence). replace y with x in Ie by congruence.
      exists (edge_of u1 u2 id'). split; [exact Ie|].
      rewrite fires_edge, F1, F2. cbn [andb edge_of tto]. rewrite (IH _ _ _ J2), A1, A2. reflexivity.
Qed.

Lemma product_wf s1 s2 id : tab st s1 s2 id -> wf (ires st).
Proof.
  intro T. apply (J_lt a b) in T; [|exact Hj]. split; [intro E; rewrite E in T; cbn in T; lia|].
  intros x Ix t It. destruct (In_nth_n _ _ Ix) as [id' Nx].
  destruct (j_sound _ _ _ Hj _ _ _ Nx It) as (k1 & k2 & y1 & y2 & u1 & u2 & _ & _ & _ & _ & _ & _ & I3 & _).
  exact (J_lt a b st _ _ _ Hj I3).
Qed.

Lemma product_ranges : ranges_ok a \/ ranges_ok b -> ranges_ok (ires st).
Proof.
  intros Hr x Ix t It. destruct (In_nth_n _ _ Ix) as [id Nx].
  destruct (j_sound _ _ _ Hj _ _ _ Nx It) as (k1 & k2 & y1 & y2 & u1 & u2 & _ & Ny1 & Ny2 & I1 & I2 & O & _ & E).
  rewrite E. unfold edge_of. cbn [tmin tmax]. split; [exact O|].
  assert (B : tmax u1 < 256 \/ tmax u2 < 256).
  { destruct Hr as [Hr|Hr]; [left; apply (Hr y1 (nth_n_In _ _ _ Ny1) u1 I1)|right; apply (Hr y2 (nth_n_In _ _ _ Ny2) u2 I2)]. }
  rewrite bmin_min. lia.
Qed.

End Sim.

Theorem intersect_exact a b : wf a -> wf b ->
  exists i, intersect a b = Ok i /\ wf i /\ (ranges_ok a \/ ranges_ok b -> ranges_ok i)
            /\ forall s, matchp i s = Ok (accepts a 0 s && accepts b 0 s).
Proof.
  intros Hwa Hwb.
  assert (J0 : J a b (mkI [] [])) by (constructor; unfold tab; cbn; easy).
  destruct (state_for_spec a b (mkI [] []) 0 0 J0 (wf_pos a Hwa) (wf_pos b Hwb))
    as (st0 & id0 & E0 & Hj0 & _ & I0 & L0).
  cbn in L0. replace id0 with 0 in * by lia.
  unfold intersect. rewrite E0, isect_flat.
  destruct (ofold_spec a b Hwa Hwb (work a b) st0 Hj0 (fun x H => H)) as (st & E & Hj & [X _] & Hall).
  rewrite E. exists (ires st). apply X in I0.
  pose proof (product_wf a b st Hj _ _ _ I0) as Hwi.
  split; [reflexivity|]. split; [exact Hwi|]. split; [exact (product_ranges a b st Hj)|].
  intro s. rewrite matchp_accepts by exact Hwi. f_equal. exact (sim a b st Hj Hall s 0 0 0 I0).
Qed.

(* the form stated in Props/C13.v *)
Theorem intersect_exact_match a b : wf a -> wf b ->
  exists i, intersect a b = Ok i /\ wf i /\ (ranges_ok a \/ ranges_ok b -> ranges_ok i) /\
    forall s, exists x y, matchp a s = Ok x /\ matchp b s = Ok y /\ matchp i s = Ok (x && y).
Proof.
  intros Hwa Hwb. destruct (intersect_exact a b Hwa Hwb) as (i & E & W & R & H).
  exists i. split; [exact E|]. split; [exact W|]. split; [exact R|].
  intro s. exists (accepts a 0 s), (accepts b 0 s).
  split; [apply matchp_accepts; exact Hwa|]. split; [apply matchp_accepts; exact Hwb|apply H].
Qed.

Corollary intersect_match a b : wf a -> wf b ->
  exists i, intersect a b = Ok i /\
    forall s, exists x y, matchp a s = Ok x /\ matchp b s = Ok y /\ matchp i s = Ok (x && y).
Proof.
  intros Hwa Hwb. destruct (intersect_exact_match a b Hwa Hwb) as (i & E & _ & _ & H). eauto.
Qed.
