(* The regenerated list of environment reads (Gen/EnvReadAudit.v, written by gen/c07env.go from
   /repo/v23 and audit/envreads.json) is fully classified: every use has a known class (no 0 =
   new / changed / unclassified / unjustified item), the list has the announced length, NO use is
   a `finding` (class 6: reaches stdout/stderr/exit/files and is neither tree nor arguments), and
   the scanner really visited the source files (floor below the 73 non-test files of today).
   The statement is split so that a recorded finding fails in env_audit_no_finding, with the
   number of findings in the error message, and a stale audit fails in env_audit_complete. *)
From PV Require Import Lib.Bytes Gen.EnvReadAudit.
Import ListNotations.
Open Scope N_scope.

Definition env_class_known (c : N) : bool := (1 <=? c) && (c <=? 6).
Definition env_count_class (c : N) (l : list N) : N := N.of_nat (length (filter (N.eqb c) l)).

Lemma env_audit_complete :
  forallb env_class_known envread_classes = true
  /\ N.of_nat (length envread_classes) = envread_count
  /\ (60 <=? envread_files_scanned) = true.
Proof. vm_compute. repeat split. Qed.

Definition env_audit_full : Prop :=
  forallb env_class_known envread_classes = true
  /\ N.of_nat (length envread_classes) = envread_count
  /\ env_count_class 6 envread_classes = 0
  /\ (60 <=? envread_files_scanned) = true.

(* holds today: the one finding there was (os.Getwd in NewPkglint returned the spelling from $PWD)
   was repaired by /repo 873c354 and is recorded as `fixed` in known-findings.json *)
Lemma env_audit_no_finding : env_count_class 6 envread_classes = 0.
Proof. vm_compute. reflexivity. Qed.

Lemma env_audit_classified : env_audit_full.
Proof.
  destruct env_audit_complete as (Hknown & Hcount & Hfiles).
  exact (conj Hknown (conj Hcount (conj env_audit_no_finding Hfiles))).
Qed.
