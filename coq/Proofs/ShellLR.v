(* Facts about the regenerated goyacc tables, and soundness of the trace checker. *)
From Coq Require Import ZArith List Bool.
From PV Require Import Gen.ShellGrammar Gen.ShellTables Model.ShellLR Spec.Derivation
  Proofs.ShellGrammar.
Import ListNotations.
Open Scope Z_scope.

(* no state has a shift on `error`: the error-recovery block of shyyParse can only
   pop the whole stack and return 1, as Model/ShellLR.v assumes *)
Lemma no_error_shift : existsb (Z.eqb shyyErrCode) shyyChk = false.
Proof. vm_compute. reflexivity. Qed.

(* the tables belong to this grammar: shyyR1 and shyyR2 are goyacc's left-hand sides and
   right-hand-side lengths, indexed from 1 *)
Lemma tables_shape :
  shyyR1 = 0 :: map (fun p => nt_number (fst p)) productions /\
  shyyR2 = 0 :: map (fun p => Z.of_nat (length (snd p))) productions.
Proof. split; vm_compute; reflexivity. Qed.

Lemma nodup_fixpoint_NoDup (l : list Z) : nodup Z.eq_dec l = l -> NoDup l.
Proof. intros <-. apply NoDup_nodup. Qed.

Lemma numbering_injective :
  NoDup (map tok_internal all_terms) /\ NoDup (map nt_number all_nonterms) /\
  map tok_code all_terms = map (fun t => shyyPrivate + tok_internal t - 2) all_terms.
Proof.
  split; [| split].
  - apply nodup_fixpoint_NoDup. reflexivity.
  - apply nodup_fixpoint_NoDup. reflexivity.
  - reflexivity.
Qed.

Lemma gderives_list_app a b w1 w2 :
  gderives_list a w1 -> gderives_list b w2 -> gderives_list (a ++ b) (w1 ++ w2).
Proof.
  intros Ha Hb. induction Ha; simpl.
  - exact Hb.
  - rewrite <- app_assoc. apply GDL_cons; assumption.
Qed.

Lemma gderives_list_app_inv a : forall b w,
  gderives_list (a ++ b) w ->
  exists w1 w2, w = w1 ++ w2 /\ gderives_list a w1 /\ gderives_list b w2.
Proof.
  induction a as [| s a IH]; intros b w H; simpl in H.
  - exists [], w. repeat split; [constructor | exact H].
  - inversion H as [| s0 ss0 w0 ws0 Hs Hrest]; subst.
    destruct (IH _ _ Hrest) as (w1 & w2 & -> & Ha & Hb).
    exists (w0 ++ w1), w2. rewrite app_assoc. repeat split; [constructor; assumption | exact Hb].
Qed.

Lemma symbol_beq_eq a b : symbol_beq a b = true -> a = b.
Proof.
  destruct a, b; simpl; intro H; try discriminate.
  - f_equal. apply internal_term_dec_bl. exact H.
  - f_equal. apply internal_nonterm_dec_bl. exact H.
Qed.

Lemma pop_rhs_spec l : forall stack stack', pop_rhs l stack = Some stack' -> stack = l ++ stack'.
Proof.
  induction l as [| s l IH]; intros stack stack' H; simpl in H.
  - injection H as ->. reflexivity.
  - destruct stack as [| x stack]; [discriminate |].
    destruct (symbol_beq s x) eqn:E; [| discriminate].
    apply symbol_beq_eq in E. subst x. simpl. f_equal. apply IH. exact H.
Qed.

Lemma production_no_in k lhs rhs : production_no k = Some (lhs, rhs) -> In (lhs, rhs) productions.
Proof.
  unfold production_no. destruct (k <=? 0); [discriminate |]. apply nth_error_In.
Qed.

Lemma check_trace_inv : forall tr input stack w,
  check_trace tr input stack = true ->
  gderives_list (rev stack) w ->
  gderives (NT start_symbol) (w ++ input).
Proof.
  induction tr as [| a tr IH]; intros input stack w H Hst; simpl in H.
  - destruct input; [| discriminate].
    destruct stack as [| [t | s] [| ? ?]]; try discriminate.
    apply internal_nonterm_dec_bl in H. subst s.
    simpl in Hst. inversion Hst as [| s0 ss0 w0 ws0 Hs Hnil]; subst.
    inversion Hnil; subst. rewrite !app_nil_r. exact Hs.
  - destruct a as [k | k].
    + destruct input as [| t input']; [discriminate |].
      apply andb_true_iff in H. destruct H as [_ H].
      replace (w ++ t :: input') with ((w ++ [t]) ++ input') by (rewrite <- app_assoc; reflexivity).
      apply (IH _ _ _ H). simpl. apply gderives_list_app; [exact Hst |].
      apply GDL_last. apply GD_term.
    + destruct (production_no k) as [[lhs rhs] |] eqn:Ep; [| discriminate].
      destruct (pop_rhs (rev rhs) stack) as [stack' |] eqn:Es; [| discriminate].
      apply pop_rhs_spec in Es. subst stack.
      rewrite rev_app_distr, rev_involutive in Hst.
      apply gderives_list_app_inv in Hst. destruct Hst as (w1 & w2 & -> & H1 & H2).
      apply (IH _ _ _ H). simpl. apply gderives_list_app; [exact H1 |].
      apply GDL_last. apply GD_prod with (rhs := rhs); [exact (production_no_in _ _ _ Ep) | exact H2].
Qed.

Theorem check_trace_sound : forall tr ts,
  check_trace tr ts [] = true -> derives start_symbol ts.
Proof.
  intros tr ts H. apply gderives_derives.
  apply (check_trace_inv tr ts [] [] H). constructor.
Qed.

Theorem lr_accepts_certified_sound : forall ts,
  lr_accepts_certified ts = true -> derives start_symbol ts.
Proof.
  intros ts H. unfold lr_accepts_certified in H.
  destruct (lr_parse_terms ts); try discriminate.
  exact (check_trace_sound _ _ H).
Qed.
