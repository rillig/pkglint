(* The invariant of the whole run: the cache is well formed, views own disjoint
   blocks of Line objects, every cache entry holds the Line objects of exactly one
   view (its first view), and an entry is either clean (its lines are what
   convert gives for the file as it is on disk) or one of its lines carries a
   modified fix and that view is pending. *)
From PV Require Import Lib.Bytes Model.FileCache Proofs.FileCacheLists Proofs.FileCacheWf.
From Coq Require Import Arith.
Open Scope N_scope.
Arguments map_set : simpl never.

Definition val_of (l : line) : lval := (ln_lineno l, ln_text l, ln_raw l).

Lemma line_at_app_l (h nl : heap) a : (a < length h)%nat -> line_at (h ++ nl) a = line_at h a.
Proof. intros; apply app_nth1; auto. Qed.

Lemma line_at_app_r (h nl : heap) i : line_at (h ++ nl) (length h + i) = nth i nl dummy_line.
Proof. unfold line_at. rewrite app_nth2 by lia. f_equal; lia. Qed.

Lemma line_at_upd_same (h : heap) a l : (a < length h)%nat -> line_at (upd a l h) a = l.
Proof. apply nth_upd_same. Qed.

Lemma line_at_upd_other (h : heap) a b l : a <> b -> line_at (upd a l h) b = line_at h b.
Proof. apply nth_upd_other. Qed.

Lemma map_seq_app {B} (f : line -> B) (nl : heap) : forall h : heap,
  map (fun a => f (line_at (h ++ nl) a)) (seq (length h) (length nl)) = map f nl.
Proof.
  induction nl as [|x t IH]; intros h; simpl; auto. f_equal.
  - replace (length h) with (length h + 0)%nat at 1 by lia. rewrite line_at_app_r. auto.
  - replace (h ++ x :: t) with ((h ++ [x]) ++ t) by (rewrite <- app_assoc; auto).
    replace (S (length h)) with (length (h ++ [x])) by (rewrite app_length; simpl; lia).
    apply IH.
Qed.

Lemma in_new_block (h nl : heap) a : In a (seq (length h) (length nl)) ->
  (length h <= a < length (h ++ nl))%nat /\ In (line_at (h ++ nl) a) nl.
Proof.
  intros Ha. apply in_seq in Ha. rewrite app_length. split; [lia|].
  replace a with (length h + (a - length h))%nat by lia. rewrite line_at_app_r. apply nth_In. lia.
Qed.

Lemma apply_fixop_props md text fx op text' fx' acted :
  apply_fixop md text fx op = Ok (text', fx', acted) ->
  fx_modified fx' = fx_modified fx /\ (acted = false -> text' = text).
Proof.
  destruct op as [ri ti from to|prefix from to|t|t|]; simpl.
  - destruct (str_eqb from to); [discriminate|].
    destruct (nth_error (fx_texts fx) ri); [|discriminate].
    destruct (negb (ti <? length s)%nat); [discriminate|].
    destruct (negb (has_prefix from (skipn ti s))); [discriminate|].
    intros H; inversion H; subst; simpl. split; auto. discriminate.
  - destruct (negb _).
    + intros H; inversion H; subst; auto.
    + destruct (replace_first _ _ _) as [[ri replaced]|].
      * destruct (is_autofix md); intros H; inversion H; subst; simpl; split; auto; discriminate.
      * intros H; inversion H; subst; auto.
  - intros H; inversion H; subst; simpl; auto.
  - intros H; inversion H; subst; simpl; auto.
  - intros H; inversion H; subst; simpl; auto.
Qed.

Lemma is_modified_autofix_of l : fx_modified (autofix_of l) = is_modified l.
Proof. unfold autofix_of, is_modified. destruct (ln_fix l); auto. Qed.

Lemma fix_line_props md l f l' acted :
  fix_line md l f = Ok (l', acted) ->
  ln_file l' = ln_file l /\ ln_lineno l' = ln_lineno l /\ ln_raw l' = ln_raw l /\
  is_modified l' = (is_modified l || acted)%bool /\ (acted = false -> ln_text l' = ln_text l).
Proof.
  unfold fix_line. destruct (ln_lineno l <? 1); [discriminate|].
  destruct (apply_fixop md (ln_text l) (autofix_of l) f) as [[[text' fx'] a]|w] eqn:E; simpl; [|discriminate].
  intros H; inversion H; subst; clear H. simpl.
  destruct (apply_fixop_props _ _ _ _ _ _ _ E) as [Hm Ht].
  rewrite Hm, is_modified_autofix_of. auto.
Qed.

Definition with_cache (s : state) (c : cache) : state :=
  mkState c (st_heap s) (st_views s) (st_disk s) (st_pending s).

Definition add_view (s : state) (c : cache) (fn : fname) (nl : heap) : state :=
  mkState c (st_heap s ++ nl) (st_views s ++ [(fn, seq (length (st_heap s)) (length nl))])
          (st_disk s) (st_pending s).

Lemma view_lines_new s c fn nl : view_lines (add_view s c fn nl) (length (st_views s)) = Some (fn, nl).
Proof.
  unfold view_lines; simpl. rewrite nth_error_app2, Nat.sub_diag by auto. simpl.
  f_equal. f_equal. etransitivity; [|apply map_id]. apply (map_seq_app (fun l : line => l)).
Qed.

Lemma val_of_new_line fn v : val_of (new_line fn v) = v.
Proof. destruct v as [[no text] raw]. reflexivity. Qed.

Lemma in_new_lines fn vals l : In l (map (new_line fn) vals) -> ln_file l = fn /\ ln_fix l = None.
Proof. intros H. apply in_map_iff in H. destruct H as ([[no text] raw] & <- & _). auto. Qed.

Lemma in_fresh_copies fn h addrs l : In l (map (fresh_copy fn h) addrs) -> ln_file l = fn /\ ln_fix l = None.
Proof. intros H. apply in_map_iff in H. destruct H as (a & <- & _). auto. Qed.

Section Invariant.
Variable convert : str -> N -> list lval.
Variable is_mk : N -> bool.

Definition entry_clean (s : state) (e : entry) : Prop :=
  exists raw, map_get (e_key e) (st_disk s) = Some raw /\
    (is_empty raw && has_opt (e_opts e) NotEmpty)%bool = false /\
    map (fun a => val_of (line_at (st_heap s) a)) (e_lines e) = convert raw (e_opts e).

Record Inv (s : state) : Prop := {
  inv_wf : wf_cache (st_cache s);
  inv_cap : (1 <= c_cap (st_cache s))%nat;
  inv_views : forall v fn addrs a, nth_error (st_views s) v = Some (fn, addrs) -> In a addrs ->
    (a < length (st_heap s))%nat /\ ln_file (line_at (st_heap s) a) = fn;
  inv_disj : forall v w fv av fw aw a,
    nth_error (st_views s) v = Some (fv, av) -> nth_error (st_views s) w = Some (fw, aw) ->
    In a av -> In a aw -> v = w;
  inv_first : forall eid, In eid (c_table (st_cache s)) ->
    exists v fn, nth_error (st_views s) v = Some (fn, e_lines (entry_at (c_store (st_cache s)) eid)) /\
                 key fn = e_key (entry_at (c_store (st_cache s)) eid);
  inv_pending : forall eid a, In eid (c_table (st_cache s)) ->
    In a (e_lines (entry_at (c_store (st_cache s)) eid)) ->
    is_modified (line_at (st_heap s) a) = true ->
    exists v fn addrs, nth_error (st_views s) v = Some (fn, addrs) /\ In a addrs /\ In v (st_pending s);
  inv_clean : forall eid, In eid (c_table (st_cache s)) ->
    (forall a, In a (e_lines (entry_at (c_store (st_cache s)) eid)) -> is_modified (line_at (st_heap s) a) = false) ->
    entry_clean s (entry_at (c_store (st_cache s)) eid)
}.

Lemma Inv_init cap disk : (1 <= cap)%nat -> Inv (init_state cap disk).
Proof.
  intros H. constructor; simpl; try tauto; auto.
  - apply wf_new.
  - intros v fn addrs a Hn. destruct v; discriminate.
  - intros v w fv av fw aw a Hn. destruct v; discriminate.
Qed.

Definition fresh_lines (disk : list (N * str)) (fn : fname) (o : N) : option (list line) :=
  match map_get (key fn) disk with
  | None => None
  | Some raw => if (is_empty raw && has_opt o NotEmpty)%bool then None
                else Some (map (new_line fn) (convert raw o))
  end.

Lemma fresh_lines_some disk fn o nl : fresh_lines disk fn o = Some nl ->
  (forall l, In l nl -> ln_file l = fn /\ ln_fix l = None) /\
  exists raw, map_get (key fn) disk = Some raw /\ (is_empty raw && has_opt o NotEmpty)%bool = false /\
    map val_of nl = convert raw o.
Proof.
  unfold fresh_lines. destruct (map_get (key fn) disk) as [raw|]; [|discriminate].
  destruct (is_empty raw && has_opt o NotEmpty)%bool eqn:E; [discriminate|].
  intros [= <-]. split; [apply in_new_lines|]. exists raw. split; auto. split; auto.
  rewrite map_map, (map_ext _ _ (val_of_new_line fn)). apply map_id.
Qed.

(* Every operation keeps the invariant and the capacity.  Two lemmas cover all
   changes of the cache: it loses entries while heap and views stay (Inv_shrink),
   or a view of new Line objects is added and the cache may get one entry for
   exactly this view, which was read from the disk (Inv_extend). *)
Lemma Inv_shrink s c' disk' pend' :
  Inv s -> wf_cache c' -> kept (st_cache s) c' ->
  (forall eid, In eid (c_table c') ->
     map_get (e_key (entry_at (c_store c') eid)) disk' = map_get (e_key (entry_at (c_store c') eid)) (st_disk s)) ->
  (forall eid a v fn addrs, In eid (c_table c') -> In a (e_lines (entry_at (c_store c') eid)) ->
     is_modified (line_at (st_heap s) a) = true ->
     nth_error (st_views s) v = Some (fn, addrs) -> In a addrs -> In v (st_pending s) -> In v pend') ->
  Inv (mkState c' (st_heap s) (st_views s) disk' pend') /\ c_cap c' = c_cap (st_cache s).
Proof.
  intros [IW ICap IV ID IF IP IC] W [HC HT] HD HP. split; [|exact HC].
  assert (HK : forall eid, In eid (c_table c') -> In eid (c_table (st_cache s)) /\
           e_key (entry_at (c_store c') eid) = e_key (entry_at (c_store (st_cache s)) eid) /\
           e_opts (entry_at (c_store c') eid) = e_opts (entry_at (c_store (st_cache s)) eid) /\
           e_lines (entry_at (c_store c') eid) = e_lines (entry_at (c_store (st_cache s)) eid)).
  { intros eid H. destruct (HT _ H). auto using shape_eq. }
  constructor; simpl; auto.
  - lia.
  - intros eid H. destruct (HK _ H) as (Hin & K1 & _ & K3). rewrite K1, K3. auto.
  - intros eid a H Ha Hm. destruct (HK _ H) as (Hin & _ & _ & K3).
    destruct (IP eid a Hin) as (v & fn & addrs & Hv & Hia & Hp); [rewrite <- K3; auto|auto|].
    exists v, fn, addrs. eauto 6.
  - intros eid H Hcl. destruct (HK _ H) as (Hin & K1 & K2 & K3).
    rewrite K3 in Hcl. destruct (IC _ Hin Hcl) as (raw & R1 & R2 & R3).
    exists raw. unfold entry_clean; simpl. rewrite HD by auto. rewrite K1, K2, K3. auto.
Qed.

Lemma Inv_extend s c' fn (nl : heap) :
  Inv s -> wf_cache c' -> c_cap c' = c_cap (st_cache s) ->
  (forall l, In l nl -> ln_file l = fn /\ ln_fix l = None) ->
  (forall eid, In eid (c_table c') ->
     (In eid (c_table (st_cache s)) /\
      shape (entry_at (c_store c') eid) = shape (entry_at (c_store (st_cache s)) eid)) \/
     (exists o, entry_at (c_store c') eid = mkEntry 1 (key fn) o (seq (length (st_heap s)) (length nl)) /\
                fresh_lines (st_disk s) fn o = Some nl)) ->
  Inv (add_view s c' fn nl) /\ c_cap c' = c_cap (st_cache s).
Proof.
  intros [IW ICap IV ID IF IP IC] W HC HN HT. split; [|exact HC].
  assert (Hold : forall eid, In eid (c_table (st_cache s)) -> forall a,
            In a (e_lines (entry_at (c_store (st_cache s)) eid)) -> (a < length (st_heap s))%nat).
  { intros eid H a Ha. destruct (IF _ H) as (v & f & Hv & _). destruct (IV _ _ _ _ Hv Ha); auto. }
  constructor; simpl; auto.
  - lia.
  - intros v f addrs a Hv Ha.
    destruct (nth_error_snoc _ _ _ _ Hv) as [[_ Hv']|[_ Heq]].
    + destruct (IV _ _ _ _ Hv' Ha) as [HL HF]. rewrite app_length. split; [lia|]. rewrite line_at_app_l; auto.
    + inversion Heq; subst. destruct (in_new_block _ _ _ Ha) as [HL Hl]. split; [lia|]. apply HN; auto.
  - intros v w fv av fw aw a Hv Hw Ha Ha'.
    destruct (nth_error_snoc _ _ _ _ Hv) as [[Lv Hv']|[Ev Heqv]];
      destruct (nth_error_snoc _ _ _ _ Hw) as [[Lw Hw']|[Ew Heqw]].
    + eapply ID; eauto.
    + inversion Heqw; subst. apply in_seq in Ha'. destruct (IV _ _ _ _ Hv' Ha). lia.
    + inversion Heqv; subst. apply in_seq in Ha. destruct (IV _ _ _ _ Hw' Ha'). lia.
    + congruence.
  - intros eid H. destruct (HT _ H) as [[Hin HS]|(o & -> & _)].
    + apply shape_eq in HS. destruct HS as (K1 & _ & K3). rewrite K1, K3.
      destruct (IF _ Hin) as (v & f & Hv & Hk). exists v, f. split; auto. apply nth_error_snoc_old; auto.
    + exists (length (st_views s)), fn. split; auto.
      rewrite nth_error_app2, Nat.sub_diag; auto.
  - intros eid a H Ha Hm. destruct (HT _ H) as [[Hin HS]|(o & HE & _)].
    + apply shape_eq in HS. destruct HS as (_ & _ & K3). rewrite K3 in Ha.
      rewrite line_at_app_l in Hm by (eapply Hold; eauto).
      destruct (IP _ _ Hin Ha Hm) as (v & f & addrs & Hv & Hia & Hp).
      exists v, f, addrs. split; auto. apply nth_error_snoc_old; auto.
    + rewrite HE in Ha. destruct (in_new_block _ _ _ Ha) as [_ Hl].
      unfold is_modified in Hm. destruct (HN _ Hl) as [_ Hf]. rewrite Hf in Hm. discriminate.
  - intros eid H Hcl. destruct (HT _ H) as [[Hin HS]|(o & HE & F)].
    + apply shape_eq in HS. destruct HS as (K1 & K2 & K3). rewrite K3 in Hcl.
      assert (Heq : forall a, In a (e_lines (entry_at (c_store (st_cache s)) eid)) ->
                line_at (st_heap s ++ nl) a = line_at (st_heap s) a).
      { intros a Ha. apply line_at_app_l. eapply Hold; eauto. }
      destruct (IC _ Hin) as (raw & R1 & R2 & R3); [intros a Ha; rewrite <- Heq; auto|].
      exists raw. simpl. rewrite K1, K2, K3. split; auto. split; auto.
      rewrite <- R3. apply map_ext_in. intros a Ha. rewrite Heq; auto.
    + destruct (fresh_lines_some _ _ _ _ F) as (_ & raw & R1 & R2 & R3).
      exists raw. rewrite HE. simpl. split; auto. split; auto.
      rewrite <- R3. apply map_seq_app.
Qed.

(* Load as an equation, by what Get finds; c1 is the cache after Get *)
Lemma load_cases s fn o : exists c1, touched (st_cache s) c1 /\
  ((exists eid, map_get (key fn) (c_map (st_cache s)) = Some eid /\
      e_opts (entry_at (c_store (st_cache s)) eid) = o /\ c_hits c1 = c_hits (st_cache s) + 1 /\
      load convert is_mk s fn o =
      Ok (add_view s c1 fn (map (fresh_copy fn (st_heap s)) (e_lines (entry_at (c_store (st_cache s)) eid))),
          Some (length (st_views s)))) \/
   ((forall eid, map_get (key fn) (c_map (st_cache s)) = Some eid ->
                 e_opts (entry_at (c_store (st_cache s)) eid) <> o) /\
    c_hits c1 = c_hits (st_cache s) /\
    load convert is_mk s fn o =
    match fresh_lines (st_disk s) fn o with
    | None => if has_opt o MustSucceed then Stop Fatal else Ok (with_cache s c1, None)
    | Some nl =>
      bind (if is_mk (key fn) then put c1 (key fn) o (seq (length (st_heap s)) (length nl)) else Ok c1)
           (fun c2 => Ok (add_view s c2 fn nl, Some (length (st_views s))))
    end)).
Proof.
  unfold load, fresh_lines.
  destruct (get_spec (st_cache s) (st_heap s) fn o) as (c1 & T & [(eid & E & Ho & Hh & ->)|(M & Hh & ->)]);
    exists c1; (split; [exact T|]).
  - left. exists eid. unfold add_view. rewrite map_length. auto.
  - right. split; [exact M|]. split; [exact Hh|].
    destruct (map_get (key fn) (st_disk s)) as [raw|]; auto.
    destruct (is_empty raw && has_opt o NotEmpty)%bool; auto. unfold add_view. rewrite map_length. auto.
Qed.

Lemma load_shape s fn o s' r : load convert is_mk s fn o = Ok (s', r) ->
  (exists c, s' = with_cache s c /\ r = None) \/
  (exists c nl, s' = add_view s c fn nl /\ r = Some (length (st_views s)) /\
     forall l, In l nl -> ln_file l = fn /\ ln_fix l = None).
Proof.
  destruct (load_cases s fn o) as (c1 & _ & [(eid & _ & _ & _ & ->)|(_ & _ & ->)]).
  - intros H; inversion H. right. eexists; eexists. split; [reflexivity|]. split; auto. apply in_fresh_copies.
  - destruct (fresh_lines (st_disk s) fn o) as [nl|] eqn:F.
    + destruct (if is_mk (key fn) then _ else _) as [c2|w]; simpl; [|discriminate].
      intros H; inversion H. right. eexists; eexists. split; [reflexivity|]. split; auto.
      apply (fresh_lines_some _ _ _ _ F).
    + destruct (has_opt o MustSucceed); [discriminate|]. intros H; inversion H. left. eauto.
Qed.

(* In a well-formed cache Put does not panic, so that a Load is described by the
   cache c' it leaves: entries that were there, and after a miss of a *.mk file
   the entry of the new view. *)
Lemma load_spec s fn o : wf_cache (st_cache s) -> (1 <= c_cap (st_cache s))%nat ->
  exists c', wf_cache c' /\ c_cap c' = c_cap (st_cache s) /\
  ((exists eid, map_get (key fn) (c_map (st_cache s)) = Some eid /\
      e_opts (entry_at (c_store (st_cache s)) eid) = o /\ kept (st_cache s) c' /\
      load convert is_mk s fn o =
      Ok (add_view s c' fn (map (fresh_copy fn (st_heap s)) (e_lines (entry_at (c_store (st_cache s)) eid))),
          Some (length (st_views s)))) \/
   ((forall eid, map_get (key fn) (c_map (st_cache s)) = Some eid ->
                 e_opts (entry_at (c_store (st_cache s)) eid) <> o) /\
    match fresh_lines (st_disk s) fn o with
    | None => kept (st_cache s) c' /\
      load convert is_mk s fn o = if has_opt o MustSucceed then Stop Fatal else Ok (with_cache s c', None)
    | Some nl =>
      (forall eid, In eid (c_table c') ->
         (In eid (c_table (st_cache s)) /\
          shape (entry_at (c_store c') eid) = shape (entry_at (c_store (st_cache s)) eid)) \/
         entry_at (c_store c') eid = mkEntry 1 (key fn) o (seq (length (st_heap s)) (length nl))) /\
      load convert is_mk s fn o = Ok (add_view s c' fn nl, Some (length (st_views s)))
    end)).
Proof.
  intros W Hcap. destruct (load_cases s fn o) as (c1 & T & Cases).
  pose proof (wf_touched _ _ W T) as W1. pose proof (touched_kept _ _ T) as K1.
  assert (HC1 : c_cap c1 = c_cap (st_cache s)) by apply K1.
  destruct Cases as [(eid & E & Ho & _ & L)|(M & _ & L)].
  - exists c1. split; auto. split; auto. left. exists eid. auto.
  - destruct (fresh_lines (st_disk s) fn o) as [nl|]; [destruct (is_mk (key fn))|].
    + destruct (wf_put c1 (key fn) o (seq (length (st_heap s)) (length nl)) W1)
        as (c2 & eid0 & P & W2 & HC2 & _ & HE & HO); [lia|].
      rewrite P in L. exists c2. split; auto. split; [congruence|]. right. split; auto. split; auto.
      intros eid H. destruct (Nat.eq_dec eid eid0) as [->|Hne]; auto.
      left. destruct (HO _ H Hne) as [Hin HS]. destruct (proj2 K1 _ Hin). split; auto. congruence.
    + exists c1. split; auto. split; auto. right. split; auto. split; auto. intros eid H. left. apply K1, H.
    + exists c1. split; [auto|]. split; [auto|]. right. auto.
Qed.

Lemma Inv_load s fn o s' r : Inv s -> load convert is_mk s fn o = Ok (s', r) ->
  Inv s' /\ c_cap (st_cache s') = c_cap (st_cache s).
Proof.
  intros I L.
  destruct (load_spec s fn o (inv_wf _ I) (inv_cap _ I)) as (c' & W' & HC & [(eid & _ & _ & K & L')|(_ & H)]).
  - rewrite L' in L. injection L as <- <-. apply Inv_extend; auto; [apply in_fresh_copies|].
    intros e He. left. apply K, He.
  - destruct (fresh_lines (st_disk s) fn o) as [nl|] eqn:F; destruct H as [K L']; rewrite L' in L.
    + injection L as <- <-. apply Inv_extend; auto; [apply (fresh_lines_some _ _ _ _ F)|].
      intros e He. destruct (K e He); eauto.
    + destruct (has_opt o MustSucceed); [discriminate|]. injection L as <- <-. apply Inv_shrink; auto.
Qed.

Lemma remove_nat_in v w l : In w (remove_nat v l) <-> In w l /\ w <> v.
Proof.
  unfold remove_nat. rewrite filter_In. destruct (Nat.eqb_spec w v); simpl; intuition congruence.
Qed.

Lemma in_cons_remove_nat v w l : In w l -> In w (v :: remove_nat v l).
Proof. intros H. destruct (Nat.eq_dec v w); [left|right; apply remove_nat_in]; auto. Qed.

Lemma step_fix_cases md s v i f s' ob : step convert is_mk md s (OFix v i f) = Ok (s', ob) ->
  s' = s \/
  exists fn addrs a l' acted, nth_error (st_views s) v = Some (fn, addrs) /\ nth_error addrs i = Some a /\
    fix_line md (line_at (st_heap s) a) f = Ok (l', acted) /\
    s' = mkState (st_cache s) (upd a l' (st_heap s)) (st_views s) (st_disk s) (v :: remove_nat v (st_pending s)).
Proof.
  simpl. destruct (nth_error (st_views s) v) as [[fn addrs]|] eqn:V; [|intros [= <- _]; auto].
  destruct (nth_error addrs i) as [a|] eqn:A; [|intros [= <- _]; auto].
  destruct (fix_line md (line_at (st_heap s) a) f) as [[l' acted]|w] eqn:F; simpl; [|discriminate].
  intros [= <- _]. right. exists fn, addrs, a, l', acted. auto.
Qed.

Lemma Inv_fix md s v i f s' ob : Inv s -> step convert is_mk md s (OFix v i f) = Ok (s', ob) ->
  Inv s' /\ c_cap (st_cache s') = c_cap (st_cache s).
Proof.
  intros I St.
  destruct (step_fix_cases _ _ _ _ _ _ _ St) as [->|(fn & addrs & a & l' & acted & V & A & F & ->)]; [auto|].
  destruct (fix_line_props _ _ _ _ _ F) as (PF & PN & PR & PM & PT).
  assert (Ha : In a addrs) by (eapply nth_error_In; eauto).
  destruct I as [IW ICap IV ID IF IP IC].
  destruct (IV _ _ _ _ V Ha) as [HaL HaF].
  (* the one Line object that changes: same file; modified only at a; where it is
     not modified afterwards it was not before and shows the same *)
  assert (Hb : forall b, let l0 := line_at (st_heap s) b in let l1 := line_at (upd a l' (st_heap s)) b in
            ln_file l1 = ln_file l0 /\
            (is_modified l1 = true -> b = a \/ is_modified l0 = true) /\
            (is_modified l1 = false -> is_modified l0 = false /\ val_of l1 = val_of l0)).
  { intros b. simpl. destruct (Nat.eq_dec a b) as [<-|Hne].
    - rewrite line_at_upd_same, PM by auto. split; auto. split; auto.
      intros H. apply orb_false_iff in H. destruct H as [H1 H2].
      unfold val_of. rewrite PN, PR, (PT H2). auto.
    - rewrite line_at_upd_other; auto. }
  split; [|reflexivity]. constructor; simpl; auto.
  - intros v0 fn0 addrs0 a0 Hv0 Ha0. rewrite upd_length.
    destruct (IV _ _ _ _ Hv0 Ha0). split; auto. rewrite (proj1 (Hb a0)); auto.
  - intros eid a0 Hin Ha0 Hm. destruct (proj1 (proj2 (Hb a0)) Hm) as [->|Hm'].
    + exists v, fn, addrs. simpl; auto.
    + destruct (IP _ _ Hin Ha0 Hm') as (w & fw & aw & Hw & Hia & Hp).
      exists w, fw, aw. split; auto. split; auto. apply in_cons_remove_nat; auto.
  - intros eid Hin Hcl.
    destruct (IC _ Hin) as (raw & R1 & R2 & R3); [intros a0 Ha0; apply Hb, Hcl, Ha0|].
    exists raw. simpl. split; auto. split; auto.
    rewrite <- R3. apply map_ext_in. intros a0 Ha0. apply Hb, Hcl, Ha0.
Qed.

Lemma fname_eqb_eq a b : fname_eqb a b = true <-> a = b.
Proof.
  destruct a as [a1 a2], b as [b1 b2]. unfold fname_eqb; simpl.
  rewrite andb_true_iff, !N.eqb_eq. split; [intros [-> ->]; auto|intros H; inversion H; auto].
Qed.

Lemma nodup_fname_in x l : In x l -> In x (nodup_fname l).
Proof.
  induction l as [|y t IH]; simpl; auto. intros [->|H].
  - destruct (existsb (fname_eqb x) t) eqn:E; [|left; auto].
    apply existsb_exists in E. destruct E as (z & Hz & Heq). apply fname_eqb_eq in Heq. subst z. auto.
  - destruct (existsb (fname_eqb y) t); [|right]; auto.
Qed.

Lemma save_fast_lane ls : forall c,
  fold_left (fun c l => if is_modified l then evict c (key (ln_file l)) else c) ls c =
  evicts (map (fun l => key (ln_file l)) (filter is_modified ls)) c.
Proof.
  unfold evicts. induction ls as [|l t IH]; intros c; simpl; auto.
  destruct (is_modified l); simpl; auto.
Qed.

Definition save_one (content : fname -> str) (fail : list N) (d : list (N * str)) (fn : fname) :=
  if key_in (key fn) fail then d else map_set (key fn) (content fn) d.
Definition saved_of (content : fname -> str) (fail : list N) (fn : fname) : list (N * str) :=
  if key_in (key fn) fail then [] else [(key fn, content fn)].

Lemma save_autofix_fold (content : fname -> str) fail changed : forall c d w,
  fold_left (fun '(c, d, w) fn =>
               if key_in (key fn) fail then (evict c (key fn), d, w)
               else (evict c (key fn), map_set (key fn) (content fn) d, w ++ [(key fn, content fn)]))
            changed (c, d, w) =
  (evicts (map key changed) c,
   fold_left (save_one content fail) changed d,
   w ++ flat_map (saved_of content fail) changed).
Proof.
  unfold evicts. induction changed as [|fn t IH]; intros c d w; simpl.
  - rewrite app_nil_r; auto.
  - destruct (key_in (key fn) fail) eqn:E; rewrite IH; unfold save_one, saved_of; rewrite E; simpl;
      [auto|rewrite <- app_assoc; auto].
Qed.

(* a file that is not rewritten, or whose rewrite fails, keeps its content *)
Lemma fold_save_one_other (content : fname -> str) fail changed k : forall d,
  (forall fn, In fn changed -> key fn = k -> key_in k fail = true) ->
  map_get k (fold_left (save_one content fail) changed d) = map_get k d.
Proof.
  induction changed as [|fn t IH]; intros d H; simpl; auto.
  rewrite IH by (intros fn' Hfn; apply H; right; auto). unfold save_one.
  destruct (key_in (key fn) fail) eqn:E; auto.
  apply map_get_set_other. intros Heq. rewrite <- Heq, (H fn) in E; auto; [discriminate|left; auto].
Qed.

Lemma saved_of_in (content : fname -> str) fail changed k x :
  In (k, x) (flat_map (saved_of content fail) changed) ->
  In k (map key changed) /\ key_in k fail = false.
Proof.
  intros H. apply in_flat_map in H. destruct H as (fn & Hfn & Hin).
  unfold saved_of in Hin. destruct (key_in (key fn) fail) eqn:E; [destruct Hin|].
  destruct Hin as [Heq|[]]. inversion Heq; subst. split; auto. apply in_map; auto.
Qed.

Lemma save_lines_spec md fail c disk ls c' d' w : save_lines md fail c disk ls = (c', d', w) ->
  exists ks, c' = evicts ks c /\
    (forall l, In l ls -> is_modified l = true -> In (key (ln_file l)) ks) /\
    (forall k, ~ In k ks -> map_get k d' = map_get k disk) /\
    (forall k x, In (k, x) w -> In k ks).
Proof.
  unfold save_lines. destruct (negb (opt_autofix md)).
  - rewrite save_fast_lane. intros H; inversion H; subst; clear H.
    eexists; split; [reflexivity|]. split; [|split; auto].
    + intros l Hl Hm. apply in_map_iff. exists l. split; auto. apply filter_In; auto.
    + intros k x [].
  - rewrite save_autofix_fold. intros H; inversion H; subst; clear H.
    eexists; split; [reflexivity|]. split; [|split].
    + intros l Hl Hm. apply in_map. apply nodup_fname_in. apply in_map_iff. exists l. split; auto. apply filter_In; auto.
    + intros k Hk. apply fold_save_one_other. intros fn Hfn <-. exfalso. apply Hk, in_map; auto.
    + intros k x Hin. simpl in Hin. apply saved_of_in in Hin. destruct Hin; auto.
Qed.

Lemma save_lines_failed md fail c disk ls c' d' w : save_lines md fail c disk ls = (c', d', w) ->
  forall k, key_in k fail = true ->
    map_get k d' = map_get k disk /\ ~ In k (map fst w).
Proof.
  unfold save_lines. destruct (negb (opt_autofix md)).
  - intros H; inversion H; subst. intros k _. split; auto.
  - rewrite save_autofix_fold. intros H; inversion H; subst; clear H. intros k Hk. split.
    + apply fold_save_one_other; auto.
    + simpl. intros Hin. apply in_map_iff in Hin. destruct Hin as ([k' x] & Heq & Hin). simpl in Heq. subst k'.
      apply saved_of_in in Hin. destruct Hin. congruence.
Qed.

Lemma Inv_save md s v fl s' ob : Inv s -> step convert is_mk md s (OSave v fl) = Ok (s', ob) ->
  Inv s' /\ c_cap (st_cache s') = c_cap (st_cache s).
Proof.
  intros I. simpl. unfold view_lines.
  destruct (nth_error (st_views s) v) as [[fn addrs]|] eqn:V; [|intros H; inversion H; subst; auto].
  destruct (save_lines md fl (st_cache s) (st_disk s) (map (line_at (st_heap s)) addrs)) as [[c' d'] w] eqn:S.
  intros H; inversion H; subst; clear H.
  destruct (save_lines_spec _ _ _ _ _ _ _ _ S) as (ks & -> & HK & HD & _).
  destruct (evicts_spec ks _ (inv_wf _ I)) as (W' & K & HN).
  apply Inv_shrink; auto.
  { intros eid Hin. apply HD. intros Hk. exact (wf_none_no_entry _ _ _ W' (HN _ Hk) Hin eq_refl). }
  intros eid a u fu au Hin Ha Hm Hu Hau Hp. apply remove_nat_in. split; auto.
  intros ->. rewrite V in Hu. inversion Hu; subst fu au; clear Hu.
  (* the modified line belongs to the saved view: its file was evicted *)
  destruct (inv_views _ I _ _ _ _ V Hau) as [_ HF].
  assert (Hk : In (key fn) ks).
  { rewrite <- HF. apply HK; auto. apply in_map; auto. }
  destruct (proj2 K _ Hin) as [Hin0 HS]. apply shape_eq in HS. destruct HS as (K1 & _ & K3).
  destruct (inv_first _ I _ Hin0) as (u & fu & Hu & Hkey).
  assert (u = v) by (eapply (inv_disj _ I); eauto; rewrite <- K3; auto). subst u.
  rewrite V in Hu. inversion Hu; subst fu. apply (wf_none_no_entry _ (key fn) eid W' (HN _ Hk) Hin). congruence.
Qed.

Lemma Inv_modify md s k x s' ob : Inv s -> step convert is_mk md s (OModify k x) = Ok (s', ob) ->
  Inv s' /\ c_cap (st_cache s') = c_cap (st_cache s).
Proof.
  intros I. simpl. intros H; inversion H; subst; clear H.
  pose proof (inv_wf _ I) as W. destruct (evict_no_key _ k W) as [_ HNK].
  apply Inv_shrink; auto; [apply wf_evict; auto|apply kept_evict; auto|].
  intros eid Hin. specialize (HNK _ Hin).
  destruct x; [apply map_get_set_other | apply map_get_del_other]; auto.
Qed.

Lemma Inv_step md s o s' ob : Inv s -> step convert is_mk md s o = Ok (s', ob) ->
  Inv s' /\ c_cap (st_cache s') = c_cap (st_cache s).
Proof.
  intros I. destruct o as [fn opts|v i f|v fl|k x].
  - simpl. destruct (load convert is_mk s fn opts) as [[s1 r]|w] eqn:L; simpl; [|discriminate].
    intros H; inversion H; subst. eapply Inv_load; eauto.
  - apply Inv_fix; auto.
  - apply Inv_save; auto.
  - apply Inv_modify; auto.
Qed.

Lemma step_cases md s o s' ob : step convert is_mk md s o = Ok (s', ob) ->
  (exists fn opts r, o = OLoad fn opts /\ load convert is_mk s fn opts = Ok (s', r)) \/
  (st_views s' = st_views s /\ exists ks, st_cache s' = evicts ks (st_cache s)).
Proof.
  assert (Nop : forall s1 : state, st_views s1 = st_views s -> st_cache s1 = st_cache s ->
            st_views s1 = st_views s /\ exists ks, st_cache s1 = evicts ks (st_cache s))
    by (intros s1 H1 H2; split; auto; exists []; auto).
  destruct o as [fn opts|v i f|v fl|k x]; [simpl|intros St|simpl..].
  - destruct (load convert is_mk s fn opts) as [[s1 r]|w] eqn:L; simpl; [|discriminate].
    intros H; inversion H; subst. left. eauto.
  - right.
    destruct (step_fix_cases _ _ _ _ _ _ _ St) as [->|(fn & addrs & a & l' & acted & _ & _ & _ & ->)]; apply Nop; reflexivity.
  - destruct (view_lines s v) as [[fn ls]|]; [|intros H; inversion H; subst; right; apply Nop; reflexivity].
    destruct (save_lines md fl (st_cache s) (st_disk s) ls) as [[c' d'] w] eqn:S.
    intros H; inversion H; subst. right. split; auto.
    destruct (save_lines_spec _ _ _ _ _ _ _ _ S) as (ks & -> & _). exists ks. auto.
  - intros H; inversion H; subst. right. split; auto. exists [k]. auto.
Qed.

Inductive reach (md : mode) (cap : nat) (disk : list (N * str)) : state -> Prop :=
| reach_init : reach md cap disk (init_state cap disk)
| reach_step s o s' ob : reach md cap disk s -> step convert is_mk md s o = Ok (s', ob) -> reach md cap disk s'.

Lemma reach_Inv_cap md cap disk s : (1 <= cap)%nat -> reach md cap disk s ->
  Inv s /\ c_cap (st_cache s) = cap.
Proof.
  intros Hc R. induction R as [|s o s' ob R [IH1 IH2] S].
  - split; [apply Inv_init; auto|reflexivity].
  - rewrite <- IH2. eapply Inv_step; eauto.
Qed.

Lemma reach_Inv md cap disk s : (1 <= cap)%nat -> reach md cap disk s -> Inv s.
Proof. intros Hc R. apply (reach_Inv_cap md cap disk s Hc R). Qed.

End Invariant.
