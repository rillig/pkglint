(* Spec/CNumber.v: the derivative matcher recognises exactly the textbook
   language of the regular expression. *)
From PV Require Import Lib.Bytes Spec.CNumber.
From Coq Require Import ZifyBool ZifyN.
Open Scope N_scope.

Lemma lang_empty_iff s : lang Empty s <-> False.
Proof. split; [intro H; inversion H|contradiction]. Qed.

Lemma lang_eps_iff s : lang Eps s <-> s = [].
Proof. split; [intro H; inversion H; reflexivity|intros ->; constructor]. Qed.

Lemma lang_alt_iff a b s : lang (Alt a b) s <-> lang a s \/ lang b s.
Proof.
  split.
  - intro H; inversion H; subst; auto.
  - intros [H|H]; [apply LAltL|apply LAltR]; exact H.
Qed.

Lemma lang_cat_iff a b s : lang (Cat a b) s <-> exists s1 s2, s = s1 ++ s2 /\ lang a s1 /\ lang b s2.
Proof.
  split.
  - intro H; inversion H; subst. eauto.
  - intros (s1 & s2 & -> & H1 & H2). apply LCat; assumption.
Qed.

Lemma lang_cat_cons a b c s :
  lang (Cat a b) (c :: s) <->
  (exists s1 s2, s = s1 ++ s2 /\ lang a (c :: s1) /\ lang b s2) \/ (lang a [] /\ lang b (c :: s)).
Proof.
  rewrite lang_cat_iff. split.
  - intros ([|x s1] & s2 & E & H1 & H2); cbn [app] in E; [right; subst s2; auto|].
    injection E as <- ->. left. eauto.
  - intros [(s1 & s2 & -> & H1 & H2)|[H1 H2]]; [exists (c :: s1), s2|exists [], (c :: s)]; auto.
Qed.

Lemma lang_star_cons a c s :
  lang (Star a) (c :: s) <-> exists s1 s2, s = s1 ++ s2 /\ lang a (c :: s1) /\ lang (Star a) s2.
Proof.
  split.
  - intro H. remember (Star a) as r eqn:Er. remember (c :: s) as w eqn:Ew.
    revert c s Ew. induction H; try discriminate; intros c0 s0 Ew.
    inversion Er; subst a0. clear Er IHlang1.
    destruct s as [|x s1]; cbn [app] in Ew; [auto|]. injection Ew as -> <-. eauto.
  - intros (s1 & s2 & -> & H1 & H2). exact (LStarS a (c :: s1) s2 H1 H2).
Qed.

Lemma mk_alt_lang a b s : lang (mk_alt a b) s <-> lang a s \/ lang b s.
Proof. destruct a, b; cbn [mk_alt]; rewrite ?lang_alt_iff, ?lang_empty_iff; tauto. Qed.

Lemma mk_cat_lang a b s : lang (mk_cat a b) s <-> exists s1 s2, s = s1 ++ s2 /\ lang a s1 /\ lang b s2.
Proof.
  rewrite <- lang_cat_iff.
  assert (El : forall b, lang (Cat Empty b) s <-> False).
  { intro b0. rewrite lang_cat_iff. split; [intros (s1 & _ & _ & H & _); inversion H|contradiction]. }
  assert (Er : forall a, lang (Cat a Empty) s <-> False).
  { intro a0. rewrite lang_cat_iff. split; [intros (_ & s2 & _ & _ & H); inversion H|contradiction]. }
  assert (Pl : forall b, lang (Cat Eps b) s <-> lang b s).
  { intro b0. rewrite lang_cat_iff. split.
    - intros (s1 & s2 & -> & H1 & H2). apply lang_eps_iff in H1 as ->. exact H2.
    - intro H. exists [], s. repeat split; [constructor|exact H]. }
  assert (Pr : forall a, lang (Cat a Eps) s <-> lang a s).
  { intro a0. rewrite lang_cat_iff. split.
    - intros (s1 & s2 & -> & H1 & H2). apply lang_eps_iff in H2 as ->. rewrite app_nil_r. exact H1.
    - intro H. exists s, []. rewrite app_nil_r. repeat split; [exact H|constructor]. }
  destruct a, b; cbn [mk_cat]; rewrite ?El, ?Er, ?Pl, ?Pr, ?lang_empty_iff; reflexivity.
Qed.

Lemma nullable_spec r : nullable r = true <-> lang r [].
Proof.
  induction r; simpl.
  - split; [discriminate|intro H; inversion H].
  - split; [constructor|reflexivity].
  - split; [discriminate|intro H; inversion H].
  - rewrite orb_true_iff, IHr1, IHr2, lang_alt_iff. reflexivity.
  - rewrite andb_true_iff, IHr1, IHr2, lang_cat_iff. split.
    + intros [H1 H2]. exists [], []. auto.
    + intros (s1 & s2 & E & H1 & H2). symmetry in E. apply app_eq_nil in E as [-> ->]. auto.
  - split; [constructor|reflexivity].
Qed.

Lemma deriv_spec c r : forall s, lang (deriv c r) s <-> lang r (c :: s).
Proof.
  induction r; intro s; simpl.
  - split; intro H; inversion H.
  - split; intro H; inversion H.
  - destruct ((lo <=? c) && (c <=? hi)) eqn:E.
    + rewrite lang_eps_iff. split; [intros ->; constructor; lia|intro H; inversion H; reflexivity].
    + split; intro H; inversion H; subst. lia.
  - rewrite mk_alt_lang, IHr1, IHr2, lang_alt_iff. reflexivity.
  - rewrite lang_cat_cons, <- nullable_spec.
    destruct (nullable r1); rewrite ?mk_alt_lang, mk_cat_lang, ?IHr2; setoid_rewrite IHr1; intuition discriminate.
  - rewrite mk_cat_lang, lang_star_cons. setoid_rewrite IHr. reflexivity.
Qed.

Theorem re_match_spec r s : re_match r s = true <-> lang r s.
Proof.
  revert r; induction s as [|c s IH]; intro r; simpl.
  - apply nullable_spec.
  - rewrite IH. apply deriv_spec.
Qed.

Lemma re_match_empty s : re_match Empty s = false.
Proof. induction s; simpl; auto. Qed.
