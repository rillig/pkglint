(* Proofs about Model/ShTok.v, part 2: the loops ShAtoms and ShToken (and the
   driver loop that calls ShToken repeatedly). *)
From PV Require Import Lib.Bytes Model.ShTok Spec.ShPartition Spec.ShWords Proofs.ShTok.
Open Scope N_scope.

Section WithExpr.

Variable expr : str -> option (str * str).
Hypothesis Hexpr : expr_contract expr.

Definition texts (l : list atom) : list str := map a_text l.
Definition all_nonempty (l : list atom) : Prop := Forall (fun a => a_text a <> []) l.

Lemma sh_atoms_loop_ok fuel : forall q iw (s : str), (length s < fuel)%nat ->
  exists atoms iw' r,
    sh_atoms_loop expr fuel q (iw, s) = Ok (atoms, (iw', r)) /\
    s = concat (texts atoms) ++ r /\ all_nonempty atoms.
Proof.
  induction fuel as [|f IH]; intros q iw s Hf; [lia|].
  cbn [sh_atoms_loop].
  destruct (sh_atom_spec expr Hexpr q iw s) as (iw' & [E | (a & r & E & Hg)]); rewrite E; cbn [bind].
  - exists [], iw', s. repeat split. constructor.
  - pose proof (atom_good_shorter _ _ _ Hg) as Hl. destruct Hg as (Hs & Hn & _).
    destruct (IH (a_quot a) iw' r ltac:(lia)) as (l & iw'' & r' & E' & Hs' & Hn').
    rewrite E'. cbn [bind]. exists (a :: l), iw'', r'. split; [reflexivity|]. split.
    + unfold texts in *. cbn [map concat]. rewrite <- app_assoc, <- Hs'. exact Hs.
    + constructor; assumption.
Qed.

Theorem sh_atoms_from_ok q iw (s : str) :
  exists atoms iw' r,
    sh_atoms_from expr q (iw, s) = Ok (atoms, (iw', r)) /\
    s = concat (texts atoms) ++ r /\ all_nonempty atoms.
Proof. unfold sh_atoms_from. apply sh_atoms_loop_ok. simpl. lia. Qed.

Definition rest_of (k : tkst) : str := snd (t_st k).

Lemma peek_none k :
  exists k1, peek expr (set_curr k None) = Ok k1 /\
    ((t_curr k1 = None /\ rest_of k1 = rest_of k) \/
     exists a, t_curr k1 = Some a /\ atom_good (rest_of k) a (rest_of k1) /\
               t_q k1 = a_quot a /\ t_prevq k1 = t_q k /\ (t_q k = QPlain -> plain_info a)).
Proof.
  unfold peek, rest_of. cbn [set_curr t_curr t_q t_st t_prevq].
  destruct (t_st k) as [iw s].
  destruct (sh_atom_fit expr Hexpr (t_q k) iw s) as (iw' & [E | (a & r & E & Hg & Hp)]); rewrite E; cbn [bind].
  - eexists. split; [reflexivity|]. left. cbn. auto.
  - eexists. split; [reflexivity|]. right. exists a. cbn. auto 6.
Qed.

Lemma peek_some k a : t_curr k = Some a -> peek expr k = Ok k.
Proof. intro H. unfold peek. rewrite H. reflexivity. Qed.

Lemma skip_spaces_ok fuel : forall k, t_q k = QPlain -> (length (rest_of k) < fuel)%nat ->
  exists k1 init1 blanks,
    skip_spaces expr fuel (set_curr k None) (rest_of k) = Ok (k1, init1) /\
    rest_of k = blanks ++ init1 /\ forallb is_hspace blanks = true /\
    ((t_curr k1 = None /\ rest_of k1 = init1) \/
     exists a, t_curr k1 = Some a /\ atom_good init1 a (rest_of k1) /\ t_q k1 = a_quot a /\
               atom_blank_ok QPlain a).
Proof.
  induction fuel as [|f IH]; intros k Hq Hf; [lia|].
  cbn [skip_spaces].
  destruct (peek_none k) as (k1 & E & [(Hc1 & Hr) | (a & Hc1 & Hg & Hq1 & _ & Hp)]); rewrite E; cbn [bind]; rewrite Hc1.
  - exists k1, (rest_of k), []. repeat split; auto.
  - apply Hp, plain_info_cases in Hq. destruct (is_space_type (a_type a)) eqn:Sp.
    + pose proof (atom_good_shorter _ _ _ Hg) as Hl. destruct Hg as (Hs & Hn & Hh).
      destruct (IH k1 (eq_trans Hq1 Hq) ltac:(lia)) as (k2 & init1 & blanks & E2 & Hs2 & Hb & Hfin).
      fold (rest_of k1). rewrite E2.
      exists k2, init1, (a_text a ++ blanks). split; [reflexivity|]. split.
      * rewrite <- app_assoc, <- Hs2. exact Hs.
      * split; [|exact Hfin]. rewrite forallb_app, Hb, Hh; [reflexivity|].
        apply is_space_type_true, Sp.
    + exists k1, (rest_of k), []. split; [reflexivity|]. split; [reflexivity|]. split; [reflexivity|].
      right. exists a. auto.
Qed.

Lemma collect_none fuel : forall k acc, (length (rest_of k) < fuel)%nat ->
  exists k2 more,
    collect_atoms expr fuel (set_curr k None) acc = Ok (k2, acc ++ more) /\
    rest_of k = concat (texts more) ++ rest_of k2 /\ all_nonempty more /\ atoms_chain (t_q k) more.
Proof.
  induction fuel as [|f IH]; intros k acc Hf; [lia|].
  cbn [collect_atoms]. change (snd (t_st (set_curr k None))) with (rest_of k).
  destruct (peek_none k) as (k1 & E & [(Hc1 & Hr) | (a & Hc1 & Hg & Hq1 & Hpq & Hp)]); rewrite E; cbn [bind]; rewrite Hc1.
  - exists (reset_rest k1 (rest_of k)), []. rewrite app_nil_r. repeat split. constructor.
  - match goal with |- context [if ?b then _ else _] => destruct b eqn:Stop end.
    + exists (reset_rest k1 (rest_of k)), []. rewrite app_nil_r. repeat split. constructor.
    + pose proof (atom_good_shorter _ _ _ Hg) as Hl. destruct Hg as (Hs & Hn & _).
      destruct (IH k1 (acc ++ [a]) ltac:(lia)) as (k2 & more & E2 & Hs2 & Hn2 & Hch).
      rewrite Hq1 in Hch. rewrite E2.
      exists k2, (a :: more). split; [rewrite <- app_assoc; reflexivity|]. split; [|split; [|split]].
      * unfold texts in *. cbn [map concat]. rewrite <- app_assoc, <- Hs2. exact Hs.
      * constructor; assumption.
      * (* a space atom of the plain state would have stopped the loop *)
        intro Hq. pose proof (plain_info_cases a (Hp Hq)) as C.
        destruct (is_space_type (a_type a)) eqn:Sp; [|exact (C eq_refl)].
        apply is_space_type_true in Sp. rewrite Sp, Hq1, C, Hpq, Hq in Stop. discriminate.
      * exact Hch.
Qed.

(* the pieces are what ShToken skips without reporting: blanks and ${_ULIMIT_CMD} *)
Definition token_result_with (G : token -> Prop) (s : str) (x : res (option token * state)) : Prop :=
  exists pieces iw' r, Forall skipped_ok pieces /\
    ((x = Ok (None, (iw', r)) /\ s = concat pieces ++ r) \/
     exists t, x = Ok (Some t, (iw', r)) /\ s = concat pieces ++ tok_text t ++ r /\
               tok_text t <> [] /\ G t).

Definition token_good (t : token) : Prop :=
  tok_text t = concat (texts (tok_atoms t)) /\ tok_atoms t <> [] /\ all_nonempty (tok_atoms t).

Definition token_result := token_result_with token_good.

Definition token_chained (t : token) : Prop := token_good t /\ atoms_chain QPlain (tok_atoms t).

Lemma token_result_impl (G G' : token -> Prop) s x :
  (forall t, G t -> G' t) -> token_result_with G s x -> token_result_with G' s x.
Proof.
  intros H (ps & iw & r & Hps & [N | (t & E & Hs & Hn & Hg)]); exists ps, iw, r; (split; [exact Hps|]);
    [left; exact N|right; exists t; auto].
Qed.

Lemma token_result_skip G p s x :
  skipped_ok p -> token_result_with G s x -> token_result_with G (p ++ s) x.
Proof.
  intros Hp (ps & iw & r & Hps & H). exists (p :: ps), iw, r. split; [constructor; assumption|].
  cbn [concat]. destruct H as [(E & ->) | (t & E & -> & H)]; [left|right; exists t]; rewrite <- app_assoc; auto.
Qed.

Lemma token_result_blanks G blanks s x :
  forallb is_hspace blanks = true -> token_result_with G s x -> token_result_with G (blanks ++ s) x.
Proof.
  intros Hb H. destruct blanks; [exact H|]. apply token_result_skip; [split; [discriminate|auto]|exact H].
Qed.

Lemma new_sh_token_ok text atoms : text <> [] -> atoms <> [] -> new_sh_token text atoms = Ok (mk_token text atoms).
Proof. destruct text, atoms; congruence || reflexivity. Qed.

Lemma new_token_result s iw text l r :
  text = concat (texts l) -> l <> [] -> all_nonempty l -> atoms_chain QPlain l -> s = text ++ r ->
  token_result_with token_chained s (bind (new_sh_token text l) (fun t => Ok (Some t, (iw, r)))).
Proof.
  intros Et Hl Hn Hc Hs.
  assert (Ht : text <> []).
  { destruct Hn as [|a l' Ha _]; [congruence|]. subst text. cbn. intro Z. apply app_eq_nil in Z as [Z _]. auto. }
  rewrite (new_sh_token_ok _ _ Ht Hl). cbn [bind].
  exists [], iw, r. split; [constructor|]. right. eexists. split; [reflexivity|].
  repeat split; assumption.
Qed.

Lemma sh_token_fuel_ok fuel : forall iw (s : str), (length s + 2 <= fuel)%nat ->
  token_result_with token_chained s (sh_token_fuel expr fuel (iw, s)).
Proof.
  induction fuel as [|f IH]; intros iw s Hf; [lia|].
  cbn [sh_token_fuel snd].
  set (k0 := mk_tkst None QPlain QPlain (iw, s)).
  destruct (skip_spaces_ok f k0 eq_refl ltac:(cbn; lia)) as (k & init1 & blanks & E & Hs & Hb & Hfin).
  change (rest_of k0) with s in *. change (set_curr k0 None) with k0 in E. rewrite E. cbn [bind].
  rewrite Hs in Hf |- *. rewrite app_length in Hf. apply token_result_blanks; [exact Hb|]. clear E Hs Hb k0.
  unfold rest_of in *. destruct (t_st k) as [iw1 r1] eqn:Est. cbn [snd] in *.
  destruct Hfin as [(Hc & ->) | (a & Hc & Hg & Hq & Hbl)]; rewrite Hc.
  { exists [], iw1, init1. split; [constructor|]. left. auto. }
  pose proof (atom_good_shorter _ _ _ Hg) as Hl. destruct Hg as (Hi & Hn & _).
  destruct (str_eqb (a_text a) ulimit_cmd) eqn:U.
  { (* ${_ULIMIT_CMD}: skipped, ShToken calls itself *)
    apply str_eqb_eq in U. rewrite Hi. apply token_result_skip; [split; auto|]. apply IH. lia. }
  destruct (negb (is_word (a_type a)) && negb (quoting_eqb (t_q k) QSubsh)) eqn:W.
  { (* an operator, comment, ...: a token of its own *)
    apply new_token_result;
      [symmetry; apply app_nil_r|discriminate|repeat constructor; exact Hn|split; [exact Hbl|exact I]|exact Hi]. }
  (* a word: the first round of the loop takes the atom that is already there *)
  destruct f as [|f']; [lia|].
  cbn [collect_atoms]. rewrite (peek_some k a Hc). cbn [bind]. rewrite Hc.
  assert (Stop : negb (is_word (a_type a)) && quoting_eqb (t_q k) QPlain
                 && negb (quoting_eqb (t_prevq k) QSubsh) = false).
  { destruct (is_word (a_type a)); [reflexivity|]. destruct (t_q k); simpl in *; congruence. }
  rewrite Stop.
  destruct (collect_none f' k ([] ++ [a]) ltac:(unfold rest_of; rewrite Est; cbn [snd]; lia))
    as (k2 & more & E2 & Hs2 & Hn2 & Hch).
  unfold rest_of in Hs2. rewrite Est in Hs2. rewrite E2. cbn [bind].
  destruct (t_st k2) as [iw2 r2]. cbn [snd fst] in *.
  destruct (negb (quoting_eqb (t_q k2) QPlain)).
  { exists [], iw2, init1. split; [constructor|]. left. auto. }
  assert (Ei : init1 = concat (texts (a :: more)) ++ r2).
  { unfold texts in *. cbn [map concat]. rewrite <- app_assoc, <- Hs2. exact Hi. }
  rewrite Ei, since_app. cbn [bind app].
  apply new_token_result; [reflexivity|discriminate|constructor; assumption| |reflexivity].
  split; [exact Hbl|]. rewrite <- Hq. exact Hch.
Qed.

Theorem sh_token_chained iw (s : str) : token_result_with token_chained s (sh_token expr (iw, s)).
Proof. apply sh_token_fuel_ok. cbn. lia. Qed.

Theorem sh_token_ok iw (s : str) : token_result s (sh_token expr (iw, s)).
Proof. exact (token_result_impl _ _ _ _ (fun t H => proj1 H) (sh_token_chained iw s)). Qed.

Definition token_view (p : token * str) : str * list str * str :=
  (tok_text (fst p), map a_text (tok_atoms (fst p)), snd p).

Definition tokens_result (s : str) (x : res (list (token * str) * state)) : Prop :=
  exists l iw' r, x = Ok (l, (iw', r)) /\ chain_ok s (map token_view l) r /\
    Forall (fun p => atoms_chain QPlain (tok_atoms (fst p))) l.

Lemma sh_tokens_loop_ok fuel : forall iw (s : str), (length s < fuel)%nat ->
  tokens_result s (sh_tokens_loop expr fuel (iw, s)).
Proof.
  induction fuel as [|f IH]; intros iw s Hf; [lia|].
  cbn [sh_tokens_loop].
  destruct (sh_token_chained iw s)
    as (pieces & iw' & r & Hp & [(E & Hs) | (t & E & Hs & Hn & (Ht & Ha & Hne) & Hch)]); rewrite E; cbn [bind].
  - exists [], iw', r. split; [reflexivity|]. split; [exists pieces; auto|constructor].
  - assert (Hl : (length r < f)%nat).
    { rewrite Hs, !app_length in Hf. destruct (tok_text t); [congruence|]. simpl in Hf. lia. }
    destruct (IH iw' r Hl) as (l & iw'' & r' & E' & Hc & Hcs). rewrite E'. cbn [bind snd].
    exists ((t, r) :: l), iw'', r'. split; [reflexivity|]. split; [|constructor; assumption].
    cbn [map chain_ok token_view fst snd].
    split; [exists pieces; auto|]. split; [exact Hn|]. split; [exact Ht|].
    split; [|split; [apply Forall_map; exact Hne|exact Hc]].
    destruct (tok_atoms t); [congruence|discriminate].
Qed.

Theorem sh_tokens_ok (s : str) : tokens_result s (sh_tokens expr s).
Proof. unfold sh_tokens. apply sh_tokens_loop_ok. lia. Qed.

End WithExpr.
