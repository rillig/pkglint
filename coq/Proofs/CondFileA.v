(* C14, file level, part A: pkglint's LoadsPrefs (Model/CondFile.v) only says yes
   where the reference reading of the path (Spec/PrefsFile.v) says yes. *)
From Coq Require Import List NArith Bool Lia.
From PV Require Import Lib.Bytes Gen.CondSimpSets Spec.PrefsFile Model.CondFile.
Import ListNotations.
Open Scope N_scope.

Lemma loads_prefs_table_sound :
  forallb (fun n => in_strs n prefs_reference) loads_prefs_names = true /\ loads_prefs_dir = infrastructure_dir.
Proof. split; vm_compute; reflexivity. Qed.

Lemma prefs_reference_proper :
  forallb (fun n => nonempty_str n && negb (existsb (N.eqb 47) n) && negb (str_eqb n [46]))
          prefs_reference = true.
Proof. vm_compute. reflexivity. Qed.

Lemma comps_ne s : comps s <> [].
Proof.
  induction s as [|c r IH]; [discriminate|].
  cbn [comps]. destruct (c =? 47); [discriminate|].
  destruct (comps r); discriminate.
Qed.

Lemma comps_hd_tl s : comps s = hd [] (comps s) :: tl (comps s).
Proof. generalize (comps_ne s). destruct (comps s); [congruence|reflexivity]. Qed.

Lemma comps_cons c r :
  comps (c :: r) = if c =? 47 then [] :: comps r else (c :: hd [] (comps r)) :: tl (comps r).
Proof.
  cbn [comps]. destruct (c =? 47); [reflexivity|].
  generalize (comps_ne r). destruct (comps r); [congruence|reflexivity].
Qed.

Lemma tl_in {A} (x : A) l : In x (tl l) -> In x l.
Proof. destruct l; simpl; auto. Qed.

Lemma hd_comps_in p : In (hd [] (comps p)) (comps p).
Proof. rewrite (comps_hd_tl p) at 2. left. reflexivity. Qed.

Lemma noslash_cons c r :
  existsb (N.eqb 47) (c :: r) = false -> c <> 47 /\ existsb (N.eqb 47) r = false.
Proof.
  cbn [existsb]. intros H. apply orb_false_iff in H as [Hc H]. split; [|exact H].
  apply N.eqb_neq in Hc. congruence.
Qed.

Lemma comps_noslash : forall r, existsb (N.eqb 47) r = false -> comps r = [r].
Proof.
  induction r as [|c r IH]; intros H; [reflexivity|].
  apply noslash_cons in H as [Hc H]. apply N.eqb_neq in Hc.
  rewrite comps_cons, Hc, (IH H). reflexivity.
Qed.

Lemma comps_hasslash : forall r, existsb (N.eqb 47) r = true -> tl (comps r) <> [].
Proof.
  induction r as [|c r IH]; cbn [existsb]; [discriminate|].
  rewrite comps_cons, N.eqb_sym. destruct (c =? 47); cbn [orb tl]; [intros _; apply comps_ne|exact IH].
Qed.

Lemma has_prefix_hd : forall sub p,
  existsb (N.eqb 47) sub = false -> has_prefix_path sub p = true -> hd [] (comps p) = sub.
Proof.
  induction sub as [|x sub IH]; intros p Hs Hp; unfold has_prefix_path in Hp; cbn [strip_prefix] in Hp.
  - destruct p as [|c r]; [reflexivity|]. apply N.eqb_eq in Hp. subst c. reflexivity.
  - apply noslash_cons in Hs as [Hx Hs]. apply N.eqb_neq in Hx.
    destruct p as [|y p]; [discriminate|]. destruct (N.eqb_spec x y) as [<-|]; [|discriminate].
    rewrite comps_cons, Hx, (IH p Hs Hp). reflexivity.
Qed.

Lemma contains_path_from_sound sub : existsb (N.eqb 47) sub = false -> forall p b,
  contains_path_from b sub p = true ->
  (b = true /\ hd [] (comps p) = sub) \/ In sub (tl (comps p)).
Proof.
  intros Hs. induction p as [|c r IH]; intros b H; cbn [contains_path_from] in H;
    apply orb_true_iff in H as [H|H].
  1, 3: left; apply andb_true_iff in H as [-> H]; split; [reflexivity|apply has_prefix_hd; assumption].
  - discriminate.
  - right. apply IH in H. rewrite comps_cons. destruct (c =? 47); cbn [tl andb] in *.
    + destruct H as [[_ <-]|H]; [apply hd_comps_in|apply tl_in, H].
    + destruct H as [[H _]|H]; [discriminate|exact H].
Qed.

(* Path.ContainsPath on a plain component = some component of the spec's reading is that component *)
Lemma contains_path_components : forall sub p,
  sub <> [] -> existsb (N.eqb 47) sub = false ->
  contains_path sub p = true -> in_strs sub (components p) = true.
Proof.
  intros sub p Hne Hs H. apply (contains_path_from_sound sub Hs) in H.
  apply existsb_exists. exists sub. split; [|apply str_eqb_refl].
  apply filter_In. split; [|destruct sub; [congruence|reflexivity]].
  rewrite (comps_hd_tl p). destruct H as [[_ <-]|H]; [left; reflexivity|right; exact H].
Qed.

Lemma after_last_slash_comps : forall s, after_last_slash s = last (comps s) [].
Proof.
  induction s as [|c r IH]; [reflexivity|].
  cbn [after_last_slash]. rewrite comps_cons. destruct (existsb (N.eqb 47) r) eqn:E.
  - rewrite IH. pose proof (comps_hasslash r E) as Ht.
    destruct (comps r) as [|h [|h' t]]; cbn [tl] in Ht; try congruence.
    destruct (c =? 47); reflexivity.
  - rewrite (comps_noslash r E). destruct (c =? 47); reflexivity.
Qed.

Lemma filter_comps_eq a b :
  hd [] (comps a) = hd [] (comps b) ->
  filter nonempty_str (tl (comps a)) = filter nonempty_str (tl (comps b)) ->
  filter nonempty_str (comps a) = filter nonempty_str (comps b).
Proof.
  intros Hh Ht. rewrite (comps_hd_tl a), (comps_hd_tl b). cbn [filter]. rewrite Hh, Ht. reflexivity.
Qed.

(* trailing slashes only add empty components *)
Lemma strip_comps : forall s,
  hd [] (comps s) = hd [] (comps (strip_trailing_slashes s)) /\
  filter nonempty_str (tl (comps s)) = filter nonempty_str (tl (comps (strip_trailing_slashes s))).
Proof.
  induction s as [|c r [IHh IHt]]; [split; reflexivity|].
  pose proof (filter_comps_eq _ _ IHh IHt) as Hf.
  cbn [strip_trailing_slashes]. rewrite comps_cons.
  destruct (strip_trailing_slashes r) as [|x r'].
  - destruct (c =? 47) eqn:Ec; [|rewrite (comps_cons c []), Ec, IHh]; cbn [hd tl]; auto.
  - rewrite (comps_cons c (x :: r')). destruct (c =? 47); cbn [hd tl]; [|rewrite IHh]; auto.
Qed.

Lemma filter_comps_strip s :
  filter nonempty_str (comps s) = filter nonempty_str (comps (strip_trailing_slashes s)).
Proof. destruct (strip_comps s). apply filter_comps_eq; assumption. Qed.

Lemma last_filter : forall l b,
  last l [] = b -> b <> [] -> last (filter nonempty_str l) [] = b.
Proof.
  intros l b H Hb. destruct l as [|a l']; [cbn in H; congruence|].
  rewrite (app_removelast_last (l:=a :: l') []), H, filter_app by discriminate.
  destruct b; [congruence|]. apply last_last.
Qed.

(* path.Base = the last non-empty component of the spec's reading, whenever it is a proper name *)
Lemma path_base_last_component : forall p b,
  path_base p = b -> b <> [] -> existsb (N.eqb 47) b = false -> b <> [46] ->
  last (components p) [] = b.
Proof.
  intros p b H Hne Hs Hdot. destruct p as [|c r]; [cbn in H; congruence|].
  unfold path_base in H. unfold components. rewrite filter_comps_strip.
  apply last_filter; [|exact Hne]. rewrite <- after_last_slash_comps.
  destruct (after_last_slash (strip_trailing_slashes (c :: r))); [|exact H].
  subst b. discriminate Hs.
Qed.

Lemma loads_prefs_sound : forall p, loads_prefs p = true -> really_loads_prefs p = true.
Proof.
  intros p H. unfold loads_prefs in H. unfold really_loads_prefs.
  apply orb_true_iff in H as [H|H]; apply orb_true_iff; [left|right].
  - apply existsb_exists in H as (n & Hin & Heq). apply str_eqb_spec in Heq.
    destruct loads_prefs_table_sound as [Ht _].
    rewrite forallb_forall in Ht. specialize (Ht n Hin). cbv beta in Ht.
    pose proof Ht as Hn. apply existsb_exists in Hn as (m & Hm & Hnm). apply str_eqb_spec in Hnm. subst m.
    pose proof prefs_reference_proper as Hp. rewrite forallb_forall in Hp.
    specialize (Hp n Hm). cbv beta in Hp.
    apply andb_true_iff in Hp as [Hp H3]. apply andb_true_iff in Hp as [H1 H2].
    apply negb_true_iff in H2, H3.
    rewrite (path_base_last_component p n Heq); [exact Ht| |exact H2|]; intros ->; discriminate.
  - apply contains_path_components; [discriminate|reflexivity|exact H].
Qed.
