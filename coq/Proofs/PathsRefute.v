(* C19: the two example paths in the refutation of Relpath without the ':' guard. *)
From PV Require Import Lib.Bytes.
Open Scope N_scope.

Definition p_root : str := [47].            (* "/"   *)
Definition p_a : str := [97].               (* "a"   *)
