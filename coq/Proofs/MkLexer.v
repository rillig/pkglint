(* Proofs about Model/MkLexer.v.
   Section Above: every function of mklexer.go other than Expr, with Expr as the
   Section variable E under the advance contract `step_ok E n` (on every text of at
   most n bytes E returns nil or chops off a non-empty prefix; no OutOfFuel, no
   Panic): each function returns Ok and leaves a suffix of its text.
   The body of Expr satisfies more: it finds an expression exactly at a `$` that is
   followed by another byte than `$` (expr_spec).  This is proved for the concrete Expr
   by induction on the single fuel (expr_spec_fuel), and the Section lemmas are
   instantiated. *)
From PV Require Import Lib.Bytes Gen.MkByteSets Model.MkLexPrim Model.MkLexer Spec.MkPartition Proofs.MkLexPrim.
From Coq Require Import ZifyBool ZifyN ZifyNat.
Open Scope N_scope.

Lemma has_prefix_app p s : has_prefix p s = true -> exists r, s = p ++ r.
Proof.
  unfold has_prefix. destruct (strip_prefix p s) as [r|] eqn:E; [|discriminate].
  intros _. exists r. apply strip_prefix_some; exact E.
Qed.

Definition starts_expr (s : str) : bool :=
  match s with c0 :: c :: _ => (c0 =? 36) && negb (c =? 36) | _ => false end.

Definition expr_spec (s : str) (x : res (option str)) : Prop :=
  if starts_expr s then exists r, x = Ok (Some r) /\ chops s r else x = Ok None.

Lemma expr_spec_good s x : expr_spec s x -> x = Ok None \/ exists r, x = Ok (Some r) /\ chops s r.
Proof. unfold expr_spec. destruct (starts_expr s); auto. Qed.

Definition mod_good (s : str) (x : res (str * str)) : Prop :=
  exists m r, x = Ok (m, r) /\ is_suffix r s /\ (m <> [] -> chops s r).

Lemma since_mod_good s r : is_suffix r s -> mod_good s (Ok (since s r, r)).
Proof.
  intro H. exists (since s r), r. split; [reflexivity|]. split; [exact H|].
  apply since_nonempty_chops; exact H.
Qed.

Lemma empty_mod_good s r : is_suffix r s -> mod_good s (Ok ([], r)).
Proof. intro H. exists [], r. split; [reflexivity|]. split; [exact H|congruence]. Qed.

(* the loop of exprModifierMatch needs no fuel and no Expr *)
Lemma match_loop_suffix opening closing s :
  forall nest seen, is_suffix (snd (match_loop opening closing nest seen s)) s.
Proof.
  induction s as [|ch t IHt IHt'] using tail2_ind; intros nest seen; [apply is_suffix_refl|].
  cbn [match_loop].
  destruct ((ch =? 58) && (nest =? 1)%Z); [apply is_suffix_refl|].
  destruct (ch =? 92).
  - destruct t as [|d t']; [|destruct ((d =? 58) || (d =? opening) || (d =? closing))]; auto with rest.
  - destruct ((ch =? 40) || (ch =? 123)), ((ch =? 41) || (ch =? 125)), (nest - 1 =? 0)%Z;
      auto with rest.
Qed.

Lemma expr_modifier_match_ok closing c t :
  mod_good (c :: t) (expr_modifier_match closing (c :: t)).
Proof.
  unfold expr_modifier_match. rewrite skip_1. cbn [bind].
  generalize (if closing =? 125 then 123 else 40). intro opening.
  pose proof (match_loop_suffix opening closing t 1%Z false) as H.
  destruct (match_loop opening closing 1%Z false t) as [seen r]. cbn [snd] in H.
  eexists _, r. split; [reflexivity|]. split; [apply is_suffix_later, H|].
  intros _. eapply chops_trans_suffix; [apply chops_cons|exact H].
Qed.

(* Below, a function that is called in the middle of its caller is described by
   where it leaves the lexer relative to the caller's start `mark`: started within
   mark (at a suffix of it) it ends within mark.  With mark := s this is the rest
   relative to its own start, and a caller chains such facts without transitivity. *)
Section Above.
Variable E : exprfn.
Variable n : nat.
Hypothesis HE : step_ok E n.

Lemma bytes_or_expr_ok set : step_ok (bytes_or_expr E set) n.
Proof. apply orelse_ok; [apply st_bytes_ok|exact HE]. Qed.

Lemma varname_ok s : (length s <= n)%nat ->
  exists r, varname E s = Ok (since s r, r) /\ is_suffix r s.
Proof.
  intro Hn. unfold varname.
  match goal with |- context [match ?b with Some s1 => Ok (since s s1, s1) | None => _ end] =>
    destruct b as [s1|] eqn:B end.
  { exists s1. split; [reflexivity|].
    destruct s as [|c s0]; [discriminate|].
    destruct (in_set builtin_variable_spec c); [|discriminate].
    destruct (peek_is s0 58 || peek_is s0 41 || peek_is s0 125); [|discriminate].
    inversion B; subst. apply is_suffix_cons. }
  clear B.
  destruct (loop_ok _ n s _ (bytes_or_expr_ok varbase_spec) Hn (skip_byte_opt_suffix 46 s))
    as (s2 & -> & S2 & _). cbn [bind].
  assert (Param : forall s3, is_suffix s3 s -> exists r,
    (s4 <- loop (bytes_or_expr E varparam_spec) s3 ;; Ok (since s s4, s4)) = Ok (since s r, r) /\
    is_suffix r s).
  { intros s3 S3.
    destruct (loop_ok _ n s s3 (bytes_or_expr_ok varparam_spec) Hn S3) as (s4 & -> & S4 & _).
    cbn [bind]. eauto. }
  destruct (skip_byte 46 s2) as [s3|] eqn:E3.
  - apply Param, (chops_within s2), S2. apply (skip_byte_chops _ _ _ E3).
  - destruct (has_prefix str_SITES_ (since s s2)); [apply Param, S2|eauto].
Qed.

Lemma since_loop_ok st mark s : step_ok st n -> (length mark <= n)%nat -> is_suffix s mark ->
  exists r, (r <- loop st s ;; Ok (since s r, r)) = Ok (since s r, r) /\ is_suffix r mark.
Proof.
  intros Hst Hn Hs. destruct (loop_ok st n mark s Hst Hn Hs) as (r & -> & S1 & _). cbn [bind]. eauto.
Qed.

Lemma expr_text_ok closing mark s : (length mark <= n)%nat -> is_suffix s mark ->
  exists r, expr_text E closing s = Ok (since s r, r) /\ is_suffix r mark.
Proof. apply since_loop_ok, orelse_ok; [exact HE|apply st_opt_ok, re_text_chops]. Qed.

Lemma expr_modifier_sysv_ok closing mark s : (length mark <= n)%nat -> is_suffix s mark ->
  exists r, expr_modifier_sysv E closing s = Ok (since s r, r) /\ is_suffix r mark.
Proof. apply since_loop_ok, orelse_ok; [exact HE|apply st_opt_ok, re_sysv_chops]. Qed.

Lemma expr_modifier_ts_ok md closing mark s :
  has_prefix [116; 115] md = true -> (length mark <= n)%nat -> is_suffix s mark ->
  mod_good mark (expr_modifier_ts E md closing mark s).
Proof.
  intros Hp Hn Hs. unfold expr_modifier_ts.
  destruct (expr_text_ok closing mark s Hn Hs) as (r & -> & Sr). cbn [bind].
  destruct (has_prefix_app _ _ Hp) as (md' & ->).
  rewrite skip_ok by (rewrite app_length; simpl; lia). cbn [bind].
  apply since_mod_good.
  destruct (skipn 2 ([116; 115] ++ md') ++ since s r); [|exact Sr].
  destruct (skip_string [58] r) as [r'|] eqn:E2; [|exact Sr].
  apply (skip_string_chops [58]) in E2; [|discriminate]. exact (chops_within _ _ _ E2 Sr).
Qed.

Lemma skip_other_step_ok sep : step_ok (skip_other_step E sep) n.
Proof.
  intros s Hs. unfold skip_other_step, step_good.
  destruct (match s with c :: d :: _ => (c =? 36) && (d =? sep) | _ => false end); [left; reflexivity|].
  revert s Hs. apply orelse_ok; [exact HE|]. apply orelse_ok; [apply st_string_ok; discriminate|].
  apply orelse_ok; [|apply st_bytes_ok].
  intros s _. unfold step_good.
  destruct (Nat.leb_spec 2 (length s)); cbn [andb]; [|left; reflexivity].
  destruct (peek_is s 92 && negb (sep =? 92)); [|left; reflexivity].
  rewrite skip_ok by assumption. cbn [bind]. right. eexists; split; [reflexivity|].
  apply skipn_chops; lia.
Qed.

Lemma skip_other_ok sep mark s : (length mark <= n)%nat -> is_suffix s mark ->
  exists r, skip_other E sep s = Ok r /\ is_suffix r mark.
Proof.
  intros Hn Hs. destruct (loop_ok _ n mark s (skip_other_step_ok sep) Hn Hs) as (r & H & S & _). eauto.
Qed.

Lemma expr_modifier_subst_ok closing s : (length s <= n)%nat ->
  exists ok r, expr_modifier_subst E closing s = Ok (ok, r) /\ is_suffix r s.
Proof.
  intro Hn. unfold expr_modifier_subst.
  match goal with |- context [match ?b with Some s1 => _ | None => Ok (false, s) end] =>
    destruct b as [s1|] eqn:B end; [|eauto with rest].
  assert (S1 : is_suffix s1 s).
  { apply chops_suffix. destruct (skip_byte 67 s) as [x|] eqn:E1; [inversion B; subst x|];
      eapply skip_byte_chops; eassumption. }
  destruct s1 as [|sep s2]; [eauto|]. destruct (sep =? closing); [eauto|].
  assert (S3 : is_suffix (skip_byte_opt 94 s2) s).
  { eapply is_suffix_trans; [apply skip_byte_opt_suffix|].
    eapply is_suffix_trans; [apply is_suffix_cons|exact S1]. }
  destruct (skip_other_ok sep s _ Hn S3) as (s4 & -> & S4). cbn [bind].
  apply (is_suffix_trans _ _ _ (skip_byte_opt_suffix 36 s4)) in S4.
  destruct (skip_byte sep (skip_byte_opt 36 s4)) as [s6|] eqn:E6; [|eauto].
  apply skip_byte_chops in E6.
  destruct (skip_other_ok sep s s6 Hn (chops_within _ _ _ E6 S4)) as (s7 & -> & S7). cbn [bind].
  destruct (skip_byte sep s7) as [s8|] eqn:E8; [|eauto].
  apply skip_byte_chops in E8.
  eexists true, _. split; [reflexivity|].
  eapply is_suffix_trans; [apply next_bytes_suffix|exact (chops_within _ _ _ E8 S7)].
Qed.

Lemma expr_modifier_at_ok c t : (length (c :: t) <= n)%nat ->
  exists ok r, expr_modifier_at E (c :: t) = Ok (ok, r) /\ is_suffix r (c :: t).
Proof.
  intro Hn. unfold expr_modifier_at. rewrite skip_1. cbn [bind].
  destruct (next_bytes (in_set alnum_dot_spec) t) as [lv s2] eqn:E2.
  assert (S2 : is_suffix s2 (c :: t)).
  { apply is_suffix_later. exists lv. apply (next_bytes_eq _ _ _ _ E2). }
  destruct lv as [|l lv]; [eauto|].
  destruct (skip_byte 64 s2) as [s3|] eqn:E3; [|eauto].
  apply skip_byte_chops in E3.
  destruct (loop_ok (orelse E (orelse (st_string [36; 36]) (st_opt re_at))) n (c :: t) s3)
    as (s4 & -> & S4 & _); [|exact Hn|exact (chops_within _ _ _ E3 S2)|].
  { apply orelse_ok; [exact HE|]. apply orelse_ok; [apply st_string_ok; discriminate|].
    apply st_opt_ok, re_at_chops. }
  cbn [bind]. eexists true, _. split; [reflexivity|].
  eapply is_suffix_trans; [apply skip_byte_opt_suffix|exact S4].
Qed.

Lemma is_escaped_two end_ subst s :
  is_escaped_modifier_part end_ subst s = true -> (2 <= length s)%nat.
Proof.
  destruct s as [|a [|b t]]; simpl; try discriminate. intros _; lia.
Qed.

Lemma pmp_loop_ok end1 end2 subst mark : (length mark <= n)%nat -> forall fuel b s,
  is_suffix s mark -> (length s < fuel)%nat -> b <> end1 -> b <> end2 ->
  exists b' r, pmp_loop E end1 end2 subst fuel b s = Ok (b', r) /\ is_suffix r mark /\
    ((b' = end1 \/ b' = end2) -> exists t, r = b' :: t).
Proof.
  intro Hn. induction fuel as [|f IH]; intros b s Hs Hf Hb1 Hb2; [lia|].
  cbn [pmp_loop]. destruct s as [|c t].
  { exists b, []. split; [reflexivity|]. split; [exact Hs|]. intros [?|?]; congruence. }
  destruct (N.eqb_spec c end1) as [->|N1]; cbn [orb]; [eauto 6|].
  destruct (N.eqb_spec c end2) as [->|N2]; cbn [orb]; [eauto 6|].
  (* every other round chops something off and goes on with b := c *)
  assert (Step : forall r, chops (c :: t) r ->
    exists b' r', pmp_loop E end1 end2 subst f c r = Ok (b', r') /\ is_suffix r' mark /\
      ((b' = end1 \/ b' = end2) -> exists t0, r' = b' :: t0)).
  { intros r C. apply IH; [exact (chops_within _ _ _ C Hs)|apply chops_length in C; lia|exact N1|exact N2]. }
  destruct (is_escaped_modifier_part end2 subst (c :: t)) eqn:Esc.
  { pose proof (is_escaped_two _ _ _ Esc) as L2. rewrite skip_ok by exact L2. cbn [bind].
    apply Step, skipn_chops; [lia|exact L2]. }
  destruct (negb (c =? 36)); [apply Step, chops_cons|].
  destruct ((2 <=? length (c :: t))%nat && peek_is t end2); [apply Step, chops_cons|].
  destruct (HE (c :: t) (suffix_len _ _ _ Hs Hn)) as [-> | (r & -> & C)]; cbn [bind]; [|exact (Step r C)].
  destruct (skip_string [36; 36] (c :: t)) as [r|] eqn:E2; [|apply Step, chops_cons].
  apply Step, (skip_string_chops [36; 36]); [discriminate|exact E2].
Qed.

Lemma parse_modifier_part_ok mark s : (length mark <= n)%nat -> is_suffix s mark ->
  exists ok r, parse_modifier_part E 33 33 false s = Ok (ok, r) /\ is_suffix r mark.
Proof.
  intros Hn Hs. unfold parse_modifier_part.
  destruct (pmp_loop_ok 33 33 false mark Hn (S (length s)) 0 s) as (b & s1 & -> & S1 & P1);
    [exact Hs|lia|discriminate..|].
  cbn [bind]. destruct (N.eqb_spec b 33) as [->|Nb]; cbn [negb andb]; [|eauto].
  destruct P1 as (t & ->); [left; reflexivity|].
  rewrite N.eqb_refl, skip_1. cbn [bind]. eexists true, t. split; [reflexivity|].
  eapply is_suffix_trans; [apply is_suffix_cons|exact S1].
Qed.

Lemma expr_modifier_tail_ok closing mark : (length mark <= n)%nat ->
  mod_good mark (expr_modifier_tail E closing mark).
Proof.
  intro Hn. unfold expr_modifier_tail.
  destruct (expr_modifier_sysv_ok closing mark mark Hn (is_suffix_refl _)) as (s1 & -> & S1). cbn [bind].
  destruct (contains_byte 61 (since mark s1)); [apply since_mod_good; exact S1|].
  assert (T3 : mod_good mark ('(modifier2, s3) <- expr_text E closing mark ;;
                               if has_prefix [33] modifier2 && has_suffix [33] modifier2
                               then Ok (modifier2, s3) else Ok ([], s3))).
  { destruct (expr_text_ok closing mark mark Hn (is_suffix_refl _)) as (s3 & -> & S3). cbn [bind].
    destruct (has_prefix [33] (since mark s3) && has_suffix [33] (since mark s3));
      [apply since_mod_good|apply empty_mod_good]; exact S3. }
  destruct (HE mark Hn) as [-> | (s2 & -> & C)]; cbn [bind]; [exact T3|].
  destruct (peek_is s2 58 || peek_is s2 closing); [|exact T3].
  apply since_mod_good, chops_suffix; exact C.
Qed.

Lemma mod_good_of_ok_flag mark (x : res (bool * str)) (tail : res (str * str)) :
  (exists ok r, x = Ok (ok, r) /\ is_suffix r mark) -> mod_good mark tail ->
  mod_good mark ('(ok, s1) <- x ;; if ok then Ok (since mark s1, s1) else tail).
Proof.
  intros (ok & r & -> & S) T. cbn [bind]. destruct ok; [apply since_mod_good; exact S|exact T].
Qed.

Lemma expr_modifier_ok vname closing s : (length s <= n)%nat ->
  mod_good s (expr_modifier E vname closing s).
Proof.
  intro Hn. unfold expr_modifier.
  pose proof (expr_modifier_tail_ok closing s Hn) as T.
  destruct s as [|c t]; [exact T|].
  pose proof (is_suffix_cons c t) as St.
  destruct (existsb (N.eqb c) [69; 72; 76; 79; 81; 82; 84; 115; 116; 117]).
  { destruct (next_bytes (in_set alnum_spec) (c :: t)) as [md s1] eqn:E1.
    apply next_bytes_eq in E1.
    destruct (existsb (str_eqb md) simple_modifiers).
    - exists md, s1. split; [reflexivity|]. split; exists md; auto.
    - destruct (has_prefix [116; 115] md) eqn:Hp; [|exact T].
      apply expr_modifier_ts_ok; [exact Hp|exact Hn|exists md; exact E1]. }
  destruct ((c =? 68) || (c =? 85)).
  { destruct (expr_text_ok closing _ _ Hn (is_suffix_refl (c :: t))) as (r & -> & S1).
    apply since_mod_good, S1. }
  destruct ((c =? 77) || (c =? 78)); [apply expr_modifier_match_ok|].
  destruct ((c =? 67) || (c =? 83)).
  { apply mod_good_of_ok_flag; [apply expr_modifier_subst_ok; exact Hn|exact T]. }
  destruct (c =? 33).
  { rewrite skip_1. cbn [bind].
    destruct (parse_modifier_part_ok _ t Hn St) as (ok & s2 & -> & S2). cbn [bind].
    destruct ok; [apply since_mod_good|apply empty_mod_good]; exact S2. }
  destruct (c =? 64).
  { apply mod_good_of_ok_flag; [apply expr_modifier_at_ok; exact Hn|exact T]. }
  destruct (c =? 91).
  { destruct (re_index (c :: t)) as [s1|] eqn:E1; [|exact T].
    apply since_mod_good, chops_suffix, re_index_chops; exact E1. }
  destruct (c =? 63).
  { rewrite skip_1. cbn [bind].
    destruct (expr_text_ok closing _ t Hn St) as (s2 & -> & S2). cbn [bind].
    destruct (skip_byte 58 s2) as [s3|] eqn:E3; [|exact T].
    apply skip_byte_chops in E3.
    destruct (expr_text_ok closing _ s3 Hn (chops_within _ _ _ E3 S2)) as (s4 & -> & S4). cbn [bind].
    apply since_mod_good, S4. }
  destruct (c =? 58); [|exact T].
  rewrite skip_1. cbn [bind].
  destruct (re_assign_op t) as [s2|] eqn:E2; [|exact T].
  destruct vname as [|v vname']; [exact T|].
  apply re_assign_op_chops in E2.
  destruct (expr_text_ok closing _ s2 Hn (chops_within _ _ _ E2 St)) as (s3 & -> & S3). cbn [bind].
  apply since_mod_good, S3.
Qed.

(* one round of the loop at s1, with the rest of the loop as `rec`: the measure
   2 * |rest| + mayOmitColon falls, since a modifier that allows the next colon to be
   omitted is not empty and so has chopped something off *)
Lemma expr_modifiers_round_ok vname closing (rec : bool -> str -> res (list str * str)) bound mark s1 :
  (forall (may : bool) s2, (length s2 <= n)%nat -> (2 * length s2 + (if may then 1 else 0) < bound)%nat ->
     exists mods r, rec may s2 = Ok (mods, r) /\ is_suffix r s2) ->
  (length mark <= n)%nat -> is_suffix s1 mark -> (2 * length s1 + 1 <= bound)%nat ->
  exists mods r,
    ('(modifier, s2) <- expr_modifier E vname closing s1 ;;
     '(mods, s3) <- rec (match modifier with c :: _ => (c =? 83) || (c =? 67) | [] => false end) s2 ;;
     Ok (match modifier with [] => mods | _ => modifier :: mods end, s3)) = Ok (mods, r) /\
    is_suffix r mark.
Proof.
  intros Hrec Hn S1 L1. pose proof (suffix_len _ _ _ S1 Hn) as Hn1.
  destruct (expr_modifier_ok vname closing s1 Hn1) as (m & s2 & -> & S2 & C2). cbn [bind].
  match goal with |- context [rec ?may s2] => destruct (Hrec may s2) as (mods & r & -> & S3) end.
  - exact (suffix_len _ _ _ S2 Hn1).
  - destruct m as [|c m']; [apply is_suffix_length in S2; lia|].
    specialize (C2 ltac:(discriminate)). apply chops_length in C2.
    destruct ((c =? 83) || (c =? 67)); lia.
  - cbn [bind]. eexists _, r. split; [reflexivity|]. eauto using is_suffix_trans.
Qed.

Lemma expr_modifiers_loop_ok vname closing : forall fuel (may : bool) s,
  (length s <= n)%nat -> (2 * length s + (if may then 1 else 0) < fuel)%nat ->
  exists mods r, expr_modifiers_loop E vname closing fuel may s = Ok (mods, r) /\ is_suffix r s.
Proof.
  induction fuel as [|f IH]; intros may s Hn Hf; [lia|].
  cbn [expr_modifiers_loop]. destruct (skip_byte 58 s) as [s1|] eqn:E1.
  - apply skip_byte_chops in E1. pose proof (chops_length _ _ E1).
    apply (expr_modifiers_round_ok _ _ _ f s s1 IH Hn (chops_suffix _ _ E1)). destruct may; lia.
  - destruct may; [|eauto with rest].
    apply (expr_modifiers_round_ok _ _ _ f s s IH Hn (is_suffix_refl s)). lia.
Qed.

Lemma expr_modifiers_ok vname closing mark s : (length mark <= n)%nat -> is_suffix s mark ->
  exists mods r, expr_modifiers E vname closing s = Ok (mods, r) /\ is_suffix r mark.
Proof.
  intros Hn Hs. unfold expr_modifiers.
  destruct (expr_modifiers_loop_ok vname closing (2 * length s + 2) false s) as (mods & r & H & S);
    [exact (suffix_len _ _ _ Hs Hn)|lia|]. eauto using is_suffix_trans.
Qed.

Lemma mk_token_ok s : (length s <= n)%nat ->
  mk_token E s = Ok None \/ exists k r, mk_token E s = Ok (Some (since s r, k, r)) /\ chops s r.
Proof.
  intro Hn. unfold mk_token.
  destruct (HE s Hn) as [-> | (s1 & -> & C)]; cbn [bind]; [|eauto].
  destruct (loop_ok (orelse (st_bytes (fun b => negb (b =? 36))) (st_string [36; 36])) n s s)
    as (s1 & -> & S1 & _);
    [apply orelse_ok; [apply st_bytes_ok|apply st_string_ok; discriminate]|exact Hn|apply is_suffix_refl|].
  cbn [bind]. destruct (since s s1) as [|x text] eqn:Es; [left; reflexivity|].
  right. exists false, s1. rewrite Es. split; [reflexivity|].
  apply since_nonempty_chops; [exact S1|congruence].
Qed.

Lemma mk_tokens_loop_ok : forall fuel s, (length s <= n)%nat -> (length s < fuel)%nat ->
  exists toks rest, mk_tokens_loop E fuel s = Ok (toks, rest) /\ partitions toks rest s.
Proof.
  induction fuel as [|f IH]; intros s Hn Hf; [lia|].
  cbn [mk_tokens_loop]. destruct s as [|c t]; [eauto using partitions_nil|].
  destruct (mk_token_ok (c :: t) Hn) as [-> | (k & r & -> & C)]; cbn [bind]; [eauto using partitions_nil|].
  pose proof (chops_length _ _ C).
  destruct (IH r) as (toks & rest & -> & P); [lia..|].
  cbn [bind]. eauto using partitions_chops.
Qed.

Lemma expr_brace_ok round s : (2 <= length s)%nat -> (length s <= S n)%nat ->
  exists r, expr_brace E round s = Ok (Some r) /\ chops s r.
Proof.
  intros H2 Hn. unfold expr_brace. rewrite skip_ok by exact H2. cbn [bind].
  assert (C1 : chops s (skipn 2 s)) by (apply skipn_chops; lia).
  assert (L1 : (length (skipn 2 s) <= n)%nat) by (apply chops_length in C1; lia).
  destruct (varname_ok (skipn 2 s) L1) as (s2 & -> & S2). cbn [bind].
  destruct (expr_text_ok (if round then 41 else 125) _ s2 L1 S2) as (s3 & -> & S3). cbn [bind].
  destruct (expr_modifiers_ok (since (skipn 2 s) s3) (if round then 41 else 125) _ s3 L1 S3)
    as (mods & s4 & -> & S4). cbn [bind].
  eexists. split; [reflexivity|]. eapply chops_trans_suffix; [exact C1|].
  eapply is_suffix_trans; [apply skip_byte_opt_suffix|exact S4].
Qed.

Lemma expr_body_ok s : (length s <= S n)%nat -> expr_spec s (expr_body E s).
Proof.
  intro Hn. unfold expr_spec, expr_body.
  destruct s as [|c0 [|c t]]; [reflexivity|reflexivity|]. cbn [starts_expr].
  destruct (c0 =? 36); [|reflexivity]. cbn [negb andb].
  destruct (N.eqb_spec c 36) as [->|Hc]; [reflexivity|]. cbn [negb].
  destruct ((c =? 123) || (c =? 40)); [apply expr_brace_ok; [simpl; lia|exact Hn]|].
  assert (C : chops (c0 :: c :: t) t) by (exists [c0; c]; split; [discriminate|reflexivity]).
  change (skip 2 (c0 :: c :: t)) with (Ok t). unfold expr_alnum.
  destruct (existsb (N.eqb c) [62; 33; 60; 37; 63; 42; 64]); cbn [bind]; [eauto|].
  change (skip 2 (c0 :: c :: t)) with (Ok t).
  destruct (fst (next_bytes (in_set alnum_u_spec) (c :: t))); cbn [bind]; eauto.
Qed.

End Above.

Lemma expr_spec_fuel : forall f s, (length s <= f)%nat -> expr_spec s (expr (S f) s).
Proof.
  induction f as [|f IH]; intros s Hs.
  - destruct s; [reflexivity|simpl in Hs; lia].
  - change (expr (S (S f)) s) with (expr_body (expr (S f)) s).
    apply (expr_body_ok (expr (S f)) f); [|exact Hs].
    intros s' Hs'. apply expr_spec_good, IH, Hs'.
Qed.

Lemma Expr_spec s : expr_spec s (Expr s).
Proof. apply expr_spec_fuel. lia. Qed.

Lemma Expr_ok n : step_ok Expr n.
Proof. intros s _. apply expr_spec_good, Expr_spec. Qed.

Lemma expr_advance s : Expr s = Ok None \/ exists r, Expr s = Ok (Some r) /\ chops s r.
Proof. apply expr_spec_good, Expr_spec. Qed.

Lemma Expr_none_iff s : Expr s = Ok None <-> starts_expr s = false.
Proof.
  pose proof (Expr_spec s) as X. unfold expr_spec in X.
  destruct (starts_expr s); split; intro H; try congruence.
  destruct X as (r & X & _). congruence.
Qed.

Lemma varname_partition s : exists v r, Varname s = Ok (v, r) /\ v ++ r = s.
Proof.
  destruct (varname_ok Expr (length s) (Expr_ok _) s) as (r & E1 & S1); [lia|].
  exists (since s r), r. split; [exact E1|apply since_suffix; exact S1].
Qed.

Lemma mktokens_partition s : exists toks rest, MkTokens s = Ok (toks, rest) /\ partitions toks rest s.
Proof.
  unfold MkTokens. apply (mk_tokens_loop_ok Expr (length s) (Expr_ok _)); lia.
Qed.

Lemma expr_total s : Expr s <> OutOfFuel /\ Expr s <> Panic.
Proof.
  destruct (expr_advance s) as [E | (r & E & _)]; rewrite E; split; discriminate.
Qed.
