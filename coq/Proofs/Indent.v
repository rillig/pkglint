(* C01: the Indentation machine never evaluates top()/Pop() on an empty stack,
   whatever the sequence of directive lines (balanced or not). *)
From Coq Require Import List ZArith NArith Bool Lia.
From PV Require Import Lib.PanicRes Model.Indent.
Import ListNotations.
Open Scope Z_scope.

Lemma set_top_nonempty st t : st <> [] -> set_top st t <> [].
Proof. destruct st; simpl; congruence. Qed.

Lemma set_top_length st t : length (set_top st t) = length st.
Proof. destruct st; reflexivity. Qed.

Definition ok_nonempty (r : res state) : Prop := exists st', r = Ok st' /\ st' <> [].

Lemma add_var_ok st v : st <> [] -> ok_nonempty (add_var st v).
Proof.
  intros H. unfold add_var. destruct (v_mk v); [exists st; auto|].
  destruct st as [|t r]; [congruence|]. simpl.
  destruct (existsb _ _); eexists; (split; [reflexivity|discriminate]).
Qed.

Lemma add_vars_ok vs : forall st, st <> [] -> ok_nonempty (add_vars st vs).
Proof.
  induction vs as [|v vs IH]; intros st H; simpl; [exists st; auto|].
  destruct (add_var_ok st v H) as (st1 & -> & N1). apply IH, N1.
Qed.

Lemma add_checked_file_ok st f : st <> [] -> ok_nonempty (add_checked_file st f).
Proof. destruct st as [|t r]; [congruence|]. intros _. eexists; split; [reflexivity|discriminate]. Qed.

Lemma add_checked_files_ok fs : forall st, st <> [] -> ok_nonempty (add_checked_files st fs).
Proof.
  induction fs as [|f fs IH]; intros st H; simpl; [exists st; auto|].
  destruct (add_checked_file_ok st f H) as (st1 & -> & N1). apply IH, N1.
Qed.

(* Depth never indexes out of range *)
Lemma depth_of_ok st k : is_ok (depth_of st k).
Proof.
  unfold depth_of, is_ok.
  set (skip := match k with KElif | KElse | KEndfor | KEndif => 1%nat | _ => 0%nat end).
  destruct (length st <=? skip)%nat eqn:E; [eauto|].
  apply Nat.leb_gt in E.
  destruct (nth_error st skip) eqn:N; [eauto|].
  apply nth_error_None in N. lia.
Qed.

Definition opens (k : dkind) : bool :=
  match k with KFor | KIf | KIfdef | KIfndef | KIfmake | KIfnmake => true | _ => false end.

Lemma track_before_ok st l :
  exists st1, track_before st l = Ok st1 /\ (opens (d_kind l) = true -> st1 <> []).
Proof.
  unfold track_before, push, is_directive. destruct (depth_of_ok st (d_kind l)) as (d & ->).
  destruct (d_kind l); simpl; eexists; (split; [reflexivity|discriminate]).
Qed.

Lemma args_ok st : st <> [] -> is_ok (args st).
Proof. destruct st; [congruence|]. intros _. unfold args. simpl. eexists; reflexivity. Qed.

Lemma check_directive_end_ok st l : is_ok (check_directive_end st l).
Proof.
  unfold check_directive_end, is_ok. destruct st as [|t r]; simpl; [eauto|].
  destruct (d_comment l); simpl; [|eauto].
  destruct (d_kind l); simpl; eauto.
Qed.

Lemma check_directive_ok st l :
  (d_kind l = KFor -> st <> []) ->
  exists st' e u, check_directive st l = Ok (st', e, u) /\ (st <> [] -> st' <> []).
Proof.
  intros HF. unfold check_directive, check_directive_for.
  destruct (depth_of_ok st (d_kind l)) as (e & ->).
  destruct (check_directive_end_ok st l) as (u & U).
  destruct (d_kind l); simpl; rewrite ?U; simpl; try (do 3 eexists; split; [reflexivity|auto]; fail).
  destruct (add_vars_ok (d_forvars l) st (HF eq_refl)) as (st' & -> & N1).
  do 3 eexists; split; [reflexivity|auto].
Qed.

(* the second switch of TrackAfter *)
Lemma track_after_cond_ok pkgsrc st1 c :
  is_ok (if is_empty st1 then Ok st1 else
         match c with
         | None => Ok st1
         | Some (vars, files) =>
             bind (add_vars st1 vars) (fun st2 =>
               if negb pkgsrc then Ok st2 else add_checked_files st2 files)
         end).
Proof.
  unfold is_ok. destruct st1 as [|t r] eqn:S; simpl; [eauto|].
  destruct c as [[vars files]|]; [|eauto].
  destruct (add_vars_ok vars (t :: r)) as (st2 & -> & N2); [discriminate|].
  simpl. destruct pkgsrc; simpl; [|eauto].
  destruct (add_checked_files_ok files st2 N2) as (st3 & E3 & _). eauto.
Qed.

Lemma track_after_ok pkgsrc st l :
  (opens (d_kind l) = true -> st <> []) -> is_ok (track_after pkgsrc st l).
Proof.
  intros HO. unfold track_after, is_directive. destruct st as [|t r].
  - (* the directives that can meet an empty stack test IsEmpty before top() and Pop() *)
    destruct (d_kind l); simpl in *; try (eexists; reflexivity); destruct (HO eq_refl eq_refl).
  - destruct (d_kind l); simpl; try (eexists; reflexivity).
    + destruct (l_guard t); exact (track_after_cond_ok pkgsrc (_ :: r) (d_cond l)).
    + exact (track_after_cond_ok pkgsrc (_ :: r) (d_cond l)).
Qed.

Lemma step_ok pkgsrc st l : is_ok (step pkgsrc st l).
Proof.
  unfold step.
  destruct (track_before_ok st l) as (st1 & -> & N1). simpl.
  destruct (is_directive l) eqn:D.
  - destruct (check_directive_ok st1 l) as (st2 & e & u & -> & N2).
    { intros K. apply N1. rewrite K. reflexivity. }
    simpl. destruct (track_after_ok pkgsrc st2 l) as (st3 & ->).
    { intros O. apply N2, N1, O. }
    eexists; reflexivity.
  - simpl. unfold track_after. rewrite D. eexists; reflexivity.
Qed.

Lemma check_finish_loop_spec : forall fuel st acc,
  (length st <= fuel)%nat ->
  check_finish_loop fuel st acc = Ok (rev acc ++ map l_line st).
Proof.
  induction fuel as [|fuel IH]; intros st acc H.
  - destruct st; simpl in *; [now rewrite app_nil_r | lia].
  - destruct st as [|t r]; simpl; [now rewrite app_nil_r|].
    rewrite IH by (simpl in H; lia). simpl. now rewrite <- app_assoc.
Qed.

Lemma check_finish_spec st : check_finish st = Ok (map l_line st).
Proof.
  unfold check_finish. destruct st as [|t r]; [reflexivity|].
  cbn [is_empty]. now rewrite check_finish_loop_spec by lia.
Qed.

Lemma run_from_ok pkgsrc : forall ls st acc, is_ok (run_from pkgsrc st ls acc).
Proof.
  induction ls as [|l ls IH]; intros st acc; simpl.
  - rewrite check_finish_spec. eexists; reflexivity.
  - destruct (step_ok pkgsrc st l) as (p & ->). apply IH.
Qed.

(* For ALL sequences of lines, with and without a pkgsrc tree: no panic, no fuel exhaustion *)
Theorem indent_stack_safe : forall (pkgsrc : bool) (ls : list dline),
  exists r, run pkgsrc ls = Ok r.
Proof. intros. apply run_from_ok. Qed.

(* The model of the code BEFORE fix aedbed2 (no IsEmpty test in the second
   switch of TrackAfter) does panic: the theorem above is not vacuous. *)
Definition track_after_unfixed (pkgsrc : bool) (st : state) (l : dline) : res state :=
  match d_kind l with
  | KElif =>
      match d_cond l with
      | None => Ok st
      | Some (vars, files) => add_vars st vars
      end
  | _ => track_after pkgsrc st l
  end.

Definition stray_elif : dline :=
  {| d_kind := KElif; d_no := 1%N; d_cond := Some ([ {| v_id := 7%N; v_mk := false |} ], []);
     d_guard := false; d_forvars := []; d_comment := false |}.

Lemma unfixed_panics : track_after_unfixed true [] stray_elif = Panic 1.
Proof. reflexivity. Qed.
