(* Lemmas about the specification Spec/ApplyLog.v alone. *)
From PV Require Import Lib.Bytes Spec.ApplyLog.
From Coq Require Import Lia Permutation.
Open Scope N_scope.

(* applying every entry, in order, with some choice of the occurrence *)
Inductive reach : list block -> list entry -> list block -> Prop :=
| reach_nil st : reach st [] st
| reach_cons st e st1 log st2 :
    In st1 (act_entry e st) -> reach st1 log st2 -> reach st (e :: log) st2.

Lemma reach_app a l1 b l2 c : reach a l1 b -> reach b l2 c -> reach a (l1 ++ l2) c.
Proof.
  induction 1 as [|st e st1 log st2 Hin _ IH]; intro H2; simpl; [exact H2|].
  econstructor; [exact Hin|]. apply IH; exact H2.
Qed.

Lemma reach_one st e st' : In st' (act_entry e st) -> reach st [e] st'.
Proof. intro H. econstructor; [exact H|constructor]. Qed.

Lemma reach_run_log st log st' : reach st log st' -> forall seen, In st' (run_log seen log st).
Proof.
  induction 1 as [st|st e st1 log st2 Hin _ IH]; intro seen; simpl; [left; reflexivity|].
  assert (Happ : In st2 (flat_map (run_log (e :: seen) log) (act_entry e st))).
  { apply in_flat_map. exists st1. split; [exact Hin|apply IH]. }
  destruct (existsb (entry_eqb e) seen); [apply in_or_app; left|]; exact Happ.
Qed.

Lemma replace_each_unfold from to s :
  replace_each from to s =
  (match strip_prefix from s with Some r => [to ++ r] | None => [] end)
  ++ match s with [] => [] | c :: s' => map (cons c) (replace_each from to s') end.
Proof. destruct s; reflexivity. Qed.

Lemma replace_each_in from to x y : In (x ++ to ++ y) (replace_each from to (x ++ from ++ y)).
Proof.
  induction x as [|c x IH].
  - rewrite replace_each_unfold. change ([] ++ from ++ y) with (from ++ y). change ([] ++ to ++ y) with (to ++ y).
    assert (Hs : strip_prefix from (from ++ y) = Some y) by (apply strip_prefix_some; reflexivity).
    rewrite Hs. apply in_or_app. left. left. reflexivity.
  - rewrite replace_each_unfold. apply in_or_app. right. simpl. apply in_map. exact IH.
Qed.

Fixpoint upd_nth {A} (n : nat) (x : A) (l : list A) : list A :=
  match l, n with
  | [], _ => []
  | _ :: l', O => x :: l'
  | y :: l', S n' => y :: upd_nth n' x l'
  end.

Lemma at_index_upd {A} n f (l post : list A) x y :
  nth_error l n = Some x -> In y (f x) -> In (upd_nth n y l ++ post) (at_index n f (l ++ post)).
Proof.
  revert n; induction l as [|z l IH]; intros [|n] Hn Hy; simpl in *; try discriminate.
  - inversion Hn; subst. exact (in_map (fun y => y :: l ++ post) _ _ Hy).
  - apply in_map. apply IH; assumption.
Qed.

Lemma at_index_embedded {A} (pre post l : list A) n f x y :
  nth_error l n = Some x -> In y (f x) ->
  In (pre ++ upd_nth n y l ++ post) (at_index (length pre + n) f (pre ++ l ++ post)).
Proof.
  intros Hn Hy. induction pre as [|z pre IH]; simpl; [|apply in_map; exact IH].
  exact (at_index_upd n f l post x y Hn Hy).
Qed.

Lemma at_index_inv {A} n f (l l1 : list A) :
  In l1 (at_index n f l) -> exists x y, nth_error l n = Some x /\ In y (f x) /\ l1 = upd_nth n y l.
Proof.
  revert n l1; induction l as [|z l IH]; intros [|n] l1 H; simpl in *; try contradiction.
  - apply in_map_iff in H as (y & <- & Hy). exists z, y. auto.
  - apply in_map_iff in H as (l' & <- & Hl'). destruct (IH _ _ Hl') as (x & y & Hn & Hy & ->).
    exists x, y. auto.
Qed.

Lemma nth_error_upd_nth {A} n m (y : A) l :
  nth_error (upd_nth n y l) m = if Nat.eqb n m then (match nth_error l m with Some _ => Some y | None => None end) else nth_error l m.
Proof.
  revert n m; induction l as [|z l IH]; intros [|n] [|m]; simpl; try reflexivity.
  - destruct (Nat.eqb n m); reflexivity.
  - apply IH.
Qed.

Lemma upd_nth_length {A} n (y : A) l : length (upd_nth n y l) = length l.
Proof. revert n; induction l as [|z l IH]; intros [|n]; simpl; auto. Qed.

Lemma phys_lines_concat s : concat (phys_lines s) = s.
Proof.
  induction s as [|c s IH]; simpl; [reflexivity|].
  destruct (N.eqb_spec c 10).
  - simpl. rewrite IH. reflexivity.
  - destruct (phys_lines s) as [|l ls] eqn:E; simpl in *.
    + subst s. reflexivity.
    + rewrite <- IH. reflexivity.
Qed.

Inductive breach : block -> list entry -> block -> Prop :=
| breach_nil b : breach b [] b
| breach_cons b e b1 log b2 : In b1 (act_block (snd e) b) -> breach b1 log b2 -> breach b (e :: log) b2.

Lemma breach_run_block b log b' : breach b log b' -> forall seen, In b' (run_block seen log b).
Proof.
  induction 1 as [b|b e b1 log b2 Hin _ IH]; intro seen; simpl; [left; reflexivity|].
  assert (Happ : In b2 (flat_map (run_block (e :: seen) log) (act_block (snd e) b))).
  { apply in_flat_map. exists b1. split; [exact Hin|apply IH]. }
  destruct (existsb (entry_eqb e) seen); [apply in_or_app; left|]; exact Happ.
Qed.

Lemma line_log_cons_other k e log :
  (needs_line (snd e) && (fst e =? k)) = false -> line_log k (e :: log) = line_log k log.
Proof. intro H. unfold line_log. cbn [filter]. rewrite H. reflexivity. Qed.

Lemma line_log_cons_same k e log :
  (needs_line (snd e) && (fst e =? k)) = true -> line_log k (e :: log) = e :: line_log k log.
Proof. intro H. unfold line_log. cbn [filter]. rewrite H. reflexivity. Qed.

Lemma act_entry_inv e st st1 : In st1 (act_entry e st) ->
  (needs_line (snd e) = false /\ st1 = st) \/
  (needs_line (snd e) = true /\ exists i x y, fst e = 1 + N.of_nat i /\
     nth_error st i = Some x /\ In y (act_block (snd e) x) /\ st1 = upd_nth i y st).
Proof.
  unfold act_entry. destruct (needs_line (snd e)); [|intros [<-|[]]; auto].
  destruct (fst e) as [|p]; [contradiction|]. intro H. right. split; [reflexivity|].
  apply at_index_inv in H as (x & y & Hn & Hy & ->). exists (N.to_nat (N.pos p - 1)), x, y.
  repeat split; auto. lia.
Qed.

Lemma reach_project st log st' : reach st log st' ->
  length st' = length st /\
  forallb (entry_in_range (length st)) log = true /\
  forall i b b', nth_error st i = Some b -> nth_error st' i = Some b' ->
                 breach b (line_log (1 + N.of_nat i) log) b'.
Proof.
  induction 1 as [st|st e st1 log st2 Hin _ (L & R & P)].
  - repeat split. intros i b b' H1 H2. rewrite H1 in H2. inversion H2. constructor.
  - cbn [forallb]. unfold entry_in_range at 1.
    apply act_entry_inv in Hin as [[NL ->]|(NL & k & x & y & Ek & Hn & Hy & ->)]; rewrite NL.
    + repeat split; [exact L|exact R|]. intros i b b' H1 H2.
      rewrite line_log_cons_other by (rewrite NL; reflexivity). apply (P i); assumption.
    + rewrite upd_nth_length in *.
      assert (Hlt : (k < length st)%nat) by (apply nth_error_Some; congruence).
      repeat split; [exact L|rewrite R; lia|]. intros i b b' H1 H2.
      specialize (P i). rewrite nth_error_upd_nth in P. destruct (Nat.eqb_spec k i) as [Ei|Ni].
      * subst i. rewrite Hn in H1, P. inversion H1; subst x.
        rewrite line_log_cons_same by (rewrite NL, Ek, N.eqb_refl; reflexivity).
        econstructor; [exact Hy|]. apply P; [reflexivity|exact H2].
      * rewrite line_log_cons_other by (rewrite NL; lia). apply P; assumption.
Qed.

Lemma match_lines_complete cands st :
  Forall2 (fun cs b => In (flat_block b) cs) cands st -> match_lines cands (flat_blocks st) = true.
Proof.
  induction 1 as [|cs b cands st Hin _ IH]; [reflexivity|].
  cbn [match_lines]. apply existsb_exists. exists (flat_block b). split; [exact Hin|].
  unfold flat_blocks. cbn [map concat].
  assert (Hs : strip_prefix (flat_block b) (flat_block b ++ concat (map flat_block st)) = Some (concat (map flat_block st)))
    by (apply strip_prefix_some; reflexivity).
  rewrite Hs. exact IH.
Qed.

Lemma line_cands_reach log : forall lines k st,
  (forall i b b', nth_error (map (fun l => Block [] l []) lines) i = Some b -> nth_error st i = Some b' ->
                  breach b (line_log (k + N.of_nat i) log) b') ->
  length st = length lines ->
  Forall2 (fun cs b => In (flat_block b) cs) (line_cands k log lines) st.
Proof.
  induction lines as [|l lines IH]; intros k st P L; destruct st as [|b st]; try discriminate; [constructor|].
  cbn [line_cands]. constructor.
  - apply in_map. apply breach_run_block. specialize (P O (Block [] l []) b eq_refl eq_refl).
    rewrite N.add_0_r in P. exact P.
  - apply IH; [|simpl in L; lia]. intros i b0 b' H1 H2.
    specialize (P (S i) b0 b' H1 H2). replace (k + 1 + N.of_nat i) with (k + N.of_nat (S i)) by lia. exact P.
Qed.

Lemma reach_cands old log st : reach (init_blocks old) log st ->
  forallb (entry_in_range (length (phys_lines old))) log = true /\
  Forall2 (fun cs b => In (flat_block b) cs) (line_cands 1 log (phys_lines old)) st.
Proof.
  intro R. apply reach_project in R as (L & Rg & P). unfold init_blocks in *. rewrite map_length in *.
  split; [exact Rg|]. apply line_cands_reach; assumption.
Qed.

(* a state that is reachable by applying every entry is accepted by the line-by-line definition *)
Theorem reach_consistent old log st :
  reach (init_blocks old) log st -> has_sort log = false ->
  consistent old log (flat_blocks st) = true.
Proof.
  intros R Hs. apply reach_cands in R as [Rg F]. unfold consistent. rewrite Rg, Hs.
  apply match_lines_complete. exact F.
Qed.

Lemma pick_each_split {A} (l1 : list A) x l2 : In (x, l1 ++ l2) (pick_each (l1 ++ x :: l2)).
Proof.
  induction l1 as [|y l1 IH]; cbn; [left; reflexivity|].
  right. exact (in_map (fun p => (fst p, y :: snd p)) _ _ IH).
Qed.

Definition nil_or_nl (t : str) : Prop := t = [] \/ ends_nl t = true.

Lemma match_perm_complete bs' : forall cands bs,
  Forall2 (fun cs b => In (flat_block b) cs) cands bs ->
  Permutation bs' bs ->
  Forall (fun b => nil_or_nl (flat_block b)) bs' ->
  match_perm (length cands) cands (flat_blocks bs') = true.
Proof.
  induction bs' as [|b bs' IH]; intros cands bs F P T.
  - apply Permutation_nil in P. subst bs. inversion F. reflexivity.
  - (* b stands somewhere in bs, its candidates at the same place in cands *)
    assert (Hb : In b bs) by (eapply Permutation_in; [exact P|left; reflexivity]).
    apply in_split in Hb as (l1 & l2 & ->). apply Permutation_cons_app_inv in P.
    apply Forall2_app_inv_r in F as (c1 & c2' & F1 & F2 & E).
    inversion F2 as [|cs ? c2 ? Hcs F2']; subst c2'. apply Forall_cons_iff in T as [Tb Ts].
    assert (L : length cands = S (length (c1 ++ c2))) by (rewrite E, !app_length; cbn; lia).
    rewrite L. destruct cands as [|c0 cands0]; [discriminate L|]. cbn [match_perm].
    apply existsb_exists. exists (cs, c1 ++ c2). split; [rewrite E; apply pick_each_split|].
    cbn [fst snd]. apply existsb_exists. exists (flat_block b). split; [exact Hcs|].
    unfold flat_blocks. cbn [map concat]. fold (flat_blocks bs').
    assert (Hs : strip_prefix (flat_block b) (flat_block b ++ flat_blocks bs') = Some (flat_blocks bs'))
      by (apply strip_prefix_some; reflexivity).
    rewrite Hs. apply andb_true_iff. split.
    + destruct Tb as [E'|E']; rewrite E'; [reflexivity|]. rewrite orb_true_r. reflexivity.
    + apply (IH _ (l1 ++ l2)); [apply Forall2_app; assumption|exact P|exact Ts].
Qed.

Theorem reach_consistent_sorted old log st bs' :
  reach (init_blocks old) log st -> has_sort log = true ->
  Permutation bs' st -> Forall (fun b => nil_or_nl (flat_block b)) bs' ->
  consistent old log (flat_blocks bs') = true.
Proof.
  intros R Hs P T. apply reach_cands in R as [Rg F]. unfold consistent. rewrite Rg, Hs.
  exact (match_perm_complete bs' _ st F P T).
Qed.

Lemma ends_nl_app_nonempty (a b : str) : b <> [] -> ends_nl (a ++ b) = ends_nl b.
Proof.
  intro H. unfold ends_nl. rewrite rev_app_distr. destruct (rev b) as [|c r] eqn:E; [|reflexivity].
  exfalso. apply H. rewrite <- (rev_involutive b), E. reflexivity.
Qed.

Lemma ends_nl_snoc (t : str) : ends_nl (t ++ nl) = true.
Proof. rewrite ends_nl_app_nonempty by discriminate. reflexivity. Qed.

Lemma nil_or_nl_app a b : nil_or_nl a -> nil_or_nl b -> nil_or_nl (a ++ b).
Proof.
  intros Ha [E|Hb]; [subst b; rewrite app_nil_r; exact Ha|].
  right. rewrite ends_nl_app_nonempty; [exact Hb|]. intro E; subst. discriminate.
Qed.

Lemma nil_or_nl_concat (l : list str) : Forall (fun a => ends_nl a = true) l -> nil_or_nl (concat l).
Proof.
  induction 1 as [|a l Ha _ IH]; [left; reflexivity|]. cbn. apply nil_or_nl_app; [right; exact Ha|exact IH].
Qed.

Lemma phys_lines_nonempty s : Forall (fun l => l <> []) (phys_lines s).
Proof.
  induction s as [|c s IH]; cbn; [constructor|].
  destruct (c =? 10); [constructor; [discriminate|exact IH]|].
  destruct (phys_lines s) as [|l ls]; [constructor; [discriminate|constructor]|].
  inversion IH; subst. constructor; [discriminate|assumption].
Qed.

Lemma phys_lines_terminated s : Forall (fun l => ends_nl l = true) (removelast (phys_lines s)).
Proof.
  induction s as [|c s IH]; cbn [phys_lines]; [constructor|].
  destruct (N.eqb_spec c 10) as [->|Hc].
  - cbn [removelast]. destruct (phys_lines s) as [|l ls]; [constructor|]. constructor; [reflexivity|exact IH].
  - pose proof (phys_lines_nonempty s) as NE.
    destruct (phys_lines s) as [|l ls]; [constructor|].
    cbn [removelast] in *. destruct ls as [|l2 ls]; [constructor|].
    inversion IH as [|? ? Hl Hls]; subst. inversion NE; subst. constructor; [|exact Hls].
    change (c :: l) with ([c] ++ l). rewrite ends_nl_app_nonempty by assumption. exact Hl.
Qed.
