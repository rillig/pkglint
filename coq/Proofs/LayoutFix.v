(* The compact layout fixers (Model/LayoutFix.v) change blanks only, and never panic on the
   inputs their callers give them. *)
From PV Require Import Lib.Bytes Model.Tabs Model.Varalign Model.LayoutFix Proofs.Tabs Proofs.VaralignBlanks.
Open Scope Z_scope.

Definition blank_eq (a b : str) : Prop := strip_blanks a = strip_blanks b.

Lemma replace_at_0 s from to t : replace_at s 0 from to = Ok t ->
  exists r, s = from ++ r /\ t = to ++ r.
Proof.
  intro H. change s with ([] ++ s) in H. change 0 with (len []) in H.
  apply replace_at_ok in H as (r & E1 & E2 & _). exists r. auto.
Qed.

Lemma replace_at_0_total s from to : str_eqb from to = false -> has_prefix from s = true ->
  exists t, replace_at s 0 from to = Ok t.
Proof.
  intros NE HP. unfold replace_at. rewrite NE.
  replace (0 <? len s + 1) with true by (unfold len; lia).
  unfold has_prefix in HP. cbn. destruct (strip_prefix from s) as [r|]; [eauto|discriminate].
Qed.

(* what CheckTrailingWhitespace makes of one raw line: the blanks at the end go,
   unless what is left would end in a backslash *)
Definition trim_result (t : str) : str :=
  if ends_backslash (rtrimHspace t) then t else rtrimHspace t.

Lemma trim_raw_spec t : trim_raw t = Ok (trim_result t).
Proof.
  unfold trim_raw, trim_result. destruct (rtrimHspace_split t) as (b & E & _).
  (* only t = u ++ b matters, not which prefix u is *)
  generalize dependent (rtrimHspace t). intros u ->. cbv zeta.
  rewrite to_nat_len, firstn_app, firstn_all, skipn_app, skipn_all, Nat.sub_diag.
  cbn [firstn skipn app]. rewrite app_nil_r. destruct b as [|c b].
  - rewrite app_nil_r, Z.eqb_refl. destruct (ends_backslash u); reflexivity.
  - replace (len u =? len (u ++ c :: b)) with false by (rewrite len_app; unfold len; cbn [length]; lia).
    destruct (ends_backslash u); [reflexivity|].
    pose proof (replace_at_succeeds u (c :: b) [] [] ltac:(discriminate)) as H.
    rewrite !app_nil_r in H. exact H.
Qed.

Definition trimmed_of (a b : str) : Prop := exists x, a = b ++ x /\ blankb x = true.

Lemma trimmed_of_refl a : trimmed_of a a.
Proof. exists []. rewrite app_nil_r. auto. Qed.

Lemma trimmed_blank_eq a b : trimmed_of a b -> blank_eq a b.
Proof.
  intros (x & -> & B). unfold blank_eq. rewrite strip_blanks_app, (strip_blanks_blank x B), app_nil_r. reflexivity.
Qed.

Lemma trim_result_trimmed t : trimmed_of t (trim_result t).
Proof.
  unfold trim_result. destruct (ends_backslash (rtrimHspace t)).
  - apply trimmed_of_refl.
  - destruct (rtrimHspace_split t) as (b & E & B). exists b. auto.
Qed.

Lemma trim_result_idem t : trim_result (trim_result t) = trim_result t.
Proof.
  unfold trim_result. destruct (ends_backslash (rtrimHspace t)) eqn:E.
  - rewrite E. reflexivity.
  - rewrite rtrimHspace_idem, E. reflexivity.
Qed.

Lemma checkTrailingWhitespace_snoc init l :
  checkTrailingWhitespace (init ++ [l]) = Ok (init ++ [trim_result l]).
Proof.
  induction init as [|t init IH]; [simpl; rewrite trim_raw_spec; reflexivity|].
  change (checkTrailingWhitespace ((t :: init) ++ [l])) with
    (match init ++ [l] with [] => t' <- trim_raw t ;; Ok [t'] | _ => r' <- checkTrailingWhitespace (init ++ [l]) ;; Ok (t :: r') end).
  rewrite IH. destruct init; reflexivity.
Qed.

Lemma checkTrailingWhitespace_spec raws : raws <> [] ->
  exists init last, raws = init ++ [last] /\
    checkTrailingWhitespace raws = Ok (init ++ [trim_result last]).
Proof.
  intros NE. destruct (exists_last NE) as (init & l & ->).
  exists init, l. split; [reflexivity|apply checkTrailingWhitespace_snoc].
Qed.

Theorem trailing_blanks_only raws raws' : checkTrailingWhitespace raws = Ok raws' ->
  Forall2 trimmed_of raws raws'.
Proof.
  destruct raws as [|l init _] using rev_ind; [discriminate|].
  rewrite checkTrailingWhitespace_snoc. intros [= <-]. apply Forall2_app.
  - apply Forall2_refl, trimmed_of_refl.
  - constructor; [|constructor]. apply trim_result_trimmed.
Qed.

(* a second pass finds nothing to do *)
Theorem trailing_settles raws raws' : checkTrailingWhitespace raws = Ok raws' ->
  checkTrailingWhitespace raws' = Ok raws'.
Proof.
  destruct raws as [|l init _] using rev_ind; [discriminate|].
  rewrite checkTrailingWhitespace_snoc. intros [= <-].
  rewrite checkTrailingWhitespace_snoc, trim_result_idem. reflexivity.
Qed.

Lemma trim_result_nonblank_end t c : is_hspace c = false -> trim_result (t ++ [c]) = t ++ [c].
Proof.
  intro H. unfold trim_result. rewrite rtrimHspace_nonblank_end by exact H.
  now destruct (ends_backslash _).
Qed.

Lemma trailing_nonblank_end_untouched raws t c :
  last raws [] = t ++ [c] -> c <> 32%N -> c <> 9%N -> checkTrailingWhitespace raws = Ok raws.
Proof.
  intros HL H1 H2. destruct raws as [|l init _] using rev_ind; [destruct t; discriminate|].
  rewrite last_last in HL. subst l. rewrite checkTrailingWhitespace_snoc, trim_result_nonblank_end; [reflexivity|].
  destruct (is_hspace c) eqn:E; [apply is_hspace_iff in E; tauto|reflexivity].
Qed.

Theorem directive_blanks_only sn raw0 indent d r : blankb indent = true ->
  checkDirectiveIndentation sn raw0 indent d = Ok r ->
  blank_eq raw0 r /\
  (r = raw0 \/ exists rest, raw0 = DOT :: indent ++ rest /\ r = DOT :: spaces d ++ rest).
Proof.
  intros B H.
  assert (S : r = raw0 \/ exists rest, raw0 = DOT :: indent ++ rest /\ r = DOT :: spaces d ++ rest).
  { unfold checkDirectiveIndentation in H. destruct sn; [left; congruence|].
    destruct (d <? 0); [discriminate|]. destruct (str_eqb indent (spaces d)); [left; congruence|].
    destruct (has_prefix _ _); [|left; congruence].
    apply replace_at_0 in H as (rest & E1 & E2). eauto. }
  split; [|exact S]. destruct S as [->|(rest & -> & ->)]; [reflexivity|].
  unfold blank_eq. simpl. rewrite !strip_blanks_app.
  rewrite (strip_blanks_blank indent B), (strip_blanks_blank (spaces d) (blankb_spaces d)). reflexivity.
Qed.

Theorem directive_total sn raw0 ind d : 0 <= d ->
  exists r, checkDirectiveIndentation sn raw0 ind d = Ok r.
Proof.
  intro Hd. unfold checkDirectiveIndentation. cbv zeta. destruct sn; [eauto|].
  destruct (Z.ltb_spec d 0); [lia|].
  destruct (str_eqb ind (spaces d)) eqn:E; [eauto|].
  destruct (has_prefix (DOT :: ind) raw0) eqn:HP; [|eauto].
  (* DOT :: ind and DOT :: spaces d differ because their tails do *)
  apply replace_at_0_total; [exact E|exact HP].
Qed.

Lemma leading_tabs_blank s : blankb (leading_tabs s) = true.
Proof.
  apply forallb_forall. intros c Hc.
  apply (proj1 (forallb_forall _ _) (span_all _ s)), N.eqb_eq in Hc. subst c. reflexivity.
Qed.

Lemma shellTabs_shape flag raws raws' : shellTabs flag raws = Ok raws' ->
  Forall2 (fun r r' => r' = r \/ exists tb rest, blankb tb = true /\ r = tb ++ rest /\ r' = [TAB] ++ rest)
    raws raws'.
Proof.
  unfold shellTabs. destruct (negb flag); [intros [= <-]; apply Forall2_refl; auto|].
  destruct raws as [|r0 rs]; [discriminate|].
  apply map_res_Forall2. intros r r' _ E.
  destruct (has_prefix _ r); [|injection E as <-; auto].
  apply replace_at_0 in E as (rest & -> & ->). right.
  exists (leading_tabs r0), rest. auto using leading_tabs_blank.
Qed.

Theorem shell_blanks_only flag raws raws' : shellTabs flag raws = Ok raws' ->
  Forall2 blank_eq raws raws'.
Proof.
  intros H%shellTabs_shape. eapply Forall2_impl; [|exact H].
  intros r r' _ [->|(tb & rest & B & -> & ->)]; [reflexivity|].
  unfold blank_eq. rewrite !strip_blanks_app, (strip_blanks_blank tb B). reflexivity.
Qed.

Lemma map_res_total {A B} (f : A -> res B) l :
  (forall a, exists b, f a = Ok b) -> exists l', map_res f l = Ok l'.
Proof.
  intro H. induction l as [|a l [l' IH]]; [eexists; reflexivity|].
  destruct (H a) as [b Hb]. cbn [map_res]. rewrite Hb. cbn [bind]. rewrite IH. cbn [bind]. eauto.
Qed.

Theorem shell_total r0 rs : has_prefix [TAB; TAB] r0 = true ->
  exists raws', shellTabs true (r0 :: rs) = Ok raws'.
Proof.
  intro HP. unfold shellTabs. cbn [negb].
  assert (NE : str_eqb (leading_tabs r0) [TAB] = false).
  { rewrite (has_prefix_skipn _ _ HP). unfold leading_tabs. cbn.
    destruct (span _ _). reflexivity. }
  apply map_res_total. intro r. destruct (has_prefix (leading_tabs r0) r) eqn:H; [|eauto].
  apply replace_at_0_total; assumption.
Qed.

Lemma index_of_spec sub s : forall i, index_of sub s = Some i ->
  0 <= i /\ s = firstn (Z.to_nat i) s ++ sub ++ skipn (Z.to_nat i + length sub) s.
Proof.
  induction s as [|c s IH]; intros i; cbn [index_of]; destruct (has_prefix sub _) eqn:P.
  1, 3: intros [= <-]; split; [lia|exact (has_prefix_skipn _ _ P)].
  - discriminate.
  - destruct (index_of sub s) as [j|]; [|discriminate]. intros [= <-].
    destruct (IH j eq_refl) as [J0 JE]. split; [lia|].
    replace (Z.to_nat (j + 1)) with (S (Z.to_nat j)) by lia. simpl. f_equal. exact JE.
Qed.

Lemma replaceOnce_blank_eq s from to s' : blank_eq from to ->
  replaceOnce s from to = Some s' -> blank_eq s s'.
Proof.
  intros BE H. unfold replaceOnce in H.
  destruct (index_of from s) as [i|] eqn:I; [|discriminate].
  destruct (last_index_of from s); [|discriminate].
  destruct (i =? z); [|discriminate]. inversion H; subst.
  destruct (index_of_spec from s i I) as [_ E]. unfold blank_eq in *.
  rewrite E at 1. rewrite !strip_blanks_app, BE. reflexivity.
Qed.

Lemma replace_first_blank_eq raws from to : blank_eq from to ->
  Forall2 blank_eq raws (replace_first raws from to).
Proof.
  intro BE. induction raws as [|t r IH]; simpl; [constructor|].
  destruct (replaceOnce t from to) as [t'|] eqn:R.
  - constructor; [eapply replaceOnce_blank_eq; eauto|apply Forall2_refl; reflexivity].
  - constructor; [reflexivity|exact IH].
Qed.

Lemma has_suffix_b_true suffix s : has_suffix_b suffix s = true ->
  s = firstn (length s - length suffix) s ++ suffix.
Proof.
  unfold has_suffix_b. intros H%has_prefix_skipn. apply (f_equal (@rev N)) in H.
  rewrite rev_app_distr, rev_length, skipn_rev, !rev_involutive in H. exact H.
Qed.

(* what the fix does, exactly: in the first raw line that holds it (and only if the text occurs
   exactly once), leadingComment ++ varnameOp ++ spaceBeforeValue is replaced by the same text
   without the blanks b directly in front of the operator and with a re-aligned blank a after
   it.  The bytes of the name -- blanks inside ${...} and an escaped '#' included -- stay. *)
Theorem spaceAfterVarname_exact raws vn sp op p0 raws' :
  fixSpaceAfterVarname raws vn sp op p0 = Ok raws' ->
  raws' = raws \/
  exists name b a, vo p0 = name ++ b ++ op /\ rtrimHspace name = name /\ blankb b = true /\ blankb a = true /\
    raws' = replaceAfter raws [] (lc p0 ++ (name ++ b ++ op) ++ sbv p0) (lc p0 ++ (name ++ op) ++ a).
Proof.
  intros H. unfold fixSpaceAfterVarname in H.
  destruct (is_nil sp); [left; congruence|].
  destruct (_ && _); [left; congruence|].
  destruct (_ && _); [left; congruence|].
  destruct (has_suffix_b op (vo p0)) eqn:S; cbn [negb] in H; [|left; congruence].
  apply has_suffix_b_true in S.
  set (pre := firstn (length (vo p0) - length op) (vo p0)) in *.
  destruct (alignWith (lc p0 ++ rtrimHspace pre ++ op) (lc p0 ++ vo p0 ++ sbv p0)) as [after|] eqn:A; [|discriminate].
  cbn [lift bind] in H. inversion H; subst raws'; clear H.
  apply alignWith_spec in A as (a & -> & Ba).
  destruct (rtrimHspace_split pre) as (b & Eb & Bb).
  assert (EV : vo p0 = rtrimHspace pre ++ b ++ op).
  { rewrite S at 1. rewrite Eb at 1. rewrite <- app_assoc. reflexivity. }
  right. exists (rtrimHspace pre), b, a. repeat split; auto using rtrimHspace_idem.
  rewrite <- EV, <- !app_assoc. reflexivity.
Qed.

(* the fix keeps everything but blanks (the leading comment of a commented-out assignment
   included), whatever the splitter's varnameOp looks like *)
Theorem spaceAfterVarname_blanks_only raws vn sp op p0 raws' :
  blankb (sbv p0) = true ->
  fixSpaceAfterVarname raws vn sp op p0 = Ok raws' -> Forall2 blank_eq raws raws'.
Proof.
  intros B2 H. destruct (spaceAfterVarname_exact _ _ _ _ _ _ H) as [->|(name & b & a & EV & _ & Bb & Ba & ->)].
  - apply Forall2_refl. reflexivity.
  - unfold replaceAfter. destruct (negb _); [apply Forall2_refl; reflexivity|].
    apply replace_first_blank_eq. unfold blank_eq. simpl app.
    rewrite !strip_blanks_app.
    rewrite (strip_blanks_blank _ B2), (strip_blanks_blank _ Bb), (strip_blanks_blank _ Ba).
    simpl. rewrite !app_nil_r. reflexivity.
Qed.

(* a commented-out assignment keeps its comment marker (it did not before /repo 42e6bf1) *)
Definition sav_raws : list str := [[35; 86; 32; 61; 9; 118]%N].             (* "#V =\tv" *)
Definition sav_parts : parts := mkParts [35]%N [86; 32; 61]%N [9]%N [118]%N [] [].
Lemma spaceAfterVarname_keeps_comment :
  fixSpaceAfterVarname sav_raws [86]%N [32]%N [61]%N sav_parts = Ok [[35; 86; 61; 9; 118]%N].   (* "#V=\tv" *)
Proof. vm_compute. reflexivity. Qed.
