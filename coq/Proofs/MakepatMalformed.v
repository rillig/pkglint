(* compile never panics or runs out of fuel, and it returns an error exactly
   for the patterns Spec/StrMatch.v calls malformed. *)
From PV Require Import Lib.Bytes Model.Makepat Spec.StrMatch
  Proofs.MakepatBasics Proofs.MakepatChain.
From Coq Require Import ZifyBool ZifyN ZifyNat.
Open Scope N_scope.

(* the negation flag does not influence well-formedness *)
Definition erase (st : pstate) : pstate :=
  match st with
  | PElem _ => PElem false
  | PChar _ => PChar false
  | PDash _ => PDash false
  | _ => st
  end.

Lemma erase_pnext st c : erase (pnext st c) = erase (pnext (erase st) c).
Proof.
  destruct st; cbn [erase pnext]; try reflexivity;
    repeat match goal with |- context [if ?b then _ else _] => destruct b end; reflexivity.
Qed.

Lemma malformed_erase pat : forall st st', erase st = erase st' -> malformed_from st pat = malformed_from st' pat.
Proof.
  induction pat as [|c pat IH]; intros st st' H; cbn [malformed_from].
  - destruct st, st'; cbn in H; try discriminate; reflexivity.
  - apply IH. rewrite erase_pnext, H, <- erase_pnext. reflexivity.
Qed.

Lemma class_loop_malformed rest chars : forall neg,
  malformed_from (PElem neg) rest
  = match class_loop rest chars with None => true | Some (_, rest') => malformed_from PTop rest' end.
Proof.
  apply class_loop_ind with
    (P := fun rest _ res => forall neg,
       malformed_from (PElem neg) rest
       = match res with None => true | Some (_, rest') => malformed_from PTop rest' end); clear rest chars.
  - reflexivity.
  - reflexivity.
  - intros x _ Hx neg. cbn [malformed_from pnext]. rewrite (proj2 (N.eqb_neq x 93) Hx). reflexivity.
  - intros x _ Hx neg. cbn [malformed_from pnext]. rewrite (proj2 (N.eqb_neq x 93) Hx). reflexivity.
  - intros x e r _ res Hx IH neg. rewrite <- (IH neg).
    cbn [malformed_from pnext]. rewrite (proj2 (N.eqb_neq x 93) Hx). reflexivity.
  - (* d starts the next element: PChar on d behaves like PElem on d *)
    intros x d r _ res Hx Hd IH neg. rewrite <- (IH neg).
    cbn [malformed_from pnext]. rewrite (proj2 (N.eqb_neq x 93) Hx). cbn [pnext].
    rewrite (proj2 (N.eqb_neq d 45) Hd). reflexivity.
Qed.

Lemma compile_single_lt p s lo hi : s < nlen p ->
  exists p2 next, compile_single p s lo hi = Some (p2, next) /\ next < nlen p2.
Proof.
  intro H. unfold compile_single. rewrite add_state_spec, to_state_id_id.
  destruct (add_transition_lt (p ++ [mkS [] false]) s (mkT lo hi (nlen p))) as (p2 & -> & L);
    [|exists p2, (nlen p); split; [reflexivity|]]; rewrite ?L, nlen_snoc; lia.
Qed.

Lemma compile_char_class_spec p rest s : s < nlen p ->
  match compile_char_class p rest s with
  | Ok None => malformed_from PList0 rest = true
  | Ok (Some (p2, next, rest2)) => next < nlen p2 /\ (length rest2 < length rest)%nat
                                   /\ malformed_from PList0 rest = malformed_from PTop rest2
  | _ => False
  end.
Proof.
  intro H. unfold compile_char_class, add_transitions. destruct (skip_byte 94 rest) as [neg r1] eqn:Hsk.
  apply skip_byte_spec in Hsk as [E Hn].
  assert (Em : malformed_from PList0 rest = malformed_from (PElem neg) r1).
  { rewrite E. destruct neg; [reflexivity|]. destruct r1 as [|c r]; [reflexivity|].
    cbn [malformed_from pnext]. rewrite E in Hn. rewrite <- Hn. reflexivity. }
  rewrite add_state_spec, to_state_id_id, Em, (class_loop_malformed r1 chars_empty neg).
  destruct (class_loop r1 chars_empty) as [[chars rest2]|] eqn:Hcl; [|reflexivity].
  destruct (add_transitions_list_lt (runs (if neg then map negb chars else chars))
              (p ++ [mkS [] false]) s (nlen p)) as (p2 & -> & L); [rewrite nlen_snoc; lia|].
  split; [rewrite L, nlen_snoc; lia|]. split; [|reflexivity].
  apply class_loop_some in Hcl as [Lc _]. rewrite E. destruct neg; cbn [length]; lia.
Qed.

Lemma compile_loop_spec fuel : forall rest p s, (length rest < fuel)%nat -> s < nlen p ->
  match compile_loop fuel p s rest with
  | Ok r => r = None <-> malformed_from PTop rest = true
  | _ => False
  end.
Proof.
  induction fuel as [|f IH]; intros rest p s Hf Hs; [lia|].
  destruct rest as [|ch rest1]; cbn [compile_loop length] in *.
  - unfold set_end. destruct (upd_n_lt p s (fun st => mkS (trans st) true) Hs) as [p' ->]. split; discriminate.
  - destruct (N.eqb_spec ch 42) as [->|H42].
    { destruct (add_transition_lt p s (mkT 0 255 s) Hs) as (p1 & -> & L). apply (IH rest1 p1 s); lia. }
    destruct (N.eqb_spec ch 63) as [->|H63].
    { destruct (compile_single_lt p s 0 255 Hs) as (p2 & next & -> & L). apply (IH rest1 p2 next); lia. }
    destruct (N.eqb_spec ch 92) as [->|H92].
    { destruct rest1 as [|ch2 rest2]; [easy|]. cbn [length] in Hf.
      destruct (compile_single_lt p s ch2 ch2 Hs) as (p2 & next & -> & L). apply (IH rest2 p2 next); lia. }
    destruct (N.eqb_spec ch 91) as [->|H91].
    { change (malformed_from PTop (91 :: rest1)) with (malformed_from PList0 rest1).
      pose proof (compile_char_class_spec p rest1 s Hs) as C.
      destruct (compile_char_class p rest1 s) as [[[[p2 next] rest2]|]| |]; try contradiction.
      - destruct C as (L & Lr & ->). apply IH; lia.
      - rewrite C. easy. }
    destruct (compile_single_lt p s ch ch Hs) as (p2 & next & -> & L).
    replace (malformed_from PTop (ch :: rest1)) with (malformed_from PTop rest1); [apply IH; lia|].
    cbn [malformed_from pnext]. rewrite (proj2 (N.eqb_neq ch 92) H92), (proj2 (N.eqb_neq ch 91) H91). reflexivity.
Qed.

Lemma compile_spec pat :
  match compile pat with Ok r => r = None <-> malformed pat = true | _ => False end.
Proof. unfold compile. rewrite add_state_spec. apply compile_loop_spec; [lia|reflexivity]. Qed.

Theorem compile_total : forall pat : str, exists r, compile pat = Ok r.
Proof. intro pat. pose proof (compile_spec pat) as H. destruct (compile pat); [eauto|contradiction..]. Qed.

Theorem compile_fails_iff_malformed : forall pat : str, compile pat = Ok None <-> malformed pat = true.
Proof.
  intro pat. pose proof (compile_spec pat) as H. destruct (compile pat) as [r| |]; try contradiction.
  rewrite <- H. split; congruence.
Qed.
