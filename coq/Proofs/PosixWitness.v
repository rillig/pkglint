(* Concrete programs: one that exercises most constructs of the fragment, and the
   seven that satisfy the hypotheses of C11 and that pkglint rejected until the
   repairs in /repo. *)
From Coq Require Import NArith ZArith List Bool.
From PV Require Import Lib.Bytes Model.ShellLex Model.ShellLR Spec.PosixSh Spec.Derivation.
Import ListNotations.

(* the executable reading of "pkglint accepts" *)
Definition model_accepts (p : program) : bool :=
  match shell_lex (tokens p) with Lexed ts => lr_accepts ts | _ => false end.

(* one run of the parser serves both: a certified parse of the terminals the lexer returns *)
Lemma certified_accepts p :
  shell_lex (tokens p) = Lexed (terms p) -> lr_accepts_certified (terms p) = true -> model_accepts p = true.
Proof.
  unfold model_accepts, lr_accepts, lr_accepts_certified. intros ->.
  destruct (lr_parse_terms (terms p)); [trivial | discriminate ..].
Qed.

Definition wd (s : str) : tok := mkTok s WkPlain.
Definition w_x := wd [120]%N.                       (* x *)
Definition w_a := wd [97]%N.                        (* a *)
Definition w_b := wd [98]%N.                        (* b *)
Definition w_i := wd [105]%N.                       (* i *)
Definition w_f := wd [102]%N.                       (* f *)
Definition w_echo := wd [101; 99; 104; 111]%N.      (* echo *)
Definition w_out := wd [111; 117; 116]%N.           (* out *)
Definition w_esac := wd s_esac.                     (* esac, as an argument *)
Definition w_in := wd s_in.                         (* in, as an argument *)
Definition w_var := wd [86; 61; 36; 36; 120]%N.     (* V=$$x *)
Definition w_dollar := wd [36; 36; 120]%N.          (* $$x *)

Definition simple (ws : list tok) : cmd := CSimple [] (map SWord ws).
Definition one (c : cmd) : seq := QOne (AOne false (PCmd c)).
Definition semi (c : cmd) : clist := CL (one c) (Some SepSemi).
Definition bare (c : cmd) : clist := CL (one c) None.

(* if a ; then for i in x in ; do case $$x in ( a | b ) echo esac ;; x ) V=$$x echo ; esac ; done ; fi > out 2>> out
   && f ( ) { echo ; } | ( ! echo & ) ; while a ; do echo ; done *)
Definition ex_case : cmd :=
  CCompound (KCase w_dollar
    (CICons true w_a [w_b] (BSome (bare (simple [w_echo; w_esac])))
      (CILast false w_x [] (BSome (semi (CSimple [w_var] [SWord w_echo])))))) [].
Definition ex_for : cmd := CCompound (KFor w_i (ForIn [w_x; w_in]) (semi ex_case)) [].
Definition ex_if : cmd :=
  CCompound (KIf (semi (simple [w_a])) (semi ex_for) ENone)
    [mkRedir None RGt w_out; mkRedir (Some [50]%N) RGtGt w_out].
Definition ex_fun : cmd := CFuncDef w_f (KBrace (semi (simple [w_echo]))) [].
Definition ex_sub : cmd :=
  CCompound (KSubshell (CL (QOne (AOne true (PCmd (simple [w_echo])))) (Some SepAmp))) [].
Definition ex_while : cmd := CCompound (KWhile (semi (simple [w_a])) (semi (simple [w_echo]))) [].
Definition ex_program : program :=
  CL (QSeq (QOne (AAnd (AOne false (PCmd ex_if)) false (PPipe (PCmd ex_fun) ex_sub))) SepSemi
       (AOne false (PCmd ex_while))) None.

Lemma ex_program_ok :
  wf_words ex_program = true /\ supported ex_program = true /\ faithful ex_program = true /\
  length (tokens ex_program) = 58%nat /\ model_accepts ex_program = true /\
  lr_accepts_certified (terms ex_program) = true.
Proof.
  assert (Hlex : shell_lex (tokens ex_program) = Lexed (terms ex_program)) by (vm_compute; reflexivity).
  assert (Hlr : lr_accepts_certified (terms ex_program) = true) by (vm_compute; reflexivity).
  repeat apply conj; [vm_compute; reflexivity .. | exact (certified_accepts _ Hlex Hlr) | exact Hlr].
Qed.

Definition w_fi := wd s_fi.
Definition w_if := wd s_if.
Definition w_bc := wd [98; 61; 99]%N.               (* b=c *)

(* for i ; do echo ; done *)
Definition was_for_semi : program := bare (CCompound (KFor w_i ForSemiDo (semi (simple [w_echo]))) []).
(* V=$$x fi        -- POSIX: a command named fi, run with V set *)
Definition was_name_after_assignment : program := bare (CSimple [w_var] [SWord w_fi]).
(* case x in a ) ;; if | b=c ) echo ;; b=c ) ;; esac   -- a reserved word and an
   assignment-shaped word as patterns *)
Definition was_reserved_pattern : program :=
  bare (CCompound (KCase w_x (CICons false w_a [] BNone
                              (CICons false w_if [w_bc] (BSome (bare (simple [w_echo])))
                               (CICons false w_bc [] BNone CINil)))) []).
(* { case x in esac } *)
Definition was_after_esac : program :=
  bare (CCompound (KBrace (bare (CCompound (KCase w_x CINil) []))) []).
(* case x in esac | { echo ; } *)
Definition was_pipe_after_case : program :=
  CL (QOne (AOne false (PPipe (PCmd (CCompound (KCase w_x CINil) []))
                              (CCompound (KBrace (semi (simple [w_echo]))) [])))) None.
(* case x in a ) echo ;; esac ; ( { echo ; } ) *)
Definition was_paren_after_case : program :=
  CL (QSeq (one (CCompound (KCase w_x (CICons false w_a [] (BSome (bare (simple [w_echo]))) CINil)) []))
           SepSemi
           (AOne false (PCmd (CCompound (KSubshell (bare (CCompound (KBrace (semi (simple [w_echo]))) []))) []))))
     None.
(* > out echo esac *)
Definition was_initial_counters : program :=
  bare (CSimple [] [SRedir (mkRedir None RGt w_out); SWord w_echo; SWord w_esac]).

Definition former_witnesses : list program :=
  [was_for_semi; was_name_after_assignment; was_reserved_pattern; was_after_esac;
   was_pipe_after_case; was_paren_after_case; was_initial_counters].

Lemma repaired_accepted :
  forallb (fun p => wf_words_posix p && faithful p && model_accepts p && lr_accepts_certified (terms p))
          former_witnesses = true.
Proof.
  apply forallb_forall. intros p Hp.
  assert (H : shell_lex (tokens p) = Lexed (terms p) /\ lr_accepts_certified (terms p) = true /\
              wf_words_posix p && faithful p = true).
  { repeat destruct Hp as [<- | Hp]; [vm_compute; auto .. | contradiction]. }
  destruct H as (Hlex & Hlr & Hok). rewrite Hok, Hlr, (certified_accepts p Hlex Hlr). reflexivity.
Qed.
