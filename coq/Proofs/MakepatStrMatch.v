(* match_is_strmatch_partial: for a pattern without the "x-]" quirk, bmake's Str_Match
   computes the matching of the element list; hence Compile + Match = Str_Match. *)
From PV Require Import Lib.Bytes Lib.ByteRange Model.Makepat Spec.StrMatch
  Proofs.MakepatBasics Proofs.MakepatChain
  Proofs.MakepatClass.
From Coq Require Import ZifyBool ZifyN ZifyNat.
Open Scope N_scope.

(* The loop Str_Match runs after a star. *)
Definition star_try (f : nat) (pat' : str) : str -> option bool :=
  fix try (s : str) : option bool :=
    match s with
    | [] => Some false
    | _ :: s' => match str_match_fuel f s pat' with
                 | Some true => Some true
                 | Some false => try s'
                 | None => None
                 end
    end.

Lemma smf_star f s pat1 :
  str_match_fuel (S f) s (42 :: pat1)
  = match skip_stars pat1 with [] => Some true | x :: l => star_try f (x :: l) s end.
Proof. reflexivity. Qed.

Lemma smf_nil f s : str_match_fuel (S f) s [] = Some (match s with [] => true | _ => false end).
Proof. reflexivity. Qed.

Fixpoint any_suffix (g : str -> bool) (s : str) : bool :=
  match s with [] => false | _ :: s' => g s || any_suffix g s' end.

Lemma star_try_spec f pat' g : (forall s, is_bytes s -> str_match_fuel f s pat' = Some (g s)) ->
  forall s, is_bytes s -> star_try f pat' s = Some (any_suffix g s).
Proof.
  intros H. induction s as [|c s IH]; intro Hs; [reflexivity|].
  cbn [star_try any_suffix]. rewrite (H _ Hs). destruct (g (c :: s)); [reflexivity|].
  apply IH. exact (Forall_inv_tail Hs).
Qed.

Lemma gmatch_star_suffix es s : gmatch (EStar :: es) s = any_suffix (gmatch es) s || gmatch es [].
Proof.
  induction s as [|c s IH].
  - rewrite gmatch_star. cbn [any_suffix]. rewrite orb_false_r. reflexivity.
  - rewrite gmatch_star, IH. cbn [any_suffix]. rewrite orb_assoc. reflexivity.
Qed.

Lemma rb_top_step c rest : c <> 92 -> c <> 91 ->
  range_to_rbracket_from PTop (c :: rest) = range_to_rbracket_from PTop rest.
Proof. intros H1 H2. cbn [range_to_rbracket_from pnext orb]. rewrite (neqb _ _ H1), (neqb _ _ H2). reflexivity. Qed.

Lemma in_ranges_byte c sc : in_ranges [(c, c)] sc = (c =? sc).
Proof. unfold in_ranges. cbn [existsb fst snd]. lia. Qed.

Lemma smf_class f sc s rest neg r1 : skip_byte 94 rest = (neg, r1) ->
  str_match_fuel (S f) (sc :: s) (91 :: rest)
  = match list_scan neg sc r1 with
    | LNoMatch => Some false
    | LReturn b => Some b
    | LMatch rest2 => str_match_fuel f s rest2
    end.
Proof.
  intro H. apply skip_byte_spec in H as [E Hn]. cbn [str_match_fuel]. change (91 =? 42) with false. cbv iota zeta.
  change (91 =? 63) with false. change (91 =? 91) with true. cbv iota. rewrite <- Hn.
  replace (if neg then tl rest else rest) with r1 by (rewrite E; destruct neg; reflexivity). reflexivity.
Qed.

Lemma smf_ranges pat rs es : parses pat (ERanges rs :: es) -> range_to_rbracket_from PTop pat = false ->
  exists rest, parses rest es /\ (length rest < length pat)%nat /\ range_to_rbracket_from PTop rest = false /\
    forall f s, is_bytes s ->
      str_match_fuel (S f) s pat
      = match s with
        | [] => Some false
        | sc :: s1 => if in_ranges rs sc then str_match_fuel f s1 rest else Some false
        end.
Proof.
  intros P G.
  inversion P as [| |rest ? P'|c rest ? P'|rest neg r1 chars rest2 ? Hsk Hcl P'|c rest ? H42 H63 H92 H91 P']; subst.
  - exists rest. rewrite rb_top_step in G by discriminate. repeat split; [exact P'|cbn [length]; lia|exact G|].
    intros f [|sc s] Hs; [reflexivity|]. apply Forall_inv in Hs.
    replace (in_ranges [(0, 255)] sc) with true by (unfold in_ranges; cbn [existsb fst snd]; lia). reflexivity.
  - exists rest. repeat split; [exact P'|cbn [length]; lia|exact G|].
    intros f [|sc s] Hs; [reflexivity|]. rewrite in_ranges_byte. reflexivity.
  - exists rest2. pose proof (list_scan_class rest neg r1 chars rest2) as C.
    split; [exact P'|]. split; [|split; [apply (C 0 Hsk Hcl G); lia|]].
    + apply skip_byte_spec in Hsk as [-> _]. apply class_loop_some in Hcl as [L _].
      destruct neg; cbn [length]; lia.
    + intros f [|sc s] Hs; [reflexivity|]. apply Forall_inv in Hs.
      rewrite (smf_class _ _ _ _ _ _ Hsk), (proj2 (C sc Hsk Hcl G Hs)).
      destruct (in_ranges _ sc); reflexivity.
  - exists rest. rewrite rb_top_step in G by assumption. repeat split; [exact P'|cbn [length]; lia|exact G|].
    intros f s Hs. cbn [str_match_fuel]. rewrite (neqb _ _ H42). destruct s as [|sc s]; [reflexivity|].
    rewrite (neqb _ _ H63), (neqb _ _ H91), (neqb _ _ H92), in_ranges_byte. reflexivity.
Qed.

Lemma parses_head_star l es : parses (42 :: l) es -> exists es', es = EStar :: es' /\ parses l es'.
Proof. intro P. inversion P; subst; try congruence. eauto. Qed.

Lemma parses_head_nonstar x l es : parses (x :: l) es -> x <> 42 -> exists rs es', es = ERanges rs :: es'.
Proof. intros P Hx. inversion P; subst; try congruence; eauto. Qed.

Lemma strmatch_gmatch es : forall pat, parses pat es ->
  range_to_rbracket_from PTop pat = false ->
  forall fuel s, (length pat < fuel)%nat -> is_bytes s ->
  str_match_fuel fuel s pat = Some (gmatch es s).
Proof.
  induction es as [|[|rs] es IH]; intros pat P G fuel s Hf Hs; (destruct fuel as [|f]; [lia|]).
  - inversion P. apply smf_nil.
  - inversion P as [|rest ? P'| | | |]; subst. rewrite rb_top_step in G by discriminate. cbn [length] in Hf.
    rewrite smf_star. destruct rest as [|x l]; [inversion P'; rewrite gmatch_star_nil_true; reflexivity|].
    cbn [skip_stars]. destruct (N.eqb_spec x 42) as [->|Hx].
    + (* another star: the same loop with the same fuel *)
      destruct (parses_head_star _ _ P') as (es' & -> & _).
      rewrite gmatch_star_star, <- smf_star. apply IH; try assumption. cbn [length] in *. lia.
    + destruct (parses_head_nonstar _ _ _ P' Hx) as (rs & es' & ->).
      rewrite (star_try_spec f (x :: l) (gmatch (ERanges rs :: es'))), gmatch_star_suffix;
        [|intros s' Hs'; apply IH; try assumption; lia|exact Hs].
      cbn [gmatch]. rewrite orb_false_r. reflexivity.
  - destruct (smf_ranges _ _ _ P G) as (rest & P' & L & G' & E). rewrite E by exact Hs.
    destruct Hs as [|sc s Hsc Hs]; [reflexivity|]. cbn [gmatch].
    destruct (in_ranges rs sc); [apply IH; try assumption; lia|reflexivity].
Qed.

Theorem match_is_strmatch_partial : forall (p : str) (a : pattern) (s : str),
  is_bytes s -> range_to_rbracket p = false ->
  compile p = Ok (Some a) ->
  exists b, matchp a s = Ok b /\ str_match p s = Some b.
Proof.
  intros p a s Hs G Hc.
  destruct (compile_chain p a Hc) as (es & P & ->).
  exists (gmatch es s). split; [apply matchp_chain; exact Hs|].
  unfold str_match. apply (strmatch_gmatch es p P G); [lia|exact Hs].
Qed.
