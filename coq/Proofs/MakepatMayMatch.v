(* mayMatchNumber: exact (hence sound) for patterns without the "x-]" quirk. *)
From PV Require Import Lib.Bytes Lib.ByteRange Model.Makepat Spec.StrMatch Spec.CNumber
  Proofs.MakepatNFA Proofs.MakepatChain
  Proofs.MakepatStrMatch Proofs.MakepatMalformed Proofs.MakepatReach
  Proofs.MakepatIntersect3 Proofs.NumberExact.
From Coq Require Import ZifyBool ZifyN ZifyNat.
Open Scope N_scope.

(* boolean checks of well-formedness, for the Number() table *)
Definition wf_b (a : pattern) : bool :=
  match a with [] => false | _ => forallb (fun st => forallb (fun t => tto t <? nlen a) (trans st)) a end.
Definition ranges_b (a : pattern) : bool :=
  forallb (fun st => forallb (fun t => (tmin t <=? tmax t) && (tmax t <? 256)) (trans st)) a.

Lemma wf_b_wf a : wf_b a = true -> wf a.
Proof.
  unfold wf_b. intro H. split; [intro E; rewrite E in H; discriminate|].
  destruct a as [|st0 a']; [discriminate|]. rewrite forallb_forall in H.
  intros st Ist t It. specialize (H st Ist). rewrite forallb_forall in H. specialize (H t It). lia.
Qed.

Lemma ranges_b_ok a : ranges_b a = true -> ranges_ok a.
Proof.
  unfold ranges_b. rewrite forallb_forall. intros H st Ist t It. specialize (H st Ist).
  rewrite forallb_forall in H. specialize (H t It). lia.
Qed.

Lemma number_wf : wf number.
Proof. apply wf_b_wf. vm_compute. reflexivity. Qed.

Lemma number_ranges : ranges_ok number.
Proof. apply ranges_b_ok. vm_compute. reflexivity. Qed.

Lemma is_c_number_nil : is_c_number [] = false.
Proof. vm_compute. reflexivity. Qed.

Theorem may_match_number_exact : forall p : str,
  range_to_rbracket p = false ->
  exists b e, may_match_number p = Ok (b, e) /\
    (e = true <-> malformed p = true) /\
    (e = false ->
     (b = true <-> exists s, is_bytes s /\ str_match p s = Some true /\ is_c_number s = true)).
Proof.
  intros p G. unfold may_match_number. destruct p as [|c0 p0] eqn:Ep.
  - exists false, false. split; [reflexivity|]. split; [split; discriminate|]. intros _. split; [discriminate|].
    intros (s & _ & M & Nn). unfold str_match in M. cbn in M. destruct s; [|discriminate].
    rewrite is_c_number_nil in Nn. discriminate.
  - rewrite <- Ep in *. clear Ep c0 p0.
    destruct (compile_total p) as [r Ec]. rewrite Ec. destruct r as [a|].
    + assert (Hm : malformed p = false).
      { destruct (malformed p) eqn:Em; [|reflexivity]. apply compile_fails_iff_malformed in Em. congruence. }
      destruct (compile_chain p a Ec) as (es & P & ->).
      pose proof (chain_wf es) as Hwa. set (a := chain_from 0 [] es) in *.
      destruct (intersect_exact a number Hwa number_wf) as (i & Ei & Hwi & Hri & Hi).
      rewrite Ei. destruct (can_match_exact i Hwi (Hri (or_intror number_ranges))) as (b & Eb & Hb).
      rewrite Eb. exists b, false. split; [reflexivity|]. split; [rewrite Hm; split; discriminate|]. intros _.
      assert (Hkey : forall s, is_bytes s ->
                (matchp i s = Ok true <-> str_match p s = Some true /\ is_c_number s = true)).
      { intros s Hs. rewrite Hi.
        destruct (match_is_strmatch_partial p a s Hs G Ec) as (x & Mx & ->).
        rewrite (matchp_accepts a s Hwa) in Mx. injection Mx as <-.
        pose proof (number_exact s) as Ne. rewrite (matchp_accepts number s number_wf) in Ne. injection Ne as <-.
        destruct (accepts a 0 s), (accepts number 0 s); cbn; intuition congruence. }
      rewrite Hb. split; intros (s & Hs & M); exists s; (split; [exact Hs|]); apply (Hkey s Hs); exact M.
    + exists true, true. split; [reflexivity|]. split; [|discriminate].
      split; [intros _; apply compile_fails_iff_malformed; exact Ec|reflexivity].
Qed.

(* the direction the caller relies on: "false" means that no numeric word is matched *)
Corollary may_match_number_sound : forall p : str,
  range_to_rbracket p = false ->
  may_match_number p = Ok (false, false) ->
  forall s, is_bytes s -> str_match p s = Some true -> is_c_number s = false.
Proof.
  intros p G H s Hs M. destruct (may_match_number_exact p G) as (b & e & E & _ & Hb).
  rewrite H in E. injection E as <- <-. destruct (is_c_number s) eqn:Nn; [|reflexivity].
  assert (C : false = true) by (apply (Hb eq_refl); exists s; auto). discriminate.
Qed.

Theorem compile_wf p a : compile p = Ok (Some a) -> wf a.
Proof. intros Hc. destruct (compile_chain p a Hc) as (es & _ & ->). apply chain_wf. Qed.

Lemma number_wf_ranges : wf number /\ ranges_ok number.
Proof. exact (conj number_wf number_ranges). Qed.
