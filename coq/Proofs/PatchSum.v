(* Proofs for C18 (Model/PatchSum.v against Spec/PatchSumSpec.v); reuses C09. *)
From PV Require Import Lib.Bytes Lib.LinesLib Model.Lines Proofs.LinesLoop
  Model.PatchSum Spec.PatchSumSpec.
Open Scope N_scope.

Lemma contains_is_has_tag s : contains s skip_text = has_tag s.
Proof.
  unfold has_tag. induction s as [|c s IH]; [reflexivity|].
  cbn [contains suffixes existsb]. rewrite IH. reflexivity.
Qed.

Definition keep (r : str) : bool := negb (contains r skip_text).

Lemma hashed_bytes_filter ls : hashed_bytes ls = concat (filter keep (flat_map raws ls)).
Proof.
  unfold hashed_bytes. rewrite !flat_map_concat_map, <- (map_map raws (filter keep)). f_equal.
  apply concat_filter_map.
Qed.

Lemma keep_concat r : concat (if keep r then [r] else []) = keep_line r.
Proof.
  unfold keep, keep_line. rewrite contains_is_has_tag.
  destruct (has_tag r); simpl; [reflexivity|apply app_nil_r].
Qed.

Lemma split_filter_lines s : forall cur,
  concat (filter keep (filter nonempty (split_after_acc cur s))) = filter_lines cur s.
Proof.
  induction s as [|c s IH]; intros cur.
  - cbn [split_after_acc filter_lines filter]. destruct cur as [|a cur].
    + reflexivity.
    + cbn [nonempty is_empty negb filter]. apply keep_concat.
  - cbn [split_after_acc filter_lines]. unfold nl. destruct (c =? 10).
    + cbn [filter]. replace (nonempty (cur ++ [c])) with true by (destruct cur; reflexivity).
      cbn [filter]. rewrite <- IH, <- keep_concat.
      destruct (keep (cur ++ [c])); simpl; [rewrite app_nil_r|]; reflexivity.
    + apply IH.
Qed.

Theorem digest_input_exact s mk ls e :
  convert_to_logical_lines s mk = Ok (ls, e) -> hashed_bytes ls = makepatchsum_filter s.
Proof.
  intros Hc. rewrite hashed_bytes_filter, (raws_are_raw_lines _ _ _ _ Hc).
  apply split_filter_lines.
Qed.

Section WithHash.
Variable H : str -> str.

Theorem compute_is_makepatchsum s mk ls e :
  convert_to_logical_lines s mk = Ok (ls, e) -> compute_patch_sha1_hex H ls = makepatchsum H s.
Proof.
  intros Hc. unfold compute_patch_sha1_hex, makepatchsum. rewrite (digest_input_exact _ _ _ _ Hc). reflexivity.
Qed.

Theorem check_cases s d :
  check_patch_sha1 H (Some s) d =
  if str_eqb d (makepatchsum H s) then Silent else Differs d (makepatchsum H s).
Proof.
  unfold check_patch_sha1. destruct (convert_total s false) as [ls Hc]. rewrite Hc.
  rewrite (compute_is_makepatchsum _ _ _ _ Hc). reflexivity.
Qed.

Theorem accept_iff_equal s d :
  check_patch_sha1 H (Some s) d = Silent <-> d = makepatchsum H s.
Proof.
  rewrite check_cases, <- str_eqb_spec. destruct (str_eqb d (makepatchsum H s)); split; congruence.
Qed.

Theorem reject_reports_digest s d :
  d <> makepatchsum H s -> check_patch_sha1 H (Some s) d = Differs d (makepatchsum H s).
Proof.
  intros Hd. rewrite check_cases. destruct (str_eqb d (makepatchsum H s)) eqn:E; [|reflexivity].
  apply str_eqb_spec in E. contradiction.
Qed.

Theorem check_total p d : check_patch_sha1 H p d <> LoadPanic.
Proof.
  destruct p as [s|]; [|discriminate]. rewrite check_cases. destruct (str_eqb _ _); discriminate.
Qed.
End WithHash.

Lemma index_from_spec s sub : forall i j, index_from s sub i = Some j ->
  exists k, j = (i + k)%nat /\ s = firstn k s ++ sub ++ skipn (k + length sub) s.
Proof.
  induction s as [|c s IH]; intros i j; cbn [index_from]; destruct (has_prefix sub _) eqn:E.
  1, 3: intros [= <-]; exists 0%nat; split; [lia|exact (has_prefix_skipn _ _ E)].
  - discriminate.
  - intros Hj. destruct (IH _ _ Hj) as [k [-> Hs]]. exists (S k). split; [lia|].
    cbn [firstn Nat.add skipn app]. f_equal. exact Hs.
Qed.

Lemma replace_once_spec s from to r :
  replace_once s from to = (true, r) ->
  exists pre post, s = pre ++ from ++ post /\ r = pre ++ to ++ post.
Proof.
  unfold replace_once. destruct (str_index s from) as [i|] eqn:Ei; [|discriminate].
  destruct (str_last_index s from) as [j|]; [|discriminate].
  destruct (Nat.eqb i j); [|discriminate]. intros [= <-].
  destruct (index_from_spec _ _ _ _ Ei) as [k [-> Hs]]. eauto.
Qed.

Lemma replace_once_false s from to r : replace_once s from to = (false, r) -> r = s.
Proof.
  unfold replace_once. destruct (str_index s from); [|intros Hr; inversion Hr; reflexivity].
  destruct (str_last_index s from); [|intros Hr; inversion Hr; reflexivity].
  destruct (Nat.eqb _ _); intros Hr; inversion Hr; reflexivity.
Qed.

Theorem autofix_replace_spec texts from to :
  autofix_replace texts from to = texts \/
  exists before pre post after,
    texts = before ++ (pre ++ from ++ post) :: after /\
    autofix_replace texts from to = before ++ (pre ++ to ++ post) :: after.
Proof.
  unfold autofix_replace. destruct (_ =? 1); [|left; reflexivity].
  induction texts as [|t rest IH]; [left; reflexivity|].
  cbn [replace_in_texts]. destruct (replace_once t from to) as [[|] r] eqn:E.
  - right. destruct (replace_once_spec _ _ _ _ E) as [pre [post [-> ->]]].
    exists [], pre, post, rest. split; reflexivity.
  - destruct IH as [IH|[before [pre [post [after [H1 H2]]]]]].
    + left. rewrite IH. reflexivity.
    + right. exists (t :: before), pre, post, after. rewrite H2, H1. split; reflexivity.
Qed.

Fixpoint occ_free (sub s : str) : bool :=
  negb (has_prefix sub s) && match s with [] => true | _ :: t => occ_free sub t end.
(* sub occurs at no position of pre ++ x that lies inside pre *)
Fixpoint pre_free (sub pre x : str) : bool :=
  match pre with
  | [] => true
  | c :: p => negb (has_prefix sub (c :: p ++ x)) && pre_free sub p x
  end.

Lemma occ_free_scans sub t : occ_free sub t = true ->
  forall k, count_from t sub k = 0 /\ last_index_from t sub k = None.
Proof.
  induction t as [|c t IH]; intros Hf k; cbn [occ_free] in Hf;
    apply andb_true_iff in Hf as [H1 H2]; apply negb_true_iff in H1; cbn [count_from last_index_from].
  - rewrite H1. auto.
  - rewrite (proj2 (IH H2 _)), H1. destruct k; split; try apply IH; auto.
Qed.

Lemma sole_occurrence sub pre c x :
  has_prefix sub (c :: x) = true -> occ_free sub x = true -> pre_free sub pre (c :: x) = true ->
  forall i, index_from (pre ++ c :: x) sub i = Some (i + length pre)%nat /\
            last_index_from (pre ++ c :: x) sub i = Some (i + length pre)%nat /\
            count_from (pre ++ c :: x) sub 0 = 1.
Proof.
  intros Hx Hf. induction pre as [|a p IH]; intros Hp i; cbn [app length index_from last_index_from count_from].
  - destruct (occ_free_scans _ _ Hf (length sub - 1)) as [-> _], (occ_free_scans _ _ Hf (S i)) as [_ ->].
    rewrite Hx, Nat.add_0_r. auto.
  - cbn [pre_free app] in Hp. apply andb_true_iff in Hp as [H1 H2]. apply negb_true_iff in H1.
    destruct (IH H2 (S i)) as (-> & -> & ->). rewrite H1, Nat.add_succ_r. auto.
Qed.

Lemma has_prefix_app sub post : has_prefix sub (sub ++ post) = true.
Proof. apply has_prefix_true. eauto. Qed.

Lemma autofix_replace_unique pre b sub' post to :
  pre_free (b :: sub') pre ((b :: sub') ++ post) = true ->
  occ_free (b :: sub') (sub' ++ post) = true ->
  autofix_replace [pre ++ (b :: sub') ++ post] (b :: sub') to = [pre ++ to ++ post].
Proof.
  intros Hp Hf.
  destruct (sole_occurrence _ pre b (sub' ++ post) (has_prefix_app (b :: sub') post) Hf Hp 0%nat) as (Ei & El & Ec).
  unfold autofix_replace. cbn [fold_left str_count replace_in_texts app] in *. rewrite N.add_0_l, Ec.
  unfold replace_once, str_index, str_last_index. rewrite Ei, El, Nat.eqb_refl.
  cbn [N.eqb Pos.eqb Nat.add]. rewrite firstn_app_exact.
  change (b :: sub' ++ post) with ((b :: sub') ++ post). rewrite (app_assoc pre (b :: sub')), <- app_length, skipn_app_exact.
  reflexivity.
Qed.

Lemma has_prefix_cons h rest c s : has_prefix (h :: rest) (c :: s) = (h =? c) && has_prefix rest s.
Proof. unfold has_prefix. cbn [strip_prefix]. destruct (h =? c); reflexivity. Qed.

Lemma pre_free_head h rest pre x :
  forallb (fun c => negb (c =? h)) pre = true -> pre_free (h :: rest) pre x = true.
Proof.
  induction pre as [|c p IH]; intros Hf; [reflexivity|]. cbn [forallb] in Hf.
  apply andb_true_iff in Hf as [H1 H2]. apply negb_true_iff in H1.
  cbn [pre_free app]. rewrite has_prefix_cons, N.eqb_sym, H1, (IH H2). reflexivity.
Qed.

Lemma occ_free_app sub p q : pre_free sub p q = true -> occ_free sub q = true -> occ_free sub (p ++ q) = true.
Proof.
  intros Hp Hq. induction p as [|c p IH]; [exact Hq|]. cbn [pre_free] in Hp.
  apply andb_true_iff in Hp as [H1 H2]. cbn [app occ_free]. rewrite H1. exact (IH H2).
Qed.

(* an occurrence would put the second byte of sub somewhere in s *)
Lemma occ_free_second h g rest s :
  forallb (fun c => negb (c =? g)) s = true -> occ_free (h :: g :: rest) s = true.
Proof.
  induction s as [|c t IH]; intros Hs; [reflexivity|]. cbn [forallb] in Hs.
  apply andb_true_iff in Hs as [_ Ht]. cbn [occ_free]. rewrite (IH Ht), andb_true_r, has_prefix_cons.
  destruct t as [|c' t']; [destruct (h =? c); reflexivity|]. cbn [forallb] in Ht.
  apply andb_true_iff in Ht as [Hc' _]. apply negb_true_iff in Hc'.
  rewrite has_prefix_cons, (N.eqb_sym g c'), Hc', andb_false_r. reflexivity.
Qed.

(* SHA1 (name) = hash LF : a patch entry as the distinfo grammar admits it
   (the line regex in distinfo.go): no closing parenthesis in the name, no blank
   in the hash *)
Definition sha1_open : str := [83; 72; 65; 49; 32; 40].
Definition entry_line (name hash : str) : str := (sha1_open ++ name) ++ (entry_sep ++ hash) ++ [10].
Definition name_ok (name : str) : bool := forallb (fun c => negb (c =? 41)) name.
Definition hash_ok (hash : str) : bool := forallb (fun c => negb (c =? 32)) hash.

Lemma replace_after_entry name d h :
  name_ok name = true -> hash_ok d = true ->
  autofix_replace_after entry_sep [entry_line name d] d h = [entry_line name h].
Proof.
  intros Hn Hd. unfold autofix_replace_after, entry_line, entry_sep.
  change ([41; 32; 61; 32] ++ d) with (41 :: [32; 61; 32] ++ d).
  change ([41; 32; 61; 32] ++ h) with (41 :: [32; 61; 32] ++ h).
  apply autofix_replace_unique.
  - apply pre_free_head. unfold sha1_open. rewrite forallb_app. unfold name_ok in Hn. rewrite Hn. reflexivity.
  - rewrite <- app_assoc. apply occ_free_app; [apply pre_free_head; reflexivity|].
    apply occ_free_second. rewrite forallb_app. unfold hash_ok in Hd. rewrite Hd. reflexivity.
Qed.

Section Fix.
Variable H : str -> str.

(* C18: what the fix writes is the makepatchsum digest, and that digest is accepted;
   ReplaceAfter changes nothing else *)
Theorem fix_then_accept s d h :
  check_patch_sha1 H (Some s) d = Differs d h ->
  h = makepatchsum H s /\ check_patch_sha1 H (Some s) h = Silent /\
  forall texts,
    fix_distinfo_line texts (Differs d h) = texts \/
    exists before pre post after,
      texts = before ++ (pre ++ (entry_sep ++ d) ++ post) :: after /\
      fix_distinfo_line texts (Differs d h) = before ++ (pre ++ (entry_sep ++ h) ++ post) :: after.
Proof.
  rewrite check_cases. destruct (str_eqb d (makepatchsum H s)); [discriminate|].
  intros Hd; inversion Hd; subst. split; [reflexivity|]. split.
  - apply accept_iff_equal. reflexivity.
  - intros texts. apply autofix_replace_spec.
Qed.

(* C18: for every entry line of the distinfo grammar the fix writes exactly the digest,
   and the entry is accepted afterwards, also when the stale hash occurs a second
   time in the line (e.g. in the file name) *)
Theorem fix_always s d h name :
  name_ok name = true -> hash_ok d = true ->
  check_patch_sha1 H (Some s) d = Differs d h ->
  fix_distinfo_line [entry_line name d] (Differs d h) = [entry_line name h] /\
  h = makepatchsum H s /\ check_patch_sha1 H (Some s) h = Silent.
Proof.
  intros Hn Hd Hc. destruct (fix_then_accept _ _ _ Hc) as [Hh [Hs _]].
  split; [|split; assumption]. cbn [fix_distinfo_line]. apply replace_after_entry; assumption.
Qed.
End Fix.

Lemma autofix_replace_refuses texts from to :
  fold_left (fun n t => n + str_count t from) texts 0 <> 1 -> autofix_replace texts from to = texts.
Proof. unfold autofix_replace. intros Hn. apply N.eqb_neq in Hn. rewrite Hn. reflexivity. Qed.

(* C18, Package.AutofixDistinfo: the entry of a patch whose own digest is not the new one is never touched: in
   particular a correct entry of another patch with the same old digest stays correct *)
Theorem autofix_distinfo_keeps lines old new j texts other :
  nth_error lines j = Some (texts, Some other) -> other <> new ->
  nth_error (autofix_distinfo lines old new) j = Some texts.
Proof.
  intros Hj Hn. unfold autofix_distinfo. rewrite nth_error_map, Hj. simpl.
  destruct (str_eqb other new) eqn:E; [apply str_eqb_spec in E; contradiction|reflexivity].
Qed.

Theorem autofix_distinfo_partial lines old new j l :
  nth_error lines j = Some l ->
  fold_left (fun n t => n + str_count t old) (fst l) 0 <> 1 ->
  nth_error (autofix_distinfo lines old new) j = Some (fst l).
Proof.
  intros Hj Hn. unfold autofix_distinfo. rewrite nth_error_map, Hj. simpl.
  rewrite (autofix_replace_refuses _ _ _ Hn). destruct (snd l) as [o|]; [destruct (negb _)|]; reflexivity.
Qed.
