(* The model never runs out of fuel: the rounds allotted to the closure of
   Var.Refs (one per known variable name) always suffice.  Pigeonhole: the set
   is duplicate-free, stays inside the known names, and every round that is not
   yet closed adds a name. *)
From PV Require Import Lib.Bytes Model.Redundant Proofs.Redundant.

Lemma set_add_NoDup l w : NoDup l -> NoDup (set_add l w).
Proof.
  intro H. unfold set_add. destruct (existsb (str_eqb w) l) eqn:E; [exact H|].
  apply (NoDup_Add (Add_app w l [])). rewrite app_nil_r. split; [exact H|].
  rewrite <- existsb_str_eqb_In, E. discriminate.
Qed.

Lemma set_add_all_NoDup ws : forall l, NoDup l -> NoDup (set_add_all l ws).
Proof.
  induction ws as [|w ws IH]; intros l H; simpl; [exact H|].
  unfold set_add_all in *. simpl. apply IH. apply set_add_NoDup. exact H.
Qed.

Lemma set_add_all_appends ws : forall l, exists e, set_add_all l ws = l ++ e.
Proof.
  induction ws as [|w ws IH]; intro l; [exists []; symmetry; apply app_nil_r|].
  unfold set_add_all in *. simpl. destruct (IH (set_add l w)) as [e E]. rewrite E.
  unfold set_add. destruct (existsb (str_eqb w) l); [exists e; reflexivity|].
  exists ([w] ++ e). symmetry. apply app_assoc.
Qed.

Lemma closure_rounds_fixed s ws : closure_step s ws = ws -> forall n, closure_rounds n s ws = ws.
Proof. intros E n. induction n as [|n IH]; simpl; [reflexivity|]. rewrite E. exact IH. Qed.

Lemma closure_rounds_saturate s (U : list var) :
  (forall w, In w U -> forall y, In y (refs_of s w) -> In y U) ->
  forall n ws, NoDup ws -> incl ws U -> (length U - length ws <= n)%nat ->
  closed_refs s (closure_rounds n s ws).
Proof.
  intros HU. induction n as [|n IH]; intros ws Hnd Hinc Hm; simpl.
  - (* ws already contains every known name *)
    assert (Hall : incl U ws).
    { apply NoDup_length_incl; [exact Hnd| |exact Hinc].
      pose proof (NoDup_incl_length Hnd Hinc). lia. }
    intros w y Hw Hy. apply Hall. apply (HU w); auto.
  - destruct (set_add_all_appends (flat_map (refs_of s) ws) ws) as [[|y e] E]; fold (closure_step s ws) in E.
    + rewrite app_nil_r in E. rewrite E, (closure_rounds_fixed s ws E).
      intros w y Hw Hy. rewrite <- E. apply set_add_all_spec. right. apply in_flat_map. eauto.
    + apply IH.
      * apply set_add_all_NoDup. exact Hnd.
      * intros z Hz. apply set_add_all_spec in Hz as [Hz|Hz]; [apply Hinc; exact Hz|].
        apply in_flat_map in Hz as (w & Hw & Hz). apply (HU w); auto.
      * rewrite E, app_length. simpl. lia.
Qed.

Definition names_ok (s : scope) : Prop :=
  forall w y, In y (refs_of s w) -> In y (s_names s).

Lemma var_read_refs v : v_refs (var_read v) = v_refs v.
Proof. reflexivity. Qed.

Lemma read_one_names s w' y : In y (s_names (read_one s w')) <-> In y (s_names s) \/ y = w'.
Proof. unfold read_one. simpl. apply set_add_spec. Qed.

Lemma fold_read_one_names us : forall s y,
  In y (s_names (fold_left read_one us s)) <-> In y (s_names s) \/ In y us.
Proof.
  induction us as [|u us IH]; intros s y; simpl; [intuition|].
  rewrite IH, read_one_names. intuition.
Qed.

Lemma handle_expr_total s a :
  (forall w y, In y (refs_of s w) -> In y (s_names s) \/ In y (uses (a_val a))) ->
  handle_expr s a <> OutOfFuel /\
  (forall s', handle_expr s a = Ok s' -> names_ok s').
Proof.
  intro H.
  assert (Hfold : forall us, names_ok (fold_left read_one (uses (a_val a) ++ us) s)).
  { intros us w y Hy. rewrite fold_read_refs in Hy. apply fold_read_one_names. rewrite in_app_iff.
    destruct (H w y Hy); auto. }
  split; [|intros s' E; destruct (handle_expr_shape _ _ _ E) as [us ->]; apply Hfold].
  unfold handle_expr. set (s1 := fold_left read_one (uses (a_val a)) s).
  assert (Hc : closure (length (s_names s1)) s1 (set_add_all [] (uses (a_val a))) <> OutOfFuel).
  { unfold closure. rewrite (proj2 (closed_refs_check s1 _)); [discriminate|].
    apply (closure_rounds_saturate s1 (s_names s1)).
    - intros w _. specialize (Hfold []). rewrite app_nil_r in Hfold. apply Hfold.
    - apply set_add_all_NoDup. constructor.
    - intros y Hy. apply set_add_all_spec in Hy as [[]|Hy]. apply fold_read_one_names. right. exact Hy.
    - lia. }
  destruct (a_op a); try discriminate; destruct (closure _ _ _); try discriminate; contradiction.
Qed.

Lemma update_include_path_total s l : update_include_path s l <> OutOfFuel.
Proof.
  unfold update_include_path, ipath_pop_until. destruct (l_lineno l =? 1); [discriminate|].
  assert (H : forall r, pop_until_rev r (l_file l) <> OutOfFuel).
  { induction r as [|x r IH]; simpl; [discriminate|]. destruct (x =? l_file l); [discriminate|exact IH]. }
  specialize (H (rev (s_path s))). destruct (pop_until_rev (rev (s_path s)) (l_file l)); try discriminate.
  contradiction.
Qed.

Lemma check_line_total s idx l :
  names_ok s ->
  check_line s idx l <> OutOfFuel /\
  (forall s' vs, check_line s idx l = Ok (s', vs) -> names_ok s').
Proof.
  intro Hok. unfold check_line.
  pose proof (update_include_path_total s l) as Hu.
  destruct (update_include_path s l) as [s1| |] eqn:E1; [|split; [discriminate|intros; discriminate]|contradiction].
  apply update_include_path_inv in E1 as [p ->].
  destruct (l_body l) as [a|]; [|split; [discriminate|intros s' vs [= <- _]; exact Hok]].
  destruct (handle_varassign_ok (mkScope (s_vars s) p (s_names s)) idx a false) as [vs2 ->].
  match goal with |- context [handle_expr ?s2 a] => destruct (handle_expr_total s2 a) as [Hne Hnext] end.
  { (* Var.Write adds the variables of the value to the references of the assigned variable *)
    intros w y Hy. unfold refs_of in Hy. simpl in *. rewrite set_add_spec. unfold upd in Hy.
    destruct (str_eqb (a_var a) w); [|left; left; exact (Hok w y Hy)].
    simpl in Hy. rewrite var_write_refs in Hy.
    apply set_add_all_spec in Hy as [Hy|Hy]; [left; left; exact (Hok _ y Hy)|right; exact Hy]. }
  destruct (handle_expr _ a) as [s3| |]; [|split; [discriminate|intros; discriminate]|contradiction].
  split; [discriminate|]. intros s' vs [= <- _]. apply Hnext. reflexivity.
Qed.

Lemma check_from_total : forall ls s idx, names_ok s -> check_from s idx ls <> OutOfFuel.
Proof.
  induction ls as [|l ls IH]; intros s idx Hok; simpl; [discriminate|].
  destruct (check_line_total s idx l Hok) as [Hne Hnext].
  destruct (check_line s idx l) as [[s' vs]| |] eqn:E; [|discriminate|contradiction].
  specialize (IH s' (S idx) (Hnext s' vs eq_refl)).
  destruct (check_from s' (S idx) ls); [discriminate|discriminate|contradiction].
Qed.

Theorem check_never_out_of_fuel : forall p : program, check p <> OutOfFuel.
Proof. intro p. apply check_from_total. intros w y Hy. destruct Hy. Qed.
