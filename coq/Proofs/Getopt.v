(* Proofs about Model/Getopt.v: the spelling laws, each for an arbitrary parser
   state (settings, remaining arguments collected so far) and arbitrary
   following arguments, over an arbitrary well-formed option table; Parse is total on
   such a table; pkglint's own table (Gen/Options.v) is well-formed and is the
   documented one (Spec/OptionsDoc.v). *)
From PV Require Import Lib.Bytes Lib.Utf8 Model.Getopt Gen.Options Spec.OptionsDoc.
From Coq Require Import ZifyBool ZifyN ZifyNat.
Open Scope N_scope.

Lemma incl_by_dec {A} (dec : forall a b : A, {a = b} + {a <> b}) l1 l2 :
  forallb (fun x => if in_dec dec x l2 then true else false) l1 = true -> incl l1 l2.
Proof.
  intros H x Hx. rewrite forallb_forall in H. specialize (H x Hx).
  destruct (in_dec dec x l2); [assumption|discriminate].
Qed.

Definition doc_option_eq_dec (a b : doc_option) : {a = b} + {a <> b}.
Proof. repeat decide equality. Defined.

(* the same entries, in any order (the order only shows in --help and in which two
   candidates an "ambiguous option" message names) *)
Lemma table_is_documented :
  length option_table = length documented_options /\
  forall d, In d (map doc_view option_table) <-> In d documented_options.
Proof.
  split; [reflexivity|]. intro d.
  split; apply (incl_by_dec doc_option_eq_dec); vm_compute; reflexivity.
Qed.

Definition no_eq (s : str) : bool := negb (existsb (N.eqb 61) s).

Definition wf_opt (o : odecl) : bool :=
  (o_short o <? 128) && negb (o_short o =? 45) && nonempty (o_long o) && no_eq (o_long o).

Fixpoint nodup_by {A} (eqb : A -> A -> bool) (l : list A) : bool :=
  match l with
  | [] => true
  | x :: l' => negb (existsb (eqb x) l') && nodup_by eqb l'
  end.

Definition wf_tableb (t : table) : bool :=
  forallb wf_opt t && nodup_by N.eqb (map o_short t) && nodup_by str_eqb (map o_long t).

Definition wf_table (t : table) : Prop := wf_tableb t = true.

Lemma option_table_wf : wf_table option_table.
Proof. vm_compute. reflexivity. Qed.

Lemma nodup_by_NoDup {A} (eqb : A -> A -> bool) (l : list A) :
  (forall a b, eqb a b = true <-> a = b) -> nodup_by eqb l = true -> NoDup l.
Proof.
  intros Heq. induction l as [|x l IH]; simpl; intro H; [constructor|].
  apply andb_true_iff in H as [H1 H2]. constructor; [|auto].
  intro Hin. apply negb_true_iff in H1.
  assert (existsb (eqb x) l = true) as E; [|congruence].
  apply existsb_exists. exists x. split; [assumption|]. apply Heq. reflexivity.
Qed.

Lemma wf_table_NoDup t : wf_table t -> NoDup (map o_short t) /\ NoDup (map o_long t).
Proof.
  unfold wf_table, wf_tableb. rewrite !andb_true_iff. intros [[_ H1] H2].
  split; [apply (nodup_by_NoDup N.eqb)|apply (nodup_by_NoDup str_eqb)]; auto using N.eqb_eq, str_eqb_spec.
Qed.

(* find_short and find_long are one loop, run over two keys *)
Section Find.
  Context {K} (key : odecl -> K) (eqb : K -> K -> bool) (eqb_eq : forall a b, eqb a b = true <-> a = b)
    (find : table -> nat -> K -> option (nat * odecl))
    (find_nil : forall k x, find [] k x = None)
    (find_cons : forall o t k x, find (o :: t) k x = if eqb x (key o) then Some (k, o) else find t (S k) x).

  Lemma find_some t k x j o :
    find t k x = Some (j, o) -> exists i, j = (k + i)%nat /\ nth_error t i = Some o /\ key o = x.
  Proof.
    revert k; induction t as [|o0 t IH]; intros k; [rewrite find_nil; discriminate|].
    rewrite find_cons. destruct (eqb x (key o0)) eqn:E.
    - intros [= <- <-]. apply eqb_eq in E. exists 0%nat. auto.
    - intros (i & -> & H)%IH. exists (S i). split; [lia|exact H].
  Qed.

  Lemma find_nth t k i o :
    NoDup (map key t) -> nth_error t i = Some o -> find t k (key o) = Some ((k + i)%nat, o).
  Proof.
    revert k i; induction t as [|o0 t IH]; intros k [|i] Hnd Hn; try discriminate;
      rewrite find_cons; cbn [nth_error] in Hn.
    - injection Hn as ->. rewrite (proj2 (eqb_eq _ _) eq_refl), Nat.add_0_r. reflexivity.
    - apply NoDup_cons_iff in Hnd as [Hnotin Hnd]. destruct (eqb (key o) (key o0)) eqn:E.
      + apply eqb_eq in E. destruct Hnotin. rewrite <- E. exact (in_map key _ _ (nth_error_In _ _ Hn)).
      + rewrite Nat.add_succ_r. apply (IH (S k)); assumption.
  Qed.
End Find.

Lemma find_short_some t c i o : find_short t 0 c = Some (i, o) -> nth_error t i = Some o /\ o_short o = c.
Proof.
  intros (i' & -> & H)%(find_some o_short N.eqb N.eqb_eq find_short (fun _ _ => eq_refl) (fun _ _ _ _ => eq_refl)).
  exact H.
Qed.

Lemma find_long_some t s i o : find_long t 0 s = Some (i, o) -> nth_error t i = Some o /\ o_long o = s.
Proof.
  intros (i' & -> & H)%(find_some o_long str_eqb str_eqb_spec find_long (fun _ _ => eq_refl) (fun _ _ _ _ => eq_refl)).
  exact H.
Qed.

Definition unique_prefix (t : table) (i : nat) (o : odecl) (p : str) : Prop :=
  nth_error t i = Some o /\ has_prefix p (o_long o) = true /\
  forall j o', nth_error t j = Some o' -> j <> i -> has_prefix p (o_long o') = false.

Lemma prefix_scan_none t k p acc :
  (forall j o', nth_error t j = Some o' -> has_prefix p (o_long o') = false) ->
  prefix_scan t k p acc = inr acc.
Proof.
  revert k; induction t as [|o t IH]; intros k H; simpl; [reflexivity|].
  rewrite (H 0%nat o eq_refl). apply IH. intros j o' Hn. apply (H (S j) o' Hn).
Qed.

Lemma prefix_scan_unique t k i o p :
  unique_prefix t i o p -> prefix_scan t k p None = inr (Some ((k + i)%nat, o)).
Proof.
  revert k i; induction t as [|o0 t IH]; intros k i (Hn & Hp & Hother); [destruct i; discriminate|].
  destruct i as [|i]; simpl in Hn |- *.
  - injection Hn as ->. rewrite Hp, Nat.add_0_r. apply prefix_scan_none.
    intros j o' Hj. apply (Hother (S j) o' Hj). discriminate.
  - rewrite (Hother 0%nat o0 eq_refl), Nat.add_succ_r by discriminate. apply (IH (S k) i).
    repeat split; auto. intros j o' Hj Hne. apply (Hother (S j) o' Hj). congruence.
Qed.

Lemma prefix_scan_inr t k p acc r : prefix_scan t k p acc = inr r ->
  (r = acc /\ forall j o', nth_error t j = Some o' -> has_prefix p (o_long o') = false) \/
  (acc = None /\ exists i o, r = Some ((k + i)%nat, o) /\ unique_prefix t i o p).
Proof.
  revert k acc; induction t as [|o0 t IH]; intros k acc; cbn [prefix_scan].
  - intros [= <-]. left. split; [reflexivity|]. intros [|j] o'; discriminate.
  - destruct (has_prefix p (o_long o0)) eqn:E.
    + destruct acc as [[]|]; [discriminate|]. intros [[-> Hno]|[[=] _]]%IH.
      right. split; [reflexivity|]. exists 0%nat, o0. rewrite Nat.add_0_r. repeat split; auto.
      intros [|j] o' Hj Hne; [congruence|exact (Hno j o' Hj)].
    + intros [[-> Hno]|(-> & i & o & -> & Hn & Hp & Hother)]%IH.
      * left. split; [reflexivity|]. intros [|j] o' Hj; [injection Hj as <-; exact E|exact (Hno j o' Hj)].
      * right. split; [reflexivity|]. exists (S i), o. rewrite Nat.add_succ_r. repeat split; auto.
        intros [|j] o' Hj Hne; [injection Hj as <-; exact E|]. apply (Hother j o' Hj). congruence.
Qed.

Lemma has_prefix_refl s : has_prefix s s = true.
Proof.
  unfold has_prefix. rewrite (proj2 (strip_prefix_some s s []) (eq_sym (app_nil_r s))). reflexivity.
Qed.

Lemma split_eq_no_eq l : no_eq l = true -> split_eq l = (l, None).
Proof.
  unfold no_eq. induction l as [|x l IH]; cbn [existsb split_eq]; intro H; [reflexivity|].
  replace (x =? 61) with false by lia. rewrite IH by lia. reflexivity.
Qed.

Lemma split_eq_app l v : no_eq l = true -> split_eq (l ++ 61 :: v) = (l, Some v).
Proof.
  unfold no_eq. induction l as [|x l IH]; cbn [existsb split_eq app]; intro H.
  - rewrite N.eqb_refl. reflexivity.
  - replace (x =? 61) with false by lia. rewrite IH by lia. reflexivity.
Qed.

Lemma no_eq_prefix p l : has_prefix p l = true -> no_eq l = true -> no_eq p = true.
Proof.
  unfold has_prefix. destruct (strip_prefix p l) as [r|] eqn:E; [|discriminate].
  intros _. apply strip_prefix_some in E as ->. unfold no_eq. rewrite existsb_app. lia.
Qed.

Lemma split_on_nonnil c s : split_on c s <> [].
Proof.
  induction s as [|x s IH]; simpl; [discriminate|].
  destruct (x =? c); [discriminate|]. destruct (split_on c s); [congruence|discriminate].
Qed.

Lemma split_on_app c a b : split_on c (a ++ c :: b) = split_on c a ++ split_on c b.
Proof.
  induction a as [|x a IH]; simpl.
  - rewrite N.eqb_refl. reflexivity.
  - destruct (x =? c); [rewrite IH; reflexivity|].
    rewrite IH. pose proof (split_on_nonnil c a) as Hn.
    destruct (split_on c a) as [|h tl]; [congruence|]. reflexivity.
Qed.

Lemma group_parse_app fl bs l1 l2 :
  group_parse fl bs (l1 ++ l2) =
  match group_parse fl bs l1 with
  | (bs1, None) => group_parse fl bs1 l2
  | (bs1, Some f) => (bs1, Some f)
  end.
Proof.
  revert bs; induction l1 as [|a l1 IH]; intros bs; simpl; [reflexivity|].
  destruct (parse_opt fl bs a); [apply IH|reflexivity].
Qed.

Lemma nth_error_set_nth_same {A} (l : list A) i v x :
  nth_error l i = Some x -> nth_error (set_nth i v l) i = Some v.
Proof.
  revert i; induction l as [|y l IH]; intros [|i]; simpl; try discriminate; auto.
Qed.

Lemma set_nth_set_nth {A} (l : list A) i v w : set_nth i w (set_nth i v l) = set_nth i w l.
Proof.
  revert i; induction l as [|y l IH]; intros [|i]; simpl; try reflexivity. rewrite IH. reflexivity.
Qed.

(* the inlined switch of parseShortOptions is handleLongOption *)
Lemma short_arg_action_eq i o st a next :
  o_kind o <> KBool ->
  short_arg_action i o st a next =
  handle_long_option i o st (if nonempty a then Some a else None) next.
Proof.
  intro Hk. unfold short_arg_action, handle_long_option.
  destruct (o_kind o); [congruence|..]; try destruct (nth_error st i) as [[]|]; try reflexivity;
    destruct (nonempty a), next; reflexivity.
Qed.

(* one step of the loop: the match of parse_args on what dispatch returned, k being the loop *)
Definition continue (t : table) (rem rest : list str) (s : option step)
  (k : settings -> list str -> list str -> result) (arg : str) (st : settings) : result :=
  match s with
  | None => k st (rem ++ [arg]) rest
  | Some (SOk st' false) => k st' rem rest
  | Some (SOk st' true) => match rest with _ :: rest' => k st' rem rest' | [] => ROk st' rem end
  | Some (SErr st' e) => RErr st' rem e
  | Some SPanic => RPanic
  | Some SOutOfFuel => ROutOfFuel
  end.

Lemma continue_some t rem rest s k a1 a2 st1 st2 :
  continue t rem rest (Some s) k a1 st1 = continue t rem rest (Some s) k a2 st2.
Proof. reflexivity. Qed.

Definition resume (t : table) (rem rest : list str) (s : step) : result :=
  continue t rem rest (Some s) (parse_args t) [] [].

Lemma parse_args_option t st rem arg rest s :
  str_eqb arg s_dashdash = false -> dispatch t st arg (hd_error rest) = Some s ->
  parse_args t st rem (arg :: rest) = resume t rem rest s.
Proof. intros H1 H2. cbn [parse_args]. rewrite H1, H2. reflexivity. Qed.

Lemma parse_args_long t st rem l post :
  l <> [] ->
  parse_args t st rem ((45 :: 45 :: l) :: post) = resume t rem post (parse_long_option t st l (hd_error post)).
Proof. intro Hl. apply parse_args_option; [destruct l; [congruence|]|]; reflexivity. Qed.

Lemma parse_args_short t st rem c cs post :
  c <> 45 ->
  parse_args t st rem ((45 :: c :: cs) :: post) =
  resume t rem post (parse_short_options (S (length cs)) t st (c :: cs) (hd_error post)).
Proof.
  intro Hc. apply parse_args_option; unfold dispatch, s_dashdash; cbn [str_eqb strip_prefix].
  - replace (c =? 45) with false by lia. reflexivity.
  - replace (45 =? c) with false by lia. reflexivity.
Qed.

(* the word w stands for entry i, with or without an inline value: wherever the parser
   looks for an option, w is handled by handleLongOption for that entry *)
Definition spells (t : table) (w : list N) (i : nat) (o : odecl) (argval : option str) : Prop :=
  forall st rem post,
    parse_args t st rem (w :: post) = resume t rem post (handle_long_option i o st argval (hd_error post)).

Lemma spelled_alike t w1 w2 i o argval : spells t w1 i o argval -> spells t w2 i o argval ->
  forall st rem post, parse_args t st rem (w1 :: post) = parse_args t st rem (w2 :: post).
Proof. intros H1 H2 st rem post. rewrite H1, H2. reflexivity. Qed.

(* parseLongOption finds entry i for this name: it is a long name, or a prefix of
   just one and not itself a long name *)
Definition resolves (t : table) (name : str) (i : nat) (o : odecl) : Prop :=
  name <> [] /\ no_eq name = true /\
  (find_long t 0 name = Some (i, o) \/
   (find_long t 0 name = None /\ prefix_scan t 0 name None = inr (Some (i, o)))).

Lemma spells_long t l name argval i o :
  resolves t name i o -> split_eq l = (name, argval) -> spells t (45 :: 45 :: l) i o argval.
Proof.
  intros (Hn & _ & Hr) Hs st rem post. rewrite parse_args_long by (intros ->; cbn in Hs; congruence).
  unfold parse_long_option. rewrite Hs. destruct Hr as [-> | [-> ->]]; reflexivity.
Qed.

Lemma spells_name t p i o : resolves t p i o -> spells t (45 :: 45 :: p) i o None.
Proof. intro H. apply (spells_long t p p None i o H), split_eq_no_eq, H. Qed.

Lemma spells_name_eq t p v i o : resolves t p i o -> spells t (45 :: 45 :: p ++ 61 :: v) i o (Some v).
Proof. intro H. apply (spells_long t _ p (Some v) i o H), split_eq_app, H. Qed.

Definition eq_suffix (sfx : str) : Prop := sfx = [] \/ exists v, sfx = 61 :: v.

Lemma split_eq_sfx l sfx : no_eq l = true -> eq_suffix sfx ->
  split_eq (l ++ sfx) = (l, match sfx with [] => None | _ :: v => Some v end).
Proof.
  intros Hl [->|[v ->]].
  - rewrite app_nil_r. apply split_eq_no_eq; assumption.
  - apply split_eq_app; assumption.
Qed.

Lemma spells_name_sfx t p sfx i o : resolves t p i o -> eq_suffix sfx ->
  spells t (45 :: 45 :: p ++ sfx) i o (match sfx with [] => None | _ :: v => Some v end).
Proof. intros R Hs. apply (spells_long t _ p _ i o R), split_eq_sfx; [apply R|exact Hs]. Qed.

Lemma inline_eq_next t w1 w2 i o v :
  o_kind o <> KBool -> spells t w1 i o (Some v) -> spells t w2 i o None ->
  forall st rem post, parse_args t st rem (w1 :: post) = parse_args t st rem (w2 :: v :: post).
Proof.
  intros Hk H1 H2 st rem post. rewrite H1, H2. unfold handle_long_option.
  destruct (o_kind o); [congruence|..]; try destruct (nth_error st i) as [[]|]; try reflexivity.
  unfold group_step. cbn [hd_error]. destruct (group_parse _ _ _) as [bs' [f|]]; reflexivity.
Qed.

Lemma handle_group_comma i o st (a b : str) n1 n2 n3 :
  o_kind o = KGroup ->
  match handle_long_option i o st (Some a) n1 with
  | SOk st1 skip =>
    skip = false /\
    handle_long_option i o st (Some (a ++ 44 :: b)) n2 = handle_long_option i o st1 (Some b) n3
  | s => handle_long_option i o st (Some (a ++ 44 :: b)) n2 = s
  end.
Proof.
  intro Hk. unfold handle_long_option. rewrite Hk.
  destruct (nth_error st i) as [[| | |bs]|] eqn:Hst; try reflexivity.
  unfold group_step. rewrite split_on_app, group_parse_app.
  destruct (group_parse (o_flags o) bs (split_on 44 a)) as [bs1 [f|]]; [reflexivity|].
  split; [reflexivity|]. rewrite (nth_error_set_nth_same _ _ _ _ Hst).
  destruct (group_parse (o_flags o) bs1 (split_on 44 b)) as [bs2 bad].
  rewrite set_nth_set_nth. reflexivity.
Qed.

Lemma comma_eq_repeat t w w1 w2 i o (a b : str) :
  o_kind o = KGroup ->
  spells t w i o (Some (a ++ 44 :: b)) -> spells t w1 i o (Some a) -> spells t w2 i o (Some b) ->
  forall st rem post, parse_args t st rem (w :: post) = parse_args t st rem (w1 :: w2 :: post).
Proof.
  intros Hk H H1 H2 st rem post. rewrite H, H1.
  generalize (handle_group_comma i o st a b (hd_error (w2 :: post)) (hd_error post) (hd_error post) Hk).
  destruct (handle_long_option i o st (Some a) _) as [st1 sk|st1 e| |]; try (intros ->; reflexivity).
  intros [-> ->]. symmetry. apply H2.
Qed.

Section Entry.
  Context (t : table) (Hwf : wf_table t) (i : nat) (o : odecl) (Hn : nth_error t i = Some o).

  Lemma wf_nth : o_short o < 128 /\ o_short o <> 45 /\ o_long o <> [] /\ no_eq (o_long o) = true.
  Proof.
    pose proof Hwf as H. unfold wf_table, wf_tableb in H. rewrite !andb_true_iff, forallb_forall in H.
    destruct H as [[H _] _]. specialize (H o (nth_error_In _ _ Hn)). unfold wf_opt, nonempty in H.
    destruct (o_long o); [lia|]. repeat split; try lia. discriminate.
  Qed.

  Lemma find_short_nth : find_short t 0 (o_short o) = Some (i, o).
  Proof.
    exact (find_nth o_short N.eqb N.eqb_eq find_short (fun _ _ _ _ => eq_refl) t 0 i o (proj1 (wf_table_NoDup t Hwf)) Hn).
  Qed.

  Lemma find_long_nth : find_long t 0 (o_long o) = Some (i, o).
  Proof.
    exact (find_nth o_long str_eqb str_eqb_spec find_long (fun _ _ _ _ => eq_refl) t 0 i o (proj2 (wf_table_NoDup t Hwf)) Hn).
  Qed.

  Lemma parse_args_short_entry st rem cs post :
    parse_args t st rem ((45 :: o_short o :: cs) :: post) =
    resume t rem post
      match o_kind o with
      | KBool => parse_short_options (length cs) t (set_nth i (VBool true) st) cs (hd_error post)
      | _ => handle_long_option i o st (if nonempty cs then Some cs else None) (hd_error post)
      end.
  Proof.
    destruct wf_nth as (H1 & H2 & _). rewrite parse_args_short by assumption. f_equal.
    cbn [parse_short_options]. rewrite decode_rune_ascii, find_short_nth by lia.
    unfold rune_len. replace (o_short o <? 128) with true by lia.
    unfold slice_from. cbn [length skipn Nat.leb].
    pose proof (short_arg_action_eq i o st cs (hd_error post)) as E.
    destruct (o_kind o); [reflexivity|..]; apply E; discriminate.
  Qed.

  Lemma resolves_exact : resolves t (o_long o) i o.
  Proof. split; [apply wf_nth|]. split; [apply wf_nth|]. left. apply find_long_nth. Qed.

  Lemma spells_short : spells t [45; o_short o] i o None.
  Proof.
    intros st rem post. rewrite parse_args_short_entry. unfold handle_long_option. destruct (o_kind o); reflexivity.
  Qed.

  Lemma spells_short_attached v : o_kind o <> KBool -> v <> [] -> spells t (45 :: o_short o :: v) i o (Some v).
  Proof.
    intros Hk Hv st rem post. rewrite parse_args_short_entry.
    destruct v; [congruence|]. destruct (o_kind o); [congruence|..]; reflexivity.
  Qed.
End Entry.

Lemma resolves_unique_prefix t i o p :
  wf_table t -> unique_prefix t i o p -> p <> [] -> resolves t p i o.
Proof.
  intros Hwf Hu Hp. pose proof Hu as (Hn & Hpre & Hother).
  destruct (wf_nth t Hwf i o Hn) as (_ & _ & _ & H4).
  split; [assumption|]. split; [exact (no_eq_prefix _ _ Hpre H4)|].
  destruct (find_long t 0 p) as [[j o']|] eqn:F.
  - left. apply find_long_some in F as [Hn' Hs].
    destruct (Nat.eq_dec j i) as [->|Hne]; [congruence|].
    specialize (Hother j o' Hn' Hne). rewrite Hs, has_prefix_refl in Hother. discriminate.
  - right. split; [reflexivity|]. apply (prefix_scan_unique t 0 i o p Hu).
Qed.

(* -c is --long *)
Theorem long_eq_short t :
  wf_table t -> forall i o, nth_error t i = Some o ->
  forall st rem post,
    parse_args t st rem ([45; o_short o] :: post) =
    parse_args t st rem ((45 :: 45 :: o_long o) :: post).
Proof.
  intros Hwf i o Hn. apply (spelled_alike t _ _ i o None).
  - apply spells_short; assumption.
  - apply spells_name, resolves_exact; assumption.
Qed.

Theorem unique_prefix_eq_long t :
  wf_table t -> forall i o p sfx, unique_prefix t i o p -> p <> [] -> eq_suffix sfx ->
  forall st rem post,
    parse_args t st rem ((45 :: 45 :: p ++ sfx) :: post) =
    parse_args t st rem ((45 :: 45 :: o_long o ++ sfx) :: post).
Proof.
  intros Hwf i o p sfx Hu Hp Hs. eapply (spelled_alike t _ _ i o); apply spells_name_sfx; try assumption.
  - apply resolves_unique_prefix; assumption.
  - apply resolves_exact; [assumption|apply Hu].
Qed.

(* --opt=value is --opt value *)
Theorem eq_arg_eq_next_arg t :
  wf_table t -> forall i o p v, unique_prefix t i o p -> p <> [] -> o_kind o <> KBool ->
  forall st rem post,
    parse_args t st rem ((45 :: 45 :: p ++ 61 :: v) :: post) =
    parse_args t st rem ((45 :: 45 :: p) :: v :: post).
Proof.
  intros Hwf i o p v Hu Hp Hk. pose proof (resolves_unique_prefix t i o p Hwf Hu Hp) as R.
  apply (inline_eq_next t _ _ i o v Hk); [apply spells_name_eq|apply spells_name]; exact R.
Qed.

(* the full long name always resolves to its own entry, even when it is a prefix of another long name *)
Theorem eq_arg_eq_next_arg_long t :
  wf_table t -> forall i o v, nth_error t i = Some o -> o_kind o <> KBool ->
  forall st rem post,
    parse_args t st rem ((45 :: 45 :: o_long o ++ 61 :: v) :: post) =
    parse_args t st rem ((45 :: 45 :: o_long o) :: v :: post).
Proof.
  intros Hwf i o v Hn Hk. pose proof (resolves_exact t Hwf i o Hn) as R.
  apply (inline_eq_next t _ _ i o v Hk); [apply spells_name_eq|apply spells_name]; exact R.
Qed.

(* -ovalue is -o value *)
Theorem short_attached_eq_next_arg t :
  wf_table t -> forall i o v, nth_error t i = Some o -> o_kind o <> KBool -> v <> [] ->
  forall st rem post,
    parse_args t st rem ((45 :: o_short o :: v) :: post) =
    parse_args t st rem ([45; o_short o] :: v :: post).
Proof.
  intros Hwf i o v Hn Hk Hv.
  apply (inline_eq_next t _ _ i o v Hk); [apply spells_short_attached|apply spells_short]; assumption.
Qed.

Definition is_flag_letter (t : table) (c : N) : Prop :=
  exists i o, nth_error t i = Some o /\ o_kind o = KBool /\ o_short o = c.

Definition tail_ok (tail : str) : Prop := match tail with [] => True | x :: _ => x <> 45 end.

(* -cREST sets the flag c and goes on with -REST *)
Lemma flag_first t i o cs :
  wf_table t -> nth_error t i = Some o -> o_kind o = KBool -> tail_ok cs ->
  forall st rem post,
    parse_args t st rem ((45 :: o_short o :: cs) :: post) =
    parse_args t (set_nth i (VBool true) st) rem (match cs with [] => [] | _ => [45 :: cs] end ++ post).
Proof.
  intros Hwf Hn Hk Hcs st rem post. rewrite (parse_args_short_entry t Hwf i o Hn), Hk.
  destruct cs as [|x cs]; [reflexivity|]. cbn [app]. rewrite parse_args_short by exact Hcs. reflexivity.
Qed.

Theorem cluster_eq_separate t :
  wf_table t -> forall cs tail, Forall (is_flag_letter t) cs -> cs <> [] -> tail_ok tail ->
  forall st rem post,
    parse_args t st rem ((45 :: cs ++ tail) :: post) =
    parse_args t st rem (map (fun c => [45; c]) cs ++
                         match tail with [] => [] | _ => [45 :: tail] end ++ post).
Proof.
  intros Hwf cs tail Hcs Hne Htail.
  induction Hcs as [|c cs (i & o & Hn & Hk & <-) Hcs IH]; [congruence|]. intros st rem post. cbn [app map].
  rewrite (flag_first t i o [] Hwf Hn Hk I), (flag_first t i o (cs ++ tail) Hwf Hn Hk).
  - destruct cs; [reflexivity|]. apply IH. discriminate.
  - destruct Hcs as [|c' cs (i' & o' & Hn' & _ & <-) _]; [exact Htail|]. apply (wf_nth t Hwf i' o' Hn').
Qed.

Theorem group_comma_eq_repeat_short t :
  wf_table t -> forall i o a b, nth_error t i = Some o -> o_kind o = KGroup -> a <> [] -> b <> [] ->
  forall st rem post,
    parse_args t st rem ((45 :: o_short o :: a ++ 44 :: b) :: post) =
    parse_args t st rem ((45 :: o_short o :: a) :: (45 :: o_short o :: b) :: post).
Proof.
  intros Hwf i o a b Hn Hk Ha Hb.
  apply (comma_eq_repeat t _ _ _ i o a b Hk); apply spells_short_attached; try assumption; try congruence.
  destruct a; discriminate.
Qed.

Theorem group_comma_eq_repeat_long t :
  wf_table t -> forall i o a b, nth_error t i = Some o -> o_kind o = KGroup ->
  forall st rem post,
    parse_args t st rem ((45 :: 45 :: o_long o ++ 61 :: a ++ 44 :: b) :: post) =
    parse_args t st rem ((45 :: 45 :: o_long o ++ 61 :: a) :: (45 :: 45 :: o_long o ++ 61 :: b) :: post).
Proof.
  intros Hwf i o a b Hn Hk.
  apply (comma_eq_repeat t _ _ _ i o a b Hk); apply spells_name_eq, resolves_exact; assumption.
Qed.

Theorem after_dashdash_are_args t st rem post :
  parse_args t st rem (s_dashdash :: post) = ROk st (rem ++ post).
Proof. reflexivity. Qed.

Theorem ambiguous_prefix_is_error t :
  forall p sfx m1 m2 o1 o2, m1 <> m2 -> nth_error t m1 = Some o1 -> nth_error t m2 = Some o2 ->
  has_prefix p (o_long o1) = true -> has_prefix p (o_long o2) = true ->
  (forall m o, nth_error t m = Some o -> o_long o <> p) ->
  p <> [] -> no_eq p = true -> eq_suffix sfx ->
  forall st rem post, exists a b,
    parse_args t st rem ((45 :: 45 :: p ++ sfx) :: post) = RErr st rem (EAmbiguous a b).
Proof.
  intros p sfx m1 m2 o1 o2 Hne H1 H2 P1 P2 Hex Hp Hpe Hs st rem post.
  assert (exists a b, prefix_scan t 0 p None = inl (a, b)) as (a & b & Hscan).
  { destruct (prefix_scan t 0 p None) as [[a b]|r] eqn:E; [eauto|exfalso].
    apply prefix_scan_inr in E as [[_ Hno]|(_ & i & o & _ & _ & _ & Hother)].
    - rewrite (Hno m1 o1 H1) in P1. discriminate.
    - destruct (Nat.eq_dec m1 i) as [->|N1]; [|rewrite (Hother m1 o1 H1 N1) in P1; discriminate].
      rewrite (Hother m2 o2 H2) in P2; [discriminate|congruence]. }
  exists a, b. rewrite parse_args_long by (destruct p; [congruence|discriminate]).
  unfold parse_long_option. rewrite (split_eq_sfx _ _ Hpe Hs).
  destruct (find_long t 0 p) as [[j o']|] eqn:F; [|rewrite Hscan; reflexivity].
  apply find_long_some in F as [Hn' Hl]. destruct (Hex j o' Hn' Hl).
Qed.

Definition kind_ok (o : odecl) (v : value) : Prop :=
  match o_kind o, v with
  | KBool, VBool _ | KStr, VStr _ | KList, VList _ | KGroup, VGroup _ => True
  | _, _ => False
  end.

Definition shaped (t : table) (st : settings) : Prop := Forall2 kind_ok t st.

Lemma shaped_init t : shaped t (init t).
Proof.
  unfold shaped, init. induction t as [|o t IH]; simpl; constructor; [|assumption].
  unfold kind_ok, init_value. destruct (o_kind o); exact I.
Qed.

Lemma shaped_nth t st i o : shaped t st -> nth_error t i = Some o ->
  exists v, nth_error st i = Some v /\ kind_ok o v.
Proof.
  intros H. revert i. induction H as [|o' v t st Hk H IH]; intros [|i] Hn; simpl in *; try discriminate.
  - inversion Hn; subst. eauto.
  - eauto.
Qed.

Lemma shaped_set t st i o v : shaped t st -> nth_error t i = Some o -> kind_ok o v ->
  shaped t (set_nth i v st).
Proof.
  intros H. revert i. induction H as [|o' v' t st Hk H IH]; intros [|i] Hn Hv; simpl in *; try discriminate.
  - inversion Hn; subst. constructor; assumption.
  - constructor; [assumption|]. apply IH; assumption.
Qed.

Definition step_ok (t : table) (s : step) : Prop :=
  match s with
  | SOk st _ | SErr st _ => shaped t st
  | SPanic | SOutOfFuel => False
  end.

Lemma handle_long_option_ok t i o st argval next :
  shaped t st -> nth_error t i = Some o -> step_ok t (handle_long_option i o st argval next).
Proof.
  intros Hs Hn. destruct (shaped_nth _ _ _ _ Hs Hn) as (v & Hv & Hkv).
  (* every case leaves st as it is or stores a value of o's kind at i *)
  pose proof (fun v' => shaped_set t st i o v' Hs Hn) as Hset.
  unfold handle_long_option, group_step. rewrite Hv. unfold kind_ok in *.
  destruct (o_kind o), v; try contradiction; destruct argval as [a|], next as [n|];
    try destruct (bool_word a); try destruct (group_parse _ _ _) as [bs' [f|]]; simpl; auto.
Qed.

Lemma parse_long_option_ok t st argRest next :
  shaped t st -> step_ok t (parse_long_option t st argRest next).
Proof.
  intro Hs. unfold parse_long_option. destruct (split_eq argRest) as [name argval].
  destruct (find_long t 0 name) as [[i o]|] eqn:F.
  - apply find_long_some in F as [Hn _]. apply handle_long_option_ok; assumption.
  - destruct (prefix_scan t 0 name None) as [[a b]|[[i o]|]] eqn:Hp; simpl; try assumption.
    apply prefix_scan_inr in Hp as [[[=] _]|(_ & i' & o' & [= -> ->] & Hn & _)].
    apply handle_long_option_ok; assumption.
Qed.

Lemma parse_short_options_ok t : wf_table t -> forall fuel st optchars next,
  shaped t st -> (length optchars <= fuel)%nat -> step_ok t (parse_short_options fuel t st optchars next).
Proof.
  intros Hwf. induction fuel as [|fuel IH]; intros st [|c cs] next Hs Hlen; try exact Hs; [simpl in Hlen; lia|].
  cbn [parse_short_options].
  pose proof (decode_rune_width_pos (c :: cs) ltac:(discriminate)) as Hw.
  destruct (decode_rune (c :: cs)) as [r w]. cbn [snd] in Hw.
  destruct (find_short t 0 r) as [[i o]|] eqn:F; [|exact Hs].
  apply find_short_some in F as [Hn <-]. destruct (wf_nth t Hwf i o Hn) as (H1 & _).
  unfold rune_len. replace (o_short o <? 128) with true by lia. cbn [slice_from length Nat.leb skipn].
  destruct (o_kind o) eqn:Hk;
    [|rewrite short_arg_action_eq by congruence; apply handle_long_option_ok; assumption..].
  apply IH.
  - eapply shaped_set; eauto. unfold kind_ok. rewrite Hk. exact I.
  - rewrite skipn_length. cbn [length] in *. lia.
Qed.

Definition result_ok (r : result) : Prop :=
  match r with ROk _ _ | RErr _ _ _ => True | RPanic | ROutOfFuel => False end.

Lemma dispatch_ok t st arg next : wf_table t -> shaped t st ->
  match dispatch t st arg next with Some s => step_ok t s | None => True end.
Proof.
  intros Hwf Hs. unfold dispatch. destruct (strip_prefix s_dashdash arg).
  - apply parse_long_option_ok; assumption.
  - destruct arg as [|c [|c' cs]]; try exact I. destruct (c =? 45); [|exact I].
    apply parse_short_options_ok; auto.
Qed.

Theorem parse_args_total t : wf_table t -> forall args st rem,
  shaped t st -> result_ok (parse_args t st rem args).
Proof.
  intros Hwf args. induction args as [args IH] using (induction_ltof1 _ (@length str)). unfold ltof in IH.
  intros st rem Hs. destruct args as [|arg rest]; [exact I|].
  cbn [parse_args]. destruct (str_eqb arg s_dashdash); [exact I|].
  pose proof (dispatch_ok t st arg (hd_error rest) Hwf Hs) as Hd.
  destruct (dispatch t st arg (hd_error rest)) as [[st' [|]|st' e| |]|]; simpl in Hd;
    try contradiction; try exact I.
  - destruct rest as [|x rest']; [exact I|]. apply IH; [simpl; lia|assumption].
  - apply IH; [simpl; lia|assumption].
  - apply IH; [simpl; lia|assumption].
Qed.

(* for a well-formed table, Parse is defined on every argument vector: no slice
   out of range, no "unknown option type", the rune loop never runs out of fuel *)
Theorem parse_total t : wf_table t -> forall args, result_ok (parse t args).
Proof. intros Hwf [|prog rest]; [exact I|]. apply (parse_args_total t Hwf), shaped_init. Qed.

Definition equivalent_spellings (t : table) (x y : list str) : Prop :=
  forall st rem post, parse_args t st rem (x ++ post) = parse_args t st rem (y ++ post).

(* the arguments `pre` are consumed completely, leaving the parser in state (st, rem)
   and looking for an option next (i.e. pre does not end in an option that still
   waits for its argument, contains no "--" and no error) *)
Definition leaves_option_position (t : table) (pre : list str) (st : settings) (rem : list str) : Prop :=
  forall post, parse_args t (init t) [] (pre ++ post) = parse_args t st rem post.

(* from "any parser state" to "any surrounding argv" *)
Theorem equivalent_in_context t x y :
  equivalent_spellings t x y ->
  forall prog pre post st rem, leaves_option_position t pre st rem ->
    parse t (prog :: pre ++ x ++ post) = parse t (prog :: pre ++ y ++ post).
Proof.
  intros He prog pre post st rem Hpre. unfold parse, parse_from.
  rewrite !Hpre. apply He.
Qed.

(* the hypothesis is needed: after an option that takes an argument, the next word
   is that argument, however it is spelled *)
Example position_matters :
  parse option_table [[112]; [45; 111]; [45; 113]] <> parse option_table [[112]; [45; 111]; [45; 45; 113; 117; 105; 101; 116]].
Proof. vm_compute. discriminate. Qed.

(* "all" / "none" leave a flag that is exempt from them (AddFlagVarNoAll, e.g. -Werror) alone *)
Lemma set_all_exempt fl bs v j f :
  nth_error fl j = Some f -> gf_all f = false -> nth_error (set_all fl bs v) j = nth_error bs j.
Proof.
  revert bs j. induction fl as [|f0 fl IH]; intros bs j Hn Ha; [destruct j; discriminate|].
  destruct bs as [|b bs]; [reflexivity|]. cbn [set_all].
  destruct j as [|j]; cbn [nth_error] in *.
  - inversion Hn; subst. rewrite Ha. reflexivity.
  - apply IH; assumption.
Qed.

Definition addresses_exempt_only (fl : list gflag) (x : str) : Prop :=
  forall f, In f fl -> (x = gf_name f \/ x = s_no_ ++ gf_name f) -> gf_all f = false.

Lemma find_flag_set_all fl bs v x :
  addresses_exempt_only fl x ->
  find_flag fl (set_all fl bs v) x = option_map (fun r => set_all fl r v) (find_flag fl bs x).
Proof.
  revert bs. induction fl as [|f fl IH]; intros bs H; [reflexivity|].
  destruct bs as [|b bs]; [reflexivity|]. cbn [set_all find_flag].
  destruct (str_eqb x (gf_name f)) eqn:E1.
  - apply str_eqb_spec in E1. rewrite (H f (or_introl eq_refl) (or_introl E1)). reflexivity.
  - destruct (str_eqb x (s_no_ ++ gf_name f)) eqn:E2.
    + apply str_eqb_spec in E2. rewrite (H f (or_introl eq_refl) (or_intror E2)). reflexivity.
    + rewrite IH by (intros f' Hin; apply H; right; assumption).
      destruct (find_flag fl bs x); reflexivity.
Qed.

Theorem exempt_flag_commutes fl bs x a bs1 :
  (a = s_all \/ a = s_none) -> str_eqb x s_none || str_eqb x s_all = false ->
  addresses_exempt_only fl x -> find_flag fl bs x = Some bs1 ->
  group_parse fl bs [x; a] = group_parse fl bs [a; x].
Proof.
  intros Ha Hx He Hf. cbn [group_parse]. unfold parse_opt at 1. rewrite Hx, Hf.
  assert (parse_opt fl bs1 a = Some (set_all fl bs1 (str_eqb a s_all)) /\
          parse_opt fl bs a = Some (set_all fl bs (str_eqb a s_all))) as [-> ->]
    by (destruct Ha as [-> | ->]; split; reflexivity).
  unfold parse_opt. rewrite Hx, (find_flag_set_all _ _ _ _ He), Hf. reflexivity.
Qed.

Lemma split_on_none c s : existsb (N.eqb c) s = false -> split_on c s = [s].
Proof.
  induction s as [|x s IH]; cbn [existsb split_on]; intro H; [reflexivity|].
  apply orb_false_iff in H as [H1 H2]. rewrite N.eqb_sym in H1. rewrite H1, (IH H2). reflexivity.
Qed.

(* -Wx -Wall is -Wall -Wx (x an exempt flag, also with none): by comma_eq_repeat both are
   one word, -Wx,all and -Wall,x, and there the order does not matter *)
Theorem exempt_flag_order t :
  wf_table t -> forall i o x a, nth_error t i = Some o -> o_kind o = KGroup ->
  (a = s_all \/ a = s_none) -> str_eqb x s_none || str_eqb x s_all = false -> x <> [] ->
  existsb (N.eqb 44) x = false -> addresses_exempt_only (o_flags o) x ->
  forall st rem post bs bs1, nth_error st i = Some (VGroup bs) -> find_flag (o_flags o) bs x = Some bs1 ->
    parse_args t st rem ((45 :: o_short o :: x) :: (45 :: o_short o :: a) :: post) =
    parse_args t st rem ((45 :: o_short o :: a) :: (45 :: o_short o :: x) :: post).
Proof.
  intros Hwf i o x a Hn Hk Ha Hx Hxn Hxc He st rem post bs bs1 Hst Hf.
  assert (a <> [] /\ split_on 44 a = [a]) as [Han Hac]
    by (destruct Ha as [-> | ->]; split; (discriminate || reflexivity)).
  rewrite <- !(group_comma_eq_repeat_short t Hwf i o _ _ Hn Hk) by assumption.
  rewrite !(spells_short_attached t Hwf i o Hn) by (congruence || apply not_eq_sym, app_cons_not_nil).
  unfold handle_long_option. rewrite Hk, Hst.
  unfold group_step. rewrite !split_on_app, (split_on_none _ _ Hxc), Hac.
  change ([x] ++ [a]) with [x; a]. change ([a] ++ [x]) with [a; x].
  rewrite (exempt_flag_commutes _ _ _ _ _ Ha Hx He Hf). reflexivity.
Qed.

(* pkglint's own table: -Werror -Wall and -Wall -Werror end with the same settings, error on *)
Example werror_wall_order :
  parse option_table [[112]; [45; 87; 101; 114; 114; 111; 114]; [45; 87; 97; 108; 108]] =
  parse option_table [[112]; [45; 87; 97; 108; 108]; [45; 87; 101; 114; 114; 111; 114]] /\
  (exists st rem, parse option_table [[112]; [45; 87; 101; 114; 114; 111; 114]; [45; 87; 97; 108; 108]] = ROk st rem /\
     last st (VBool false) = VGroup [true; true; true; true]).
Proof. split; [vm_compute; reflexivity|]. eexists. eexists. split; vm_compute; reflexivity. Qed.
