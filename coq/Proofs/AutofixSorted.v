(* C03: histories that end with the PLIST sorter.  The log is consistent with the
   bytes on disk provided that no replacement touches a line terminator. *)
From PV Require Import Lib.Bytes Spec.ApplyLog Model.Autofix Proofs.ApplyLog Proofs.Autofix Proofs.AutofixSort.
From Coq Require Import Lia Permutation.
Open Scope Z_scope.

Definition no_nl (s : str) : bool := forallb (fun c => negb (c =? 10)%N) s.

(* no argument of Replace / ReplaceAfter / ReplaceAt contains a newline; the text that
   ReplaceAfter looks for (prefix ++ from) is not empty *)
Definition op_guard (p : op) : bool :=
  match p with
  | OReplaceAfter pre f t => no_nl pre && no_nl f && no_nl t && negb (Autofix.is_nil (pre ++ f))
  | OReplaceAt _ _ f t => no_nl f && no_nl t
  | _ => true
  end.

Definition event_guard (e : event) : bool :=
  match e with
  | ETxn t => forallb op_guard (t_ops t)
  | _ => true
  end.

Definition no_newline_args (evs : list event) : bool := forallb event_guard evs.

Lemma no_nl_ends (s : str) : no_nl s = true -> ends_nl s = false.
Proof.
  intro H. induction s as [|c r _] using rev_ind; [reflexivity|].
  unfold ends_nl. rewrite rev_unit. unfold no_nl in H. rewrite forallb_app in H. cbn in H.
  destruct (c =? 10)%N; [rewrite andb_false_r in H; discriminate|reflexivity].
Qed.

Lemma no_nl_app a b : no_nl (a ++ b) = no_nl a && no_nl b.
Proof. unfold no_nl. apply forallb_app. Qed.

Lemma replace_keeps_nl (a from to b : str) :
  no_nl from = true -> from ++ b <> [] -> nil_or_nl (a ++ from ++ b) -> nil_or_nl (a ++ to ++ b).
Proof.
  intros Hn Hne [E|He]; [apply app_eq_nil in E as [_ E]; contradiction|right].
  assert (Hb : b <> []).
  { intro E. subst b. rewrite app_nil_r in *.
    rewrite ends_nl_app_nonempty, no_nl_ends in He by assumption. discriminate. }
  rewrite app_assoc in *. rewrite ends_nl_app_nonempty in * by exact Hb. exact He.
Qed.

Definition terminated (l : list str) : Prop := Forall (fun a => ends_nl a = true) l.

Lemma terminated_snoc l t : terminated l -> terminated (l ++ [t ++ Autofix.nl]).
Proof. intro H. apply Forall_app. split; [exact H|]. constructor; [apply ends_nl_snoc|constructor]. Qed.

Definition term_parts (raws : list str) (p : parts) : Prop :=
  (terminated raws -> Forall nil_or_nl (p_texts p)) /\ terminated (p_above p) /\ terminated (p_below p).

Definition term_line (l : line) : Prop := term_parts (l_raw l) (cur l).

Lemma term_set_text raws p j t t' :
  nth_error (p_texts p) j = Some t -> (nil_or_nl t -> nil_or_nl t') ->
  term_parts raws p -> term_parts raws (Parts (p_above p) (set_nth j t' (p_texts p)) (p_below p)).
Proof.
  intros Hn Ht (T & AB). split; [|exact AB]. intro R. specialize (T R).
  eapply Forall_set_nth; [exact Hn|exact T|].
  apply Ht. exact (proj1 (Forall_forall _ _) T _ (nth_error_In _ _ Hn)).
Qed.

Lemma last_terminated_term ts below : Forall nil_or_nl ts -> Forall nil_or_nl (last_terminated ts below).
Proof.
  intro T. unfold last_terminated. destruct (rev ts) as [|tl r] eqn:Er; [exact T|]. apply rev_last_nth in Er.
  eapply Forall_set_nth; [exact Er|exact T|]. unfold terminate_for_insert. cbn [b_text b_below].
  destruct (_ && _); [right; apply ends_nl_snoc|exact (proj1 (Forall_forall _ _) T _ (nth_error_In _ _ Er))].
Qed.

Lemma edit_term o n m p op q acts raws :
  op_guard op = true -> edit o n m p op q acts -> term_parts raws p -> term_parts raws q.
Proof.
  intros G Ed Tp. pose proof Tp as (T & A & B).
  destruct Ed as [pre from to j x y _ Hn|pre from to j IA|j ti from to x y Hn Hne|t|t| |ri]; cbn [op_guard] in G;
    try exact Tp.
  - apply andb_true_iff in G as [G Gne]. apply andb_true_iff in G as [G _]. apply andb_true_iff in G as [Gp Gf].
    apply (term_set_text raws p j _ _ Hn); [|exact Tp].
    apply replace_keeps_nl; [rewrite no_nl_app, Gp, Gf; reflexivity|].
    intro E. apply app_eq_nil in E as [E _]. rewrite E in Gne. discriminate.
  - apply andb_true_iff in G as [Gf _].
    apply (term_set_text raws p j _ _ Hn); [|exact Tp]. apply replace_keeps_nl; assumption.
  - split; [exact T|]. split; [apply terminated_snoc; exact A|exact B].
  - split; [intro R; apply last_terminated_term, T, R|]. split; [exact A|apply terminated_snoc; exact B].
  - split; [|split; assumption]. intros _. apply Forall_forall. intros t Ht. left. exact (repeat_spec _ _ _ Ht).
Qed.

Lemma edits_term o n m p ops q acts raws :
  forallb op_guard ops = true -> edits o n m p ops q acts -> term_parts raws p -> term_parts raws q.
Proof.
  intros G Es. induction Es as [p|p op ops q acts _ IH|p op p1 a1 ops q acts Ed _ IH]; [auto| |];
    cbn [forallb] in G; apply andb_true_iff in G as [Gp Gps]; [exact (IH Gps)|].
  intro T. exact (IH Gps (edit_term _ _ _ _ _ _ _ _ Gp Ed T)).
Qed.

Lemma flat_map_set_nth {A B} (g : A -> list B) ls i x y :
  nth_error ls i = Some x -> g y = g x -> flat_map g (set_nth i y ls) = flat_map g ls.
Proof.
  intros En E. apply nth_error_split in En as (s1 & s2 & -> & <-).
  rewrite set_nth_split, !flat_map_app. cbn [flat_map]. rewrite E. reflexivity.
Qed.

Definition term_inv (file content : str) (raws : list str) (n : nat) (st : state) : Prop :=
  inv file content st /\ Forall term_line (s_store st) /\
  flat_map l_raw (s_store st) = raws /\ length (s_store st) = n.

Lemma step_term o keys file content raws n e st st' :
  o_autofix o = true -> no_sort_event e /\ event_guard e = true ->
  term_inv file content raws n st -> step o keys e st = Ok st' -> term_inv file content raws n st'.
Proof.
  intros Ha [Hn G] (I & T & R & L) H. split; [exact (step_inv o keys file content e st st' Ha Hn I H)|].
  destruct e as [t| | |f x c]; try contradiction.
  - apply step_txn in H as [->|(l0 & l1 & printed & En & DT & ->)]; [auto|]. cbn [s_store].
    assert (I0 : idle l0) by (exact (proj1 (Forall_forall _ _) (inv_idle _ _ _ I) _ (nth_error_In _ _ En))).
    assert (T0 : term_line l0) by (exact (proj1 (Forall_forall _ _) T _ (nth_error_In _ _ En))).
    destruct (do_txn_spec o t l0 l1 printed Ha I0 DT) as (text & q & -> & Es).
    split; [eapply Forall_set_nth; [exact En|exact T|exact (edits_term _ _ _ _ _ _ _ _ G Es T0)]|].
    rewrite set_nth_length, (flat_map_set_nth l_raw _ _ _ (settled l0 text q printed) En eq_refl). auto.
  - cbn [step] in H. destruct (save o (s_store st)). inversion H. auto.
  - cbn [step] in H. unfold bind in H. destruct (check_executable o f x c) as [[pr ops]|]; [|discriminate].
    inversion H. auto.
Qed.

Lemma mk_lines_length file groups : forall start, length (mk_lines file start groups) = length groups.
Proof. induction groups as [|[r t] gs IH]; intro start; cbn; [reflexivity|]. rewrite IH. reflexivity. Qed.

Lemma term_plain raws : term_parts raws (Parts [] raws []).
Proof. split; [|split; constructor]. apply Forall_impl. intros a H. right. exact H. Qed.

Lemma mk_lines_term file groups : forall start, Forall term_line (mk_lines file start groups).
Proof. induction groups as [|[r t] gs IH]; intro start; cbn; constructor; [apply term_plain|apply IH]. Qed.

Lemma run_term o keys file content groups evs st :
  o_autofix o = true -> wf_groups content groups -> Forall no_sort_event evs -> no_newline_args evs = true ->
  run o keys evs (init_state file groups) = Ok st ->
  term_inv file content (concat (map fst groups)) (length groups) st.
Proof.
  intros Ha Wg Hn G. apply (run_invariant o keys (fun e => no_sort_event e /\ event_guard e = true)).
  - intros e s s'. apply step_term. exact Ha.
  - apply Forall_and; [exact Hn|]. apply Forall_forall. apply forallb_forall. exact G.
  - split; [exact (init_inv file content groups Wg)|]. split; [apply mk_lines_term|].
    split; [apply mk_lines_raws|apply mk_lines_length].
Qed.

Lemma blocks_from_term a b ts :
  terminated a -> terminated b -> Forall nil_or_nl ts ->
  Forall (fun x => nil_or_nl (flat_block x)) (blocks_from a b ts).
Proof.
  intros Ta Tb Tt. revert a Ta; induction Tt as [|t ts Ht _ IH]; intros a Ta; cbn [blocks_from]; constructor.
  - unfold flat_block. cbn [b_above b_text b_below]. apply nil_or_nl_app; [apply nil_or_nl_concat; exact Ta|].
    apply nil_or_nl_app; [exact Ht|]. destruct ts; [apply nil_or_nl_concat; exact Tb|left; reflexivity].
  - apply IH. constructor.
Qed.

Lemma store_blocks_term store :
  Forall term_line store -> terminated (flat_map l_raw store) ->
  Forall (fun b => nil_or_nl (flat_block b)) (blocks_of_store store).
Proof.
  intros T R. apply Forall_flat_map. eapply Forall_impl; [|exact (Forall_and T (proj1 (Forall_flat_map _ _ _) R))].
  intros l [(Tt & Ta & Tb) Rl]. exact (blocks_from_term _ _ _ Ta Tb (Tt Rl)).
Qed.

(* the last raw line is the only one that the file's content does not show to be terminated *)
Lemma all_raws_terminated store :
  last_raw_terminated store -> Forall wf_line store ->
  terminated (removelast (flat_map l_raw store)) -> terminated (flat_map l_raw store).
Proof.
  intros L W Hr. induction store as [|ll rs _] using rev_ind; [constructor|].
  apply Forall_app in W as [_ Wl]. inversion Wl as [|? ? (_ & W2 & _) _]; subst.
  unfold last_raw_terminated in L. rewrite rev_unit in L.
  rewrite flat_map_app in *. cbn [flat_map] in *. rewrite app_nil_r in *.
  set (raws := l_raw ll) in *. clearbody raws.
  induction raws as [|x rr _] using rev_ind; [contradiction W2; reflexivity|]. rewrite rev_unit in L.
  rewrite app_assoc in *. rewrite removelast_last in Hr.
  apply Forall_app. split; [exact Hr|]. constructor; [exact L|constructor].
Qed.

(* C03: after a guarded history that ends with the sorter, the bytes on disk are the old
   bytes with the logged actions, "Sorting the whole file." included, applied *)
Theorem save_consistent_with_log_sorted_partial o keys file content groups evs st :
  o_autofix o = true -> wf_groups content groups -> length keys = length groups ->
  Forall no_sort_event evs -> no_newline_args evs = true ->
  run o keys (evs ++ [ESort]) (init_state file groups) = Ok st ->
  consistent content (entries_of file (s_log st)) (disk_after file content None (s_ops st)) = true.
Proof.
  intros Ha Wg Hk Hn G R. rewrite run_app in R. unfold bind in R.
  destruct (run o keys evs (init_state file groups)) as [s1|] eqn:R1; [|discriminate].
  destruct (run_term o keys file content groups evs s1 Ha Wg Hn G R1) as (I1 & T1 & Raw1 & Len1).
  cbn [run step bind] in R. unfold bind in R.
  destruct (plist_sort o keys (s_store s1)) as [[[[store' printed] ops] af]|] eqn:PS; [|discriminate].
  inversion R; subst st. clear R. cbn [s_log s_ops].
  apply plist_sort_cases in PS as [H|(first & l0 & idx & l4 & pr & Pi & LT & En & SF & H)];
    cbv zeta in H; inversion H; subst store' printed ops af; clear H.
  - (* the sorter did nothing but the save at its end *)
    rewrite app_nil_r. cbn [app]. rewrite (inv_save o file content s1 Ha I1). apply reach_consistent; apply I1.
  - (* the sorter ran: one save of [view], a permutation of the lines *)
    destruct (SF (inv_idle _ _ _ I1)) as [-> ->]. rewrite (is_autofix_on o Ha).
    pose proof (proj1 (Forall_forall _ _) (inv_wf _ _ _ I1) _ (nth_error_In _ _ En)) as W0.
    pose proof (proj1 (Forall_forall _ _) (inv_file _ _ _ I1) _ (nth_error_In _ _ En)) as F0.
    set (store' := set_nth first (sorted_line l0) (s_store s1)).
    match goal with |- context [save o ?v] => set (view := v) end.
    assert (Pv : Permutation view store').
    { apply (view_perm _ idx keys); [unfold store'; rewrite set_nth_length; congruence|exact Pi]. }
    (* the sorted line differs from l0 in the fix's flags only *)
    assert (V : forall P : line -> Prop, Forall P (s_store s1) -> P (sorted_line l0) -> Forall P view).
    { intros P Hs H0. apply (Permutation_Forall (Permutation_sym Pv)).
      exact (Forall_set_nth P _ first _ _ En Hs H0). }
    pose proof (V _ (inv_file _ _ _ I1) F0) as Fv. pose proof (V _ (inv_wf _ _ _ I1) W0) as Wv.
    assert (Pb : Permutation (blocks_of_store view) (blocks_of_store (s_store s1))).
    { transitivity (blocks_of_store store'); [apply Permutation_flat_map; exact Pv|].
      apply Permutation_refl'. exact (flat_map_set_nth blocks_of_line _ _ _ (sorted_line l0) En eq_refl). }
    assert (Mv : existsb line_modified view = true).
    { apply existsb_exists. exists (sorted_line l0). split; [|reflexivity].
      apply (Permutation_in _ (Permutation_sym Pv)).
      eapply nth_error_In, nth_error_set_nth, nth_error_Some. congruence. }
    rewrite (save_single o file view Ha Fv), Mv. cbn [fst snd app].
    rewrite disk_after_paired by apply I1. rewrite app_nil_r.
    rewrite <- (app_nil_r (save_seq _ _)), disk_after_save_seq. cbn [disk_after].
    rewrite <- (file_content_blocks file view Wv Fv), entries_of_app, (entries_of_log_of file (sorted_line l0) _ F0).
    apply (reach_consistent_sorted content _ (blocks_of_store (s_store s1))); [| |exact Pb|].
    + eapply reach_app; [apply I1|]. apply reach_one. left. reflexivity.
    + rewrite has_sort_app. apply orb_true_r.
    + apply (Permutation_Forall (Permutation_sym Pb)). apply store_blocks_term; [exact T1|].
      apply all_raws_terminated; [|apply I1|].
      * rewrite firstn_all2 in LT by lia. exact LT.
      * rewrite Raw1, (proj1 Wg). apply phys_lines_terminated.
Qed.

(* without the guard the statement is false *)
Definition save_consistent_with_log_sorted_full : Prop :=
  forall o keys file content groups evs st,
    o_autofix o = true -> wf_groups content groups -> length keys = length groups ->
    Forall no_sort_event evs ->
    run o keys (evs ++ [ESort]) (init_state file groups) = Ok st ->
    consistent content (entries_of file (s_log st)) (disk_after file content None (s_ops st)) = true.

(* PLIST "b\na\n"; a fix replaces the terminator of line 2 by nothing; the sorter then
   puts the unterminated "a" in front of "b\n": the file is "ab\n" *)
Definition sx_file : str := [47;102]%N.
Definition sx_content : str := [98;10;97;10]%N.
Definition sx_groups : list (list str * str) := [([[98;10]%N], [98]%N); ([[97;10]%N], [97]%N)].
Definition sx_keys : list pkey := map (fun g => new_pkey (snd g)) sx_groups.
Definition sx_evs : list event := [ETxn (Txn 1 [68;46]%N [OReplaceAfter [] [10]%N []])].

Theorem save_consistent_with_log_sorted_refuted : ~ save_consistent_with_log_sorted_full.
Proof.
  intro H.
  destruct (run (Opts true false []) sx_keys (sx_evs ++ [ESort]) (init_state sx_file sx_groups)) as [st|] eqn:R;
    [|vm_compute in R; discriminate].
  assert (W : wf_groups sx_content sx_groups).
  { split; [vm_compute; reflexivity|repeat constructor; discriminate]. }
  specialize (H (Opts true false []) sx_keys sx_file sx_content sx_groups sx_evs st
                eq_refl W eq_refl ltac:(repeat constructor) R).
  vm_compute in R. inversion R; subst st. vm_compute in H. discriminate.
Qed.

Example sorted_refutation_disk :
  exists st, run (Opts true false []) sx_keys (sx_evs ++ [ESort]) (init_state sx_file sx_groups) = Ok st /\
             disk_after sx_file sx_content None (s_ops st) = [97;98;10]%N /\ no_newline_args sx_evs = false.
Proof. eexists. split; [vm_compute; reflexivity|]. split; vm_compute; reflexivity. Qed.
