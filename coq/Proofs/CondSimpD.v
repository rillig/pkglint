(* C14: the theorems about the model's rewrites, as used by Props/C14.v, and
   the refutations of the unguarded statements. *)
From PV Require Import Lib.Bytes Spec.BmakeCond Model.CondSimp
  Proofs.CondSimpA Proofs.CondSimpB Proofs.CondSimpC Proofs.CondSimpWords.
From Coq Require Import ZifyBool ZifyN ZifyNat.
Open Scope N_scope.

Lemma has_U_prefix mods c pat :
  mods <> [] -> last mods [] = c :: pat -> c <> 85 ->
  has_modifier s_U mods = true -> has_modifier s_U (removelast mods) = true.
Proof.
  intros Hne Hlast Hc. unfold has_modifier. rewrite (app_removelast_last [] Hne) at 1.
  rewrite existsb_app, Hlast. unfold has_prefix at 2, s_U. cbn [existsb strip_prefix].
  destruct (N.eqb_spec 85 c); [congruence|]. rewrite !orb_false_r. auto.
Qed.

Lemma prefix_defined cx v mods (positive : bool) pat e d s :
  mods <> [] -> last mods [] = mn positive :: pat ->
  (is_defined (cx_seen_prefs cx) (cx_var cx v) = true -> e v <> None) ->
  undefined_no_U cx v mods = false ->
  eval_expr e v (map classify_mod (removelast mods)) = Some (d, s) -> d <> DUndef.
Proof.
  intros Hne Hlast Hdef Hu Hev. apply andb_false_iff in Hu as [Hu|Hu]; apply negb_false_iff in Hu.
  - rewrite (eval_expr_defined _ _ _ _ _ (Hdef Hu) Hev). discriminate.
  - apply (has_U_prefix mods _ pat Hne Hlast) in Hu; [|destruct positive; discriminate].
    apply has_U_classify in Hu.
    unfold eval_expr in Hev. destruct (e v); eapply apply_mods_has_U; eassumption.
Qed.

(* the :N forms are rewritten only without further modifiers, for a variable isDefined vouches for *)
Lemma eval_expr_nil e v d s : e v <> None -> eval_expr e v [] = Some (d, s) -> e v = Some s.
Proof. unfold eval_expr. destruct (e v); [|congruence]. cbn [apply_mods]. congruence. Qed.

(* the one guard the Go code lacks: with :N the value is neither empty
   nor (in the bare form) a number zero *)
Definition word_N_guard (e : env) (v : str) (fe positive : bool) : Prop :=
  positive = false -> forall s, e v = Some s -> s <> [] /\ (fe = false -> truthy s false = true).

Theorem word_rewrite_partial cx v mods fe neg rw e :
  In rw (simplify_word cx v mods fe neg) ->
  exists f t pat (positive : bool),
    rw_from_c rw = Some f /\ rw_to_c rw = Some t /\
    last mods [] = (if positive then 77 else 78) :: pat /\
    ((is_defined (cx_seen_prefs cx) (cx_var cx v) = true -> e v <> None) ->
     (forall d s, eval_expr e v (map classify_mod (removelast mods)) = Some (d, s) -> wordlike s) ->
     word_N_guard e v fe positive ->
     preserves e f t).
Proof.
  intros Hin. destruct (simplify_word_inv _ _ _ _ _ _ Hin)
    as (pat & positive & Hne & Hlast & Hex & Hpne & Hlit & HN & Hnum & ->).
  do 4 eexists. split; [reflexivity|]. split; [reflexivity|]. split; [exact Hlast|].
  intros Hdef Hword G3. rewrite from_cond_shape. apply from_shape_cases. intros d s Hev.
  apply word_tree_preserves with (d := d) (s := s); try eassumption.
  - (* no nested reference in the literal: mkCondModifierPatternLiteral has no '$' *)
    apply lit_pattern_no_dollar, Hlit.
  - apply exact_plain, Hex.
  - (* the literal is compared as a string: quoted, or not a number *)
    destruct (numeric_head pat) eqn:En.
    + left. unfold needs_quotes. rewrite En. apply orb_true_r.
    + right. apply numeric_head_false_not_number; assumption.
  - exact (Hword d s Hev).
  - intros Hu _. eapply prefix_defined; eassumption.
  - (* the bare form is only rewritten for a literal that is not a number *)
    intros Hfe _. unfold truthy.
    rewrite (numeric_head_false_not_number pat (Hnum Hfe) Hlit Hpne). destruct pat; [congruence|reflexivity].
  - intros Hpos. destruct (HN Hpos) as [HNdef HNpre]. rewrite HNpre in Hev.
    apply G3; [exact Hpos|]. exact (eval_expr_nil _ _ _ _ (Hdef HNdef) Hev).
Qed.

Corollary word_rewrite_M_preserves cx v mods fe neg rw e :
  In rw (simplify_word cx v mods fe neg) ->
  (exists pat, last mods [] = 77 :: pat) ->
  exists f t, rw_from_c rw = Some f /\ rw_to_c rw = Some t /\
    ((is_defined (cx_seen_prefs cx) (cx_var cx v) = true -> e v <> None) ->
     (forall d s, eval_expr e v (map classify_mod (removelast mods)) = Some (d, s) -> wordlike s) ->
     preserves e f t).
Proof.
  intros Hin (pat0 & Hl0).
  destruct (word_rewrite_partial cx v mods fe neg rw e Hin) as (f & t & pat & positive & Hf & Ht & Hl & H).
  exists f, t. split; [exact Hf|]. split; [exact Ht|]. intros Hdef Hw. apply H; auto.
  intros Hpos. subst positive. rewrite Hl0 in Hl. discriminate.
Qed.

(* no guard: :N is only rewritten in the empty() form of a variable
   that is declared NonemptyIfDefined, and that declaration is taken as true *)
Theorem yesno_rewrite_preserves cx v mods fe neg rw e :
  In rw (fst (simplify_yesno cx v mods fe neg)) ->
  exists f t,
    rw_from_c rw = Some f /\ rw_to_c rw = Some t /\
    ((is_defined (cx_seen_prefs cx) (cx_var cx v) = true -> e v <> None) ->
     (vi_nonempty_if_defined (cx_var cx v) = true -> e v <> Some []) ->
     (forall d s, eval_expr e v (map classify_mod (removelast mods)) = Some (d, s) -> wordlike s) ->
     preserves e f t).
Proof.
  intros Hin. destruct (simplify_yesno_inv _ _ _ _ _ _ Hin)
    as (pat & positive & Hne & Hlast & Hlow & HN & ->).
  do 2 eexists. split; [reflexivity|]. split; [reflexivity|].
  intros Hdef Hnonempty Hword. rewrite from_cond_shape. apply from_shape_cases. intros d s Hev.
  apply yesno_tree_preserves with (d := d) (s := s); eauto.
  - apply to_lower_pat_yn, Hlow.
  - intros Hu _. eapply prefix_defined; eassumption.
  - intros Hpos. destruct (HN Hpos) as (HNdef & -> & Hnz & HNpre). rewrite HNpre in Hev.
    split; [|discriminate]. intros ->. apply (Hnonempty Hnz).
    exact (eval_expr_nil _ _ _ _ (Hdef HNdef) Hev).
Qed.

Theorem match_rewrite_equivalent cx v mods fe neg rw e :
  In rw (simplify_match cx v mods fe neg) ->
  exists f t pat,
    rw_from_c rw = Some f /\ rw_to_c rw = Some t /\ last mods [] = 77 :: pat /\
    (e v <> None ->   (* isDefined said so: simplifyMatch fires only then *)
     forall d r, eval_expr e v (map classify_mod (removelast mods) ++ [ModM pat]) = Some (d, r) ->
       nonempty (skip_cspace r) = nonempty r ->            (* no leading \v \f \r *)
       (* what mayMatchNumber(pat) = false is taken to promise *)
       (cx_mmn cx pat <> MmnYes -> r <> [] -> truthy r false = true) ->
       equivalent e f t).
Proof.
  intros Hin. destruct (simplify_match_inv _ _ _ _ _ _ Hin) as (pat & _ & Hlast & _ & _ & _ & _ & ->).
  do 3 eexists. split; [reflexivity|]. split; [reflexivity|]. split; [exact Hlast|].
  intros Hv d r Hev Hsp Hmay.
  apply match_tree_equivalent with (d := d) (r := r); auto.
  - rewrite (eval_expr_defined _ _ _ _ _ Hv Hev). discriminate.
  - intros Hm. apply Hmay. destruct (cx_mmn cx pat); congruence.
Qed.

(* simplifyMatch, with mayMatchNumber's promise stated on single words *)
Theorem match_rewrite_equivalent_words cx v mods fe neg rw e :
  In rw (simplify_match cx v mods fe neg) ->
  exists f t pat,
    rw_from_c rw = Some f /\ rw_to_c rw = Some t /\ last mods [] = 77 :: pat /\
    (e v <> None ->   (* isDefined said so: simplifyMatch fires only then *)
     forall d s, eval_expr e v (map classify_mod (removelast mods)) = Some (d, s) ->
       clean s ->      (* the value has no white space other than blank, tab, newline *)
       (* mayMatchNumber(pat) = false: no word that matches pat is a number *)
       (cx_mmn cx pat <> MmnYes ->
        forall w, w <> [] -> wordlike w -> str_match w pat = true -> try_parse_number w = None) ->
       equivalent e f t).
Proof.
  intros Hin. destruct (match_rewrite_equivalent cx v mods fe neg rw e Hin) as (f & t & pat & Hf & Ht & Hl & H).
  exists f, t, pat. split; [exact Hf|]. split; [exact Ht|]. split; [exact Hl|].
  intros Hv d s Hev Hcl Hnum.
  assert (Hnd : no_dollar pat = true).
  { destruct (simplify_match_inv _ _ _ _ _ _ Hin) as (pat' & Hne & Hl' & _ & _ & _ & Hsimple & _).
    apply (simple_mod_text_last mods pat Hne Hl Hsimple). }
  apply (H Hv d _ (eval_expr_M _ _ _ _ _ _ _ Hev (expand_pat_literal e pat Hnd))).
  - apply (match_result_head (fun w => str_match w pat) s Hcl).
  - intros Hm. apply (match_result_bare pat s Hcl (Hnum Hm)).
Qed.

Theorem and_rewrite_equivalent cs rw e :
  In rw (check_and cs) ->
  exists v ms, cs = [MDefined v; MNot (MEmpty v ms)] /\
    rw_from rw = s_defined_lp ++ v ++ s_rp_and /\ rw_to rw = [] /\
    equivalent e (CAnd (CDefined v) (CNot (CEmpty v (map classify_mod ms))))
                 (CNot (CEmpty v (map classify_mod ms))).
Proof.
  intros Hin. destruct (check_and_inv _ _ Hin) as (v & ms & Hcs & _ & Hf & Ht & HU).
  exists v, ms. repeat split; auto. apply and_tree_equivalent_fragment. apply no_U_keeps_empty. exact HU.
Qed.

(* a single-valued, always defined variable V; bsd.prefs.mk included *)
Definition ex_var : str := [86].
Definition ex_cx : ctx :=
  mkctx (fun _ => mkvarinfo true false false true true false true false) true (fun _ => MmnNo).
Definition ex_cx_undef : ctx :=
  mkctx (fun _ => mkvarinfo true false false false false false true false) true (fun _ => MmnNo).

(* simplifyWord without the :N guard *)
Definition word_full : Prop :=
  forall cx v mods fe neg rw e f t,
    In rw (simplify_word cx v mods fe neg) ->
    rw_from_c rw = Some f -> rw_to_c rw = Some t ->
    (is_defined (cx_seen_prefs cx) (cx_var cx v) = true -> e v <> None) ->
    (forall d s, eval_expr e v (map classify_mod (removelast mods)) = Some (d, s) -> wordlike s) ->
    preserves e f t.

Lemma not_preserves e f t x y :
  eval e f = Some x -> eval e t = Some y -> x <> TMalformed -> y <> x -> ~ preserves e f t.
Proof.
  intros Hf Ht Hx Hy H. destruct (H x Hf) as (r' & Hr & Heq). rewrite Ht in Hr. injection Hr as <-. auto.
Qed.

Definition counterexample (l : list rewrite) (e : env) : Prop :=
  exists rw f t, l = [rw] /\ rw_from_c rw = Some f /\ rw_to_c rw = Some t /\
                 eval e f = Some TFalse /\ eval e t = Some TTrue.

Definition is_tri (a : option tri) (b : tri) : bool :=
  match a, b with
  | Some TTrue, TTrue | Some TFalse, TFalse | Some TMalformed, TMalformed => true
  | _, _ => false
  end.
Lemma is_tri_sound a b : is_tri a b = true -> a = Some b.
Proof. destruct a as [[| |]|], b; simpl; congruence. Qed.

(* closed, computable form: evaluated by vm_compute on a closed boolean *)
Definition rewrite_values (l : list rewrite) (e : env) (vf vt : tri) : bool :=
  match l with
  | [rw] => match rw_from_c rw, rw_to_c rw with
            | Some f, Some t => is_tri (eval e f) vf && is_tri (eval e t) vt
            | _, _ => false
            end
  | _ => false
  end.

Lemma rewrite_values_sound l e vf vt : rewrite_values l e vf vt = true ->
  exists rw f t, l = [rw] /\ rw_from_c rw = Some f /\ rw_to_c rw = Some t /\
                 eval e f = Some vf /\ eval e t = Some vt.
Proof.
  unfold rewrite_values. destruct l as [|rw [|? ?]]; try discriminate.
  destruct (rw_from_c rw) as [f|] eqn:Ef; [|discriminate].
  destruct (rw_to_c rw) as [t|] eqn:Et; [|discriminate].
  intros H. apply andb_true_iff in H as [H1 H2]. apply is_tri_sound in H1, H2.
  exists rw, f, t. auto.
Qed.

(* ${V:Nfoo} -> ${V} != foo, V = "" (defined, empty) *)
Definition ex_N_mods : list str := [[78; 102; 111; 111]].
Lemma word_cex_N_empty :
  counterexample (simplify_word ex_cx ex_var ex_N_mods false true) (env1 ex_var (Some [])).
Proof. try unfold counterexample. apply rewrite_values_sound. vm_compute. reflexivity. Qed.

Lemma wordlike_ex_value (x : option str) (Hx : match x with Some s => wordlike s | None => True end) mods :
  mods = [] -> forall d s, eval_expr (env1 ex_var x) ex_var (map classify_mod mods) = Some (d, s) -> wordlike s.
Proof.
  intros -> d s. unfold eval_expr, env1. rewrite str_eqb_refl. destruct x; simpl; intros H; injection H as <- <-;
    [exact Hx|exact wordlike_nil].
Qed.

Theorem word_full_refuted : ~ word_full.
Proof.
  destruct word_cex_N_empty as (rw & f & t & Hl & Hf & Ht & Ef & Et). intros H.
  apply (not_preserves _ _ _ _ _ Ef Et); [discriminate..|].
  apply (H ex_cx ex_var ex_N_mods false true rw); auto.
  - rewrite Hl. left. reflexivity.
  - intros _. unfold env1. rewrite str_eqb_refl. discriminate.
  - apply (wordlike_ex_value (Some []) wordlike_nil []). reflexivity.
Qed.

(* simplifyMatch: the promise taken from mayMatchNumber is needed.
   !empty(V:M0x[0-9].) -> ${V:M0x[0-9].} when mayMatchNumber says "no", V = "0x0." :
   strtod reads 0x0. as a hexadecimal floating constant with value zero *)
Definition ex_hex_mods : list str := [[77; 48; 120; 91; 48; 45; 57; 93; 46]].
Definition ex_hex_line : str := [].
Example match_needs_mmn_promise :
  exists rw f t, simplify_match ex_cx ex_var ex_hex_mods true true = [rw] /\
    rw_from_c rw = Some f /\ rw_to_c rw = Some t /\
    eval (env1 ex_var (Some [48; 120; 48; 46])) f = Some TTrue /\
    eval (env1 ex_var (Some [48; 120; 48; 46])) t = Some TFalse.
Proof. apply rewrite_values_sound. vm_compute. reflexivity. Qed.

Definition ex_alpha : str := [97; 108; 112; 104; 97].
Definition ex_Malpha_mods : list str := [77 :: ex_alpha].

(* !empty(V:Malpha) -> ${V} == alpha : true/true for V = alpha, false/false for V = b *)
Example word_rewrite_example :
  (exists rw f t, simplify_word ex_cx ex_var ex_Malpha_mods true true = [rw] /\
    rw_from_c rw = Some f /\ rw_to_c rw = Some t /\
    eval (env1 ex_var (Some ex_alpha)) f = Some TTrue /\ eval (env1 ex_var (Some ex_alpha)) t = Some TTrue) /\
  (exists rw f t, simplify_word ex_cx ex_var ex_Malpha_mods true true = [rw] /\
    rw_from_c rw = Some f /\ rw_to_c rw = Some t /\
    eval (env1 ex_var (Some [98])) f = Some TFalse /\ eval (env1 ex_var (Some [98])) t = Some TFalse).
Proof. split; apply rewrite_values_sound; vm_compute; reflexivity. Qed.

(* the possibly undefined variable: ${V:Malpha} is malformed, ${V:U} == alpha is false *)
Example word_rewrite_undefined_example :
  exists rw f t, simplify_word ex_cx_undef ex_var ex_Malpha_mods false true = [rw] /\
    rw_from_c rw = Some f /\ rw_to_c rw = Some t /\
    eval (env1 ex_var None) f = Some TMalformed /\ eval (env1 ex_var None) t = Some TFalse.
Proof. apply rewrite_values_sound. vm_compute. reflexivity. Qed.

(* the cases repaired in /repo (docs/C14.md): no rewrite is offered *)
Example repaired_no_rewrite :
  simplify_word ex_cx ex_var [[77; 48]] false true = []                         (* ${V:M0}   *)
  /\ simplify_word ex_cx ex_var [[77; 49; 101; 49]] false true = []            (* ${V:M1e1} *)
  /\ fst (simplify_yesno ex_cx ex_var [[78; 91; 121; 89; 93]] false true) = [] (* ${V:N[yY]} *)
  /\ check_and [MDefined ex_var; MNot (MEmpty ex_var [[85; 120]])] = [].       (* defined(V) && !empty(V:Ux) *)
Proof. vm_compute. repeat split; reflexivity. Qed.

(* !empty(V:M1e1) gets its quotes: ${V} == "1e1" *)
Example repaired_quotes :
  exists rw, simplify_word ex_cx ex_var [[77; 49; 101; 49]] true true = [rw] /\
             rw_to rw = [36; 123; 86; 125; 32; 61; 61; 32; 34; 49; 101; 49; 34].
Proof. eexists. vm_compute. split; reflexivity. Qed.
