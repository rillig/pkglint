(* C14: the four rewrite kinds on trees, then the link to the model: what
   simplify_word / simplify_yesno / simplify_match / check_and return, read off
   their definitions (texts and trees together), and what their gates imply. *)
From PV Require Import Lib.Bytes Gen.CondSimpSets Spec.BmakeCond Model.CondSimp
  Proofs.CondSimpA Proofs.CondSimpB Proofs.CondSimpWords Proofs.CondSimpF.
From Coq Require Import ZifyBool ZifyN ZifyNat.
Open Scope N_scope.

(* :Mword / :Nword  ->  == word / != word *)
Theorem word_tree_preserves e v pms pat positive from_empty neg add_u quoted d s :
  no_dollar pat = true ->
  forallb plain_byte pat = true -> pat <> [] ->
  (quoted = true \/ try_parse_number pat = None) ->
  eval_expr e v pms = Some (d, s) -> wordlike s ->
  (add_u = false -> from_empty = true -> d <> DUndef) ->
  (from_empty = false -> positive = true -> truthy pat false = true) ->
  (positive = false -> s <> [] /\ (from_empty = false -> truthy s false = true)) ->
  preserves e
    (from_shape neg from_empty v (pms ++ [if positive then ModM pat else ModN pat]))
    (CCmp (LExpr v (u_mods add_u ++ pms)) (Bool.eqb neg positive) (rhs_leaf quoted pat)).
Proof.
  intros Hnd Hlit Hne Hq Hev Hs Hdef Hbare HN.
  apply core_preserves with (key := fun x => x) (d := d) (s := s); auto.
  - apply expand_pat_literal. exact Hnd.
  - intros x _. apply str_match_literal. exact Hlit.
  - intros Hfe Hpos Hm. rewrite str_match_literal in Hm by exact Hlit.
    apply str_eqb_spec in Hm. subst s. auto.
Qed.

Lemma yn_pattern_no_dollar p ls : yn_pattern p ls -> no_dollar p = true.
Proof.
  induction 1 as [|a b l p ls H _ IH]; [reflexivity|].
  repeat (apply no_dollar_cons; split); try exact IH; unfold is_upper, is_lower in H; lia.
Qed.

(* :M[yY][eE][sS]  ->  :tl} == yes *)
Theorem yesno_tree_preserves e v pms pat ls positive from_empty neg add_u d s :
  yn_pattern pat ls -> ls <> [] ->
  eval_expr e v pms = Some (d, s) -> wordlike s ->
  (add_u = false -> from_empty = true -> d <> DUndef) ->
  (positive = false -> s <> [] /\ (from_empty = false -> truthy s false = true)) ->
  preserves e
    (from_shape neg from_empty v (pms ++ [if positive then ModM pat else ModN pat]))
    (CCmp (LExpr v (u_mods add_u ++ pms ++ [ModTl])) (Bool.eqb neg positive) (rhs_leaf false ls)).
Proof.
  intros Hyn Hne Hev Hs Hdef HN.
  pose proof (yn_pattern_lower _ _ Hyn) as Hlow.
  apply core_preserves with (key := lower) (d := d) (s := s); auto.
  - apply expand_pat_literal. eapply yn_pattern_no_dollar. exact Hyn.
  - intros x _. apply str_match_yn. exact Hyn.
  - intros d0 s0 H. rewrite app_assoc. rewrite (eval_expr_snoc _ _ _ ModTl _ _ H). reflexivity.
  - right. apply (first_not_number is_lower); [|exact Hne|exact Hlow].
    intros c Hc. apply alpha_head_ok. unfold is_alpha. rewrite Hc. reflexivity.
  - (* a word that matches begins with a letter: as a bare expression it is "true" *)
    intros _ _ Hm. rewrite (str_match_yn _ _ _ Hyn) in Hm. apply str_eqb_spec in Hm.
    assert (Hsne : s <> []) by (intros ->; simpl in Hm; congruence).
    unfold truthy. rewrite (first_not_number (fun c => is_lower (to_lower c)) s lower_head_ok Hsne).
    + destruct s; [congruence|reflexivity].
    + rewrite forallb_forall in *. intros c Hc. apply Hlow. rewrite <- Hm. apply in_map, Hc.
Qed.

(* !empty(V:Mpat) -> ${V:Mpat} [!= ""] *)
Theorem match_tree_equivalent e v ms (neg may : bool) d r :
  eval_expr e v ms = Some (d, r) ->
  d <> DUndef ->                                  (* the variable is defined, as pkglint assumed *)
  nonempty (skip_cspace r) = nonempty r ->         (* no leading \v \f \r *)
  (may = false -> r <> [] -> truthy r false = true) ->   (* what mayMatchNumber = false promises *)
  equivalent e
    (if neg then CNot (CEmpty v ms) else CEmpty v ms)
    (let inner := if may then CCmp (LExpr v ms) false (LQuoted []) else CLeaf (LExpr v ms) in
     if neg then inner else CNot inner).
Proof.
  intros Hev Hd Hsp Hmay. unfold equivalent.
  assert (He : eval e (CEmpty v ms) = Some (tri_of_bool (negb (nonempty r)))).
  { rewrite (eval_empty _ _ _ _ _ Hev). rewrite Hsp. reflexivity. }
  assert (Hi : eval e (if may then CCmp (LExpr v ms) false (LQuoted []) else CLeaf (LExpr v ms))
               = Some (tri_of_bool (nonempty r))).
  { destruct may.
    - rewrite (eval_cmp _ _ _ _ _ false (LQuoted []) [] true Hev eq_refl), tri_of_def_defined by exact Hd.
      destruct r; reflexivity.
    - rewrite (eval_bare _ _ _ _ _ Hev). rewrite tri_of_def_defined by exact Hd.
      destruct r as [|c r]; [reflexivity|]. rewrite Hmay by (reflexivity || discriminate). reflexivity. }
  cbv zeta. destruct neg; rewrite ?eval_not, He, Hi; destruct (nonempty r); reflexivity.
Qed.

(* defined(V) && !empty(V...)  ->  !empty(V...) *)
Theorem and_tree_equivalent e v ms :
  (e v = None -> forall d r, eval_expr e v ms = Some (d, r) -> skip_cspace r = []) ->
  equivalent e (CAnd (CDefined v) (CNot (CEmpty v ms))) (CNot (CEmpty v ms)).
Proof.
  intros H. unfold equivalent. cbn [eval]. destruct (e v) as [x|] eqn:Ev; cbn [tri_of_bool].
  - reflexivity.
  - destruct (eval_expr e v ms) as [[d r]|] eqn:Ee; [|reflexivity].
    rewrite (H eq_refl d r eq_refl). reflexivity.
Qed.

(* modifiers that cannot make a value out of nothing *)
Definition keeps_empty (m : modifier) : bool :=
  match m with ModU dflt => match dflt with [] => true | _ => false end | _ => true end.

Lemma apply_mods_keeps_empty e ms : forallb keeps_empty ms = true ->
  forall d0 d r, d0 <> DRegular -> apply_mods e ms (d0, []) = Some (d, r) -> r = [].
Proof.
  induction ms as [|m ms IH]; intros Hk d0 d r Hd0 H; cbn [forallb apply_mods apply_mod] in *; [congruence|].
  apply andb_true_iff in Hk as [Hm Hk].
  destruct m as [pat|pat| |dflt|]; try destruct (expand_pat e pat); try discriminate;
    try (eapply IH; eassumption).
  destruct dflt; [|discriminate]. destruct d0; [congruence| |]; (eapply IH; [exact Hk| |exact H]; discriminate).
Qed.

Theorem and_tree_equivalent_fragment e v ms :
  forallb keeps_empty ms = true ->
  equivalent e (CAnd (CDefined v) (CNot (CEmpty v ms))) (CNot (CEmpty v ms)).
Proof.
  intros Hk. apply and_tree_equivalent. intros Hv d r H.
  unfold eval_expr in H. rewrite Hv in H.
  rewrite (apply_mods_keeps_empty e ms Hk DUndef d r) by (assumption || discriminate). reflexivity.
Qed.

Lemma in_set_true_In set c : in_set set c = true -> In c set.
Proof.
  unfold in_set. intros H. apply existsb_exists in H as (x & Hin & Hx). apply N.eqb_eq in Hx. subst. exact Hin.
Qed.

Lemma set_no_dollar set : in_set set 36 = false ->
  forall p, forallb (in_set set) p = true -> no_dollar p = true.
Proof.
  intros Hset. induction p as [|c p IH]; [reflexivity|]. cbn [forallb]. intros H.
  apply andb_true_iff in H as [Hc Hp]. apply no_dollar_cons. split; [|apply IH; exact Hp].
  intros ->. congruence.
Qed.

Lemma lit_pattern_no_dollar p : forallb (in_set lit_pattern_set) p = true -> no_dollar p = true.
Proof. apply set_no_dollar. vm_compute. reflexivity. Qed.

Lemma simple_mod_no_dollar p : forallb (in_set simple_mod_set) p = true -> no_dollar p = true.
Proof. apply set_no_dollar. vm_compute. reflexivity. Qed.

(* MatchMatch's "exact" means: none of the bytes Str_Match treats specially *)
Lemma exact_plain p : existsb (in_set match_special_set) p = false -> forallb plain_byte p = true.
Proof.
  pose proof match_special_covers as Hcov. rewrite forallb_forall in Hcov.
  intros H. apply forallb_forall. intros c Hc.
  assert (Hns : in_set match_special_set c = false).
  { destruct (in_set match_special_set c) eqn:E; [|reflexivity]. rewrite <- H. symmetry. apply existsb_exists. eauto. }
  unfold plain_byte. apply negb_true_iff. rewrite !orb_false_iff, !N.eqb_neq.
  repeat split; intros ->; rewrite Hcov in Hns by (simpl; auto); discriminate.
Qed.

Lemma lit_pattern_wordlike p : forallb (in_set lit_pattern_set) p = true -> wordlike p.
Proof.
  assert (Hset : forallb (fun c => negb (is_cspace c)) lit_pattern_set = true) by (vm_compute; reflexivity).
  rewrite forallb_forall in Hset.
  induction p as [|c p IH]; [reflexivity|]. cbn [forallb]. intros H. apply andb_true_iff in H as [Hc Hp].
  apply wordlike_cons. split; [|apply IH; exact Hp].
  apply in_set_true_In in Hc. specialize (Hset c Hc). destruct (is_cspace c); [discriminate|reflexivity].
Qed.

(* 'M' / 'N' *)
Definition mn (positive : bool) : N := if positive then 77 else 78.

Lemma match_match_inv m ok positive pattern exact :
  match_match m = (ok, positive, pattern, exact) -> ok = true ->
  m = mn positive :: pattern /\ exact = negb (existsb (in_set match_special_set) pattern).
Proof.
  unfold match_match. destruct m as [|c p]; [intros H; inversion H; discriminate|].
  destruct (N.eqb_spec c 77) as [->|]; [intros H; inversion H; auto|].
  destruct (N.eqb_spec c 78) as [->|]; intros H; inversion H; subst; [auto|discriminate].
Qed.

Lemma classify_mod_MN (positive : bool) pat :
  classify_mod ((if positive then 77 else 78) :: pat) = if positive then ModM pat else ModN pat.
Proof. destruct positive; reflexivity. Qed.

Lemma has_U_classify ms : has_modifier s_U ms = true -> existsb is_ModU (map classify_mod ms) = true.
Proof.
  unfold has_modifier. induction ms as [|m ms IH]; [discriminate|]. cbn [existsb map]. intros H.
  apply orb_true_iff in H as [H|H]; [|rewrite (IH H); apply orb_true_r].
  unfold has_prefix, s_U in H. destruct m as [|c m']; cbn [strip_prefix] in H; [discriminate|].
  destruct (N.eqb_spec 85 c) as [<-|]; [reflexivity|discriminate].
Qed.

Lemma classify_mod_U m d : classify_mod m = ModU d -> m = 85 :: d.
Proof.
  unfold classify_mod. intros E.
  repeat match type of E with
         | context [match ?x with _ => _ end] => destruct x; try discriminate E
         end.
  congruence.
Qed.

Lemma no_U_keeps_empty ms : has_modifier s_U ms = false -> forallb keeps_empty (map classify_mod ms) = true.
Proof.
  unfold has_modifier. induction ms as [|m ms IH]; [reflexivity|]. cbn [existsb map forallb]. intros H.
  apply orb_false_iff in H as [Hm H]. rewrite (IH H), andb_true_r.
  destruct (classify_mod m) as [? | ? | | d | ?] eqn:E; try reflexivity.
  apply classify_mod_U in E. subst m. unfold has_prefix, s_U in Hm. cbn [strip_prefix] in Hm. discriminate.
Qed.

Lemma numeric_head_false_not_number pat :
  numeric_head pat = false -> forallb (in_set lit_pattern_set) pat = true -> pat <> [] ->
  try_parse_number pat = None.
Proof.
  destruct pat as [|c r]; [congruence|]. intros Hn Hl _.
  apply lit_pattern_wordlike, wordlike_cons in Hl as [Hsp _].
  apply head_not_number. unfold head_ok. rewrite Hsp.
  unfold numeric_head, in_set, numeric_head_set in Hn. cbn [existsb] in Hn.
  unfold is_digit. lia.
Qed.

Lemma from_cond_shape neg fe positive v prefix pat :
  from_cond neg fe positive v prefix pat =
  from_shape neg fe v (map classify_mod prefix ++ [if positive then ModM pat else ModN pat]).
Proof. reflexivity. Qed.

(* the gate shared by the three: a last modifier :M or :N, :N only as the one modifier *)
Lemma last_mod_inv mods ok positive pattern exact :
  match_match (last mods []) = (ok, positive, pattern, exact) ->
  negb ok || negb positive && negb (Nat.eqb (length mods) 1) = false ->
  last mods [] = mn positive :: pattern /\
  exact = negb (existsb (in_set match_special_set) pattern) /\
  (positive = false -> removelast mods = []).
Proof.
  intros Emm E. apply orb_false_iff in E as [Eok Elen]. apply negb_false_iff in Eok.
  destruct (match_match_inv _ _ _ _ _ Emm Eok) as [Hlast Hexact]. repeat split; auto.
  intros ->. apply negb_false_iff, Nat.eqb_eq in Elen.
  destruct mods as [|? [|? ?]]; [reflexivity..|discriminate].
Qed.

Definition undefined_no_U (cx : ctx) (v : str) (mods : list str) : bool :=
  negb (is_defined (cx_seen_prefs cx) (cx_var cx v)) && negb (has_modifier s_U mods).

Lemma simplify_word_inv cx v mods fe neg rw :
  In rw (simplify_word cx v mods fe neg) ->
  exists pat (positive : bool),
    mods <> [] /\ last mods [] = mn positive :: pat /\
    existsb (in_set match_special_set) pat = false /\ pat <> [] /\
    forallb (in_set lit_pattern_set) pat = true /\
    (positive = false -> is_defined (cx_seen_prefs cx) (cx_var cx v) = true /\ removelast mods = []) /\
    (fe = false -> numeric_head pat = false) /\
    let add_u := undefined_no_U cx v mods in
    let prefix := removelast mods in
    rw = mkrw KWord
      (from_text neg fe positive v (mods_text prefix) pat)
      (s_dollar_lbrace ++ v ++ cond_str add_u s_colon_U [] ++ mods_text prefix
       ++ [125; 32] ++ cond_str (Bool.eqb neg positive) s_eq s_ne ++ [32]
       ++ cond_str (needs_quotes pat) s_quote [] ++ pat ++ cond_str (needs_quotes pat) s_quote [])
      (Some (from_cond neg fe positive v prefix pat))
      (Some (CCmp (LExpr v (u_mods add_u ++ map classify_mod prefix))
                  (Bool.eqb neg positive) (rhs_leaf (needs_quotes pat) pat))).
Proof.
  unfold simplify_word. destruct mods as [|m0 mods']; [contradiction|].
  set (mods := m0 :: mods') in *.
  destruct (is_list (cx_var cx v)); try contradiction.
  destruct (match_match (last mods [])) as [[[ok positive] pattern] exact] eqn:Emm.
  destruct (negb ok || negb positive && negb (Nat.eqb (length mods) 1) || negb exact
            || match pattern with [] => true | _ => false end) eqn:E1; [contradiction|].
  destruct (negb (forallb (in_set lit_pattern_set) pattern)) eqn:E2; [contradiction|].
  destruct (numeric_head pattern && negb fe) eqn:Enum; [contradiction|].
  destruct (negb (is_defined (cx_seen_prefs cx) (cx_var cx v)) && negb positive) eqn:E3; [contradiction|].
  intros [<-|[]]. apply orb_false_iff in E1 as [E1 Ene]. apply orb_false_iff in E1 as [E1 Eex].
  destruct (last_mod_inv _ _ _ _ _ Emm E1) as (Hlast & -> & HN).
  apply negb_false_iff in E2. rewrite negb_involutive in Eex.
  exists pattern, positive. repeat split; try reflexivity; auto; try discriminate.
  - destruct pattern; discriminate.
  - subst positive. destruct (is_defined _ _); [reflexivity|discriminate E3].
  - intros ->. destruct (numeric_head pattern); [discriminate Enum|reflexivity].
Qed.

Lemma yesno_lower_yn n : forall p l, (length p <= n)%nat -> yesno_lower p = Some l -> yn_pattern p l.
Proof.
  induction n as [|n IH]; intros p l Hlen H.
  - destruct p; [|inversion Hlen]. injection H as <-. constructor.
  - destruct p as [|a [|b [|c [|d r']]]]; cbn [yesno_lower] in H; try discriminate.
    + injection H as <-. constructor.
    + destruct ((a =? 91) && (d =? 93)) eqn:E; [|discriminate].
      apply andb_true_iff in E as [Ea Ed]. apply N.eqb_eq in Ea, Ed. subst a d.
      assert (Hr : forall l', yesno_lower r' = Some l' -> yn_pattern r' l').
      { intros l'. apply IH. cbn [length] in Hlen. lia. }
      destruct (is_upper b && (c =? b + 32)) eqn:E1; [|destruct (is_lower b && (c + 32 =? b)) eqn:E2; [|discriminate]];
        destruct (yesno_lower r') as [l'|]; try discriminate; injection H as <-;
        (constructor; [lia|apply Hr; reflexivity]).
Qed.

Lemma to_lower_pat_yn p : to_lower_pat p <> [] -> yn_pattern p (to_lower_pat p).
Proof.
  unfold to_lower_pat. destruct (yesno_lower p) as [l|] eqn:E; [|congruence].
  intros _. apply (yesno_lower_yn (length p)); [apply le_n|exact E].
Qed.

Lemma simplify_yesno_inv cx v mods fe neg rw :
  In rw (fst (simplify_yesno cx v mods fe neg)) ->
  exists pat (positive : bool),
    mods <> [] /\ last mods [] = mn positive :: pat /\ to_lower_pat pat <> [] /\
    (positive = false -> is_defined (cx_seen_prefs cx) (cx_var cx v) = true /\ fe = true
                         /\ vi_nonempty_if_defined (cx_var cx v) = true /\ removelast mods = []) /\
    let add_u := undefined_no_U cx v mods in
    let prefix := removelast mods in
    rw = mkrw KYesNo
      (from_text neg fe positive v (mods_text prefix) pat)
      (s_dollar_lbrace ++ v ++ cond_str add_u s_colon_U [] ++ mods_text prefix
       ++ s_colon_tl ++ [125; 32] ++ cond_str (Bool.eqb neg positive) s_eq s_ne ++ [32] ++ to_lower_pat pat)
      (Some (from_cond neg fe positive v prefix pat))
      (Some (CCmp (LExpr v (u_mods add_u ++ map classify_mod prefix ++ [ModTl]))
                  (Bool.eqb neg positive) (rhs_leaf false (to_lower_pat pat)))).
Proof.
  unfold simplify_yesno. destruct mods as [|m0 mods']; [contradiction|].
  set (mods := m0 :: mods') in *.
  destruct (is_list (cx_var cx v)); try contradiction.
  destruct (match_match (last mods [])) as [[[ok positive] pattern] exact] eqn:Emm.
  destruct (negb ok || negb positive && negb (Nat.eqb (length mods) 1) || exact) eqn:E1; [contradiction|].
  destruct (to_lower_pat pattern) as [|l0 ls0] eqn:Elow; [contradiction|].
  destruct (negb positive && negb (is_defined (cx_seen_prefs cx) (cx_var cx v) && fe
                                   && vi_nonempty_if_defined (cx_var cx v))) eqn:E3; [contradiction|].
  cbn [fst]. intros [<-|[]].
  apply orb_false_iff in E1 as [E1 _]. destruct (last_mod_inv _ _ _ _ _ Emm E1) as (Hlast & _ & HN).
  exists pattern, positive. rewrite Elow. repeat split; try reflexivity; auto; try discriminate; clear Emm E1 Hlast HN; lia.
Qed.

Lemma forallb_mods_text f ms : forallb f (mods_text ms) = true -> forallb (forallb f) ms = true.
Proof.
  induction ms as [|m ms IH]; [reflexivity|]. unfold mods_text in *. cbn [map concat app forallb].
  rewrite forallb_app. intros H. apply andb_true_iff in H as [_ H]. apply andb_true_iff in H as [Hm Hms].
  rewrite Hm, (IH Hms). reflexivity.
Qed.

(* simplifyMatch's regex is on the whole modifier text, so it also restricts the pattern *)
Lemma simple_mod_text_all mods :
  simple_mod_text (mods_text mods) = true -> forallb (forallb (in_set simple_mod_set)) mods = true.
Proof.
  unfold simple_mod_text. intros H. apply forallb_mods_text. destruct (mods_text mods); [discriminate|exact H].
Qed.

Lemma simple_mod_text_last mods pat :
  mods <> [] -> last mods [] = 77 :: pat -> simple_mod_text (mods_text mods) = true -> no_dollar pat = true.
Proof.
  intros Hne Hl H. apply simple_mod_text_all in H.
  rewrite (app_removelast_last [] Hne), forallb_app, Hl in H. cbn [forallb] in H.
  rewrite andb_true_r in H. apply andb_true_iff in H as [_ H]. apply andb_true_iff in H as [_ Hp].
  apply simple_mod_no_dollar, Hp.
Qed.

Lemma simplify_match_inv cx v mods fe neg rw :
  In rw (simplify_match cx v mods fe neg) ->
  exists pat,
    mods <> [] /\ last mods [] = 77 :: pat /\ fe = true /\
    is_defined (cx_seen_prefs cx) (cx_var cx v) = true /\ pat <> [] /\
    simple_mod_text (mods_text mods) = true /\
    let prefix := removelast mods in
    let fixed := v ++ mods_text prefix ++ s_colon_M ++ pat in
    let ms := map classify_mod prefix ++ [ModM pat] in
    let may := match cx_mmn cx pat with MmnYes => true | _ => false end in
    let inner := if may then CCmp (LExpr v ms) false (LQuoted []) else CLeaf (LExpr v ms) in
    rw = mkrw KMatch
      (cond_str neg s_bang [] ++ s_empty_lp ++ fixed ++ [41])
      (cond_str neg [] s_bang ++ s_dollar_lbrace ++ fixed ++ [125] ++ cond_str may s_ne_empty [])
      (Some (if neg then CNot (CEmpty v ms) else CEmpty v ms))
      (Some (if neg then inner else CNot inner)).
Proof.
  unfold simplify_match. destruct mods as [|m0 mods']; [contradiction|].
  set (mods := m0 :: mods') in *.
  destruct (match_match (last mods [])) as [[[ok positive] pattern] exact] eqn:Emm.
  destruct (negb ok || negb positive && negb (Nat.eqb (length mods) 1)) eqn:E1; [contradiction|].
  destruct fe; [|contradiction]. destruct positive; [|contradiction]. destruct exact eqn:Eex; [contradiction|].
  destruct (negb (vi_typed (cx_var cx v))); [contradiction|].
  destruct (negb (is_defined (cx_seen_prefs cx) (cx_var cx v))) eqn:Edef; [contradiction|].
  destruct (negb (simple_mod_text (mods_text mods))) eqn:Esimple; [contradiction|].
  apply negb_false_iff in Edef, Esimple.
  destruct (last_mod_inv _ _ _ _ _ Emm E1) as (Hlast & Hexact & _).
  intros Hin. exists pattern.
  destruct pattern as [|pc pr]; [discriminate Hexact|].
  destruct (cx_mmn cx (pc :: pr)); [contradiction| |]; destruct Hin as [<-|[]];
    repeat split; auto; discriminate.
Qed.

Lemma check_and_inv cs rw :
  In rw (check_and cs) ->
  exists v ms, cs = [MDefined v; MNot (MEmpty v ms)] /\ rw_kind rw = KAnd /\
               rw_from rw = s_defined_lp ++ v ++ s_rp_and /\ rw_to rw = [] /\
               has_modifier s_U ms = false.
Proof.
  unfold check_and.
  repeat match goal with
         | |- In _ (match ?x with _ => _ end) -> _ =>
           lazymatch type of x with bool => fail | _ => destruct x; try contradiction end
         end.
  match goal with |- In _ (if ?c then _ else _) -> _ => destruct c eqn:E; [|contradiction] end.
  intros [<-|[]]. apply andb_true_iff in E as [E EU]. apply andb_true_iff in E as [E _].
  apply str_eqb_spec in E. apply negb_true_iff in EU. subst.
  do 2 eexists. repeat split; try reflexivity. exact EU.
Qed.
