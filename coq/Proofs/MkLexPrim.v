(* Lemmas about the lexer primitives of Model/MkLexPrim.v: every primitive leaves a
   suffix of the text, `since` returns exactly what was chopped off, and a loop
   whose step chops off at least one byte ends within |s|+1 rounds. *)
From PV Require Import Lib.Bytes Model.MkLexPrim Spec.MkPartition.
From Coq Require Import ZifyBool ZifyN ZifyNat.
Open Scope N_scope.

Lemma chops_suffix s r : chops s r -> is_suffix r s.
Proof. intros (c & _ & ->). exists c; reflexivity. Qed.

Lemma chops_length s r : chops s r -> (length r < length s)%nat.
Proof.
  intros (c & Hc & ->). rewrite app_length. destruct c; [congruence|simpl; lia].
Qed.

Lemma chops_cons c s : chops (c :: s) s.
Proof. exists [c]; split; [discriminate|reflexivity]. Qed.

Lemma chops_trans_suffix s r t : chops s r -> is_suffix t r -> chops s t.
Proof.
  intros (c & Hc & ->) (d & ->). exists (c ++ d). split.
  - destruct c; [congruence|discriminate].
  - rewrite app_assoc; reflexivity.
Qed.

Lemma suffix_trans_chops s r t : is_suffix r s -> chops r t -> chops s t.
Proof.
  intros (c & ->) (d & Hd & ->). exists (c ++ d). split.
  - destruct d; [congruence|]. destruct c; discriminate.
  - rewrite app_assoc; reflexivity.
Qed.

Lemma suffix_shorter_chops s r : is_suffix r s -> (length r < length s)%nat -> chops s r.
Proof.
  intros (c & ->) H. exists c. split; [|reflexivity].
  intros ->. simpl in H. lia.
Qed.

Lemma is_suffix_nil s : is_suffix [] s.
Proof. exists s. rewrite app_nil_r; reflexivity. Qed.

Lemma is_suffix_app c r : is_suffix r (c ++ r).
Proof. exists c; reflexivity. Qed.

Lemma is_suffix_later c r s : is_suffix r s -> is_suffix r (c :: s).
Proof. intro H. eapply is_suffix_trans; [exact H|apply is_suffix_cons]. Qed.

Create HintDb rest discriminated.
#[export] Hint Resolve is_suffix_refl is_suffix_nil is_suffix_later : rest.

Lemma chops_within s r mark : chops s r -> is_suffix s mark -> is_suffix r mark.
Proof. intros C. apply is_suffix_trans, chops_suffix, C. Qed.

Lemma suffix_len r s n : is_suffix r s -> (length s <= n)%nat -> (length r <= n)%nat.
Proof. intros H Hn. apply is_suffix_length in H. lia. Qed.

Lemma suffix_skipn r s : is_suffix r s -> r = skipn (length s - length r) s.
Proof.
  intros (c & ->). rewrite app_length, Nat.add_sub, skipn_app, skipn_all, Nat.sub_diag. reflexivity.
Qed.

Lemma suffix_same_length a b s : is_suffix a s -> is_suffix b s -> length a = length b -> a = b.
Proof. intros Ha Hb E. rewrite (suffix_skipn a s Ha), (suffix_skipn b s Hb), E. reflexivity. Qed.

Lemma tail2_ind {A} (P : list A -> Prop) :
  P [] -> (forall c t, P t -> P (tl t) -> P (c :: t)) -> forall s, P s.
Proof.
  intros H0 H1 s. enough (P s /\ P (tl s)) by tauto.
  induction s as [|c t [IH1 IH2]]; cbn [tl]; auto.
Qed.

Lemma since_app c r : since (c ++ r) r = c.
Proof.
  unfold since. rewrite app_length.
  replace (length c + length r - length r)%nat with (length c) by lia.
  rewrite firstn_app, Nat.sub_diag, firstn_all. simpl. apply app_nil_r.
Qed.

Lemma since_cons c s : since (c :: s) s = [c].
Proof. apply (since_app [c]). Qed.

Lemma since_suffix mark r : is_suffix r mark -> since mark r ++ r = mark.
Proof. intros (c & ->). rewrite since_app. reflexivity. Qed.

Lemma since_self s : since s s = [].
Proof. unfold since. rewrite Nat.sub_diag. reflexivity. Qed.

Lemma since_nil mark r : is_suffix r mark -> since mark r = [] -> r = mark.
Proof. intros H E. rewrite <- (since_suffix _ _ H), E. reflexivity. Qed.

Lemma since_nonempty_chops mark r : is_suffix r mark -> since mark r <> [] -> chops mark r.
Proof.
  intros H Hne. exists (since mark r). split; [exact Hne|]. symmetry; apply since_suffix; exact H.
Qed.

Lemma since_chops_nonempty mark r : chops mark r -> since mark r <> [].
Proof. intros (c & Hc & ->). rewrite since_app. exact Hc. Qed.

Lemma skip_ok n s : (n <= length s)%nat -> skip n s = Ok (skipn n s).
Proof. intro Hn. unfold skip. destruct (Nat.leb_spec n (length s)); [reflexivity|lia]. Qed.

Lemma skip_inv n s r : skip n s = Ok r -> r = skipn n s /\ (n <= length s)%nat.
Proof.
  unfold skip. destruct (Nat.leb_spec n (length s)); [|discriminate].
  intro Hr; inversion Hr; auto.
Qed.

Lemma skip_1 c s : skip 1 (c :: s) = Ok s.
Proof. reflexivity. Qed.

Lemma skipn_suffix n s : is_suffix (skipn n s) s.
Proof. apply is_suffix_skipn. Qed.

Lemma skipn_chops n s : (0 < n)%nat -> (n <= length s)%nat -> chops s (skipn n s).
Proof.
  intros H0 H. apply suffix_shorter_chops; [apply skipn_suffix|].
  rewrite skipn_length. lia.
Qed.

Lemma skip_byte_some b s r : skip_byte b s = Some r -> s = b :: r.
Proof.
  destruct s as [|c t]; simpl; [discriminate|].
  destruct (N.eqb_spec c b); [|discriminate]. intro H; inversion H; subst; reflexivity.
Qed.

Lemma skip_byte_chops b s r : skip_byte b s = Some r -> chops s r.
Proof. intro H. apply skip_byte_some in H. subst. apply chops_cons. Qed.

Lemma skip_byte_opt_suffix b s : is_suffix (skip_byte_opt b s) s.
Proof.
  unfold skip_byte_opt. destruct (skip_byte b s) eqn:E; [|apply is_suffix_refl].
  apply chops_suffix, (skip_byte_chops _ _ _ E).
Qed.

Lemma skip_string_some p s r : skip_string p s = Some r -> s = p ++ r.
Proof. apply strip_prefix_some. Qed.

Lemma skip_string_chops p s r : p <> [] -> skip_string p s = Some r -> chops s r.
Proof. intros Hp H. exists p. split; [exact Hp|]. apply skip_string_some; exact H. Qed.

Lemma next_bytes_app f s : fst (next_bytes f s) ++ snd (next_bytes f s) = s.
Proof. apply span_app. Qed.

Lemma next_bytes_suffix f s : is_suffix (snd (next_bytes f s)) s.
Proof. exists (fst (next_bytes f s)). symmetry; apply next_bytes_app. Qed.

Lemma next_bytes_eq f s a r : next_bytes f s = (a, r) -> s = a ++ r.
Proof. intro H. pose proof (next_bytes_app f s) as E. rewrite H in E. simpl in E. congruence. Qed.

Lemma rtrim_hspace_app s : exists sp, s = rtrim_hspace s ++ sp /\ forallb is_hspace sp = true.
Proof.
  induction s as [|c t (sp & E & Hsp)]; [exists []; split; reflexivity|].
  simpl. destruct (rtrim_hspace t) as [|x t'] eqn:R.
  - destruct (is_hspace c) eqn:Hc.
    + exists (c :: t). split; [reflexivity|]. simpl. rewrite Hc. simpl in E. rewrite E. exact Hsp.
    + exists sp. split; [|exact Hsp]. simpl. simpl in E. congruence.
  - exists sp. split; [|exact Hsp]. simpl. rewrite E at 1. reflexivity.
Qed.

Lemma rtrim_hspace_cut s :
  s = rtrim_hspace s ++ skipn (length (rtrim_hspace s)) s /\
  forallb is_hspace (skipn (length (rtrim_hspace s)) s) = true.
Proof.
  destruct (rtrim_hspace_app s) as (sp & E & Hsp).
  assert (K : skipn (length (rtrim_hspace s)) s = sp).
  { rewrite E at 2. rewrite skipn_app, Nat.sub_diag, skipn_all. reflexivity. }
  rewrite K. auto.
Qed.

Lemma rtrim_hspace_skipn s : s = rtrim_hspace s ++ skipn (length (rtrim_hspace s)) s.
Proof. apply rtrim_hspace_cut. Qed.

Definition step_good (st : step) (s : str) : Prop :=
  st s = Ok None \/ exists r, st s = Ok (Some r) /\ chops s r.

Definition step_ok (st : step) (n : nat) : Prop :=
  forall s, (length s <= n)%nat -> step_good st s.

Lemma orelse_ok a b n : step_ok a n -> step_ok b n -> step_ok (orelse a b) n.
Proof.
  intros Ha Hb s Hs. unfold step_good, orelse.
  destruct (Ha s Hs) as [E | (r & E & C)]; rewrite E.
  - apply Hb; exact Hs.
  - right; exists r; split; [reflexivity|exact C].
Qed.

Lemma st_bytes_ok f n : step_ok (st_bytes f) n.
Proof.
  intros s _. unfold step_good, st_bytes.
  destruct (span f s) as [a r] eqn:E. destruct a as [|x a]; [left; reflexivity|].
  right; exists r; split; [reflexivity|]. exists (x :: a). split; [discriminate|].
  apply (next_bytes_eq f); exact E.
Qed.

Lemma st_string_ok p n : p <> [] -> step_ok (st_string p) n.
Proof.
  intros Hp s _. unfold step_good, st_string.
  destruct (skip_string p s) eqn:E; [right|left; reflexivity].
  exists s0; split; [reflexivity|]. apply (skip_string_chops p); assumption.
Qed.

Lemma st_opt_ok (f : str -> option str) n :
  (forall s r, f s = Some r -> chops s r) -> step_ok (st_opt f) n.
Proof.
  intros Hf s _. unfold step_good, st_opt.
  destruct (f s) eqn:E; [right|left; reflexivity].
  exists s0; split; [reflexivity|]. apply Hf; exact E.
Qed.

Lemma iterate_ok st n : step_ok st n ->
  forall fuel s, (length s <= n)%nat -> (length s < fuel)%nat ->
  exists r, iterate st fuel s = Ok r /\ is_suffix r s /\ st r = Ok None.
Proof.
  intros Hst fuel. induction fuel as [|f IH]; intros s Hn Hf; [lia|].
  simpl. destruct (Hst s Hn) as [E | (r & E & C)]; rewrite E; [eauto using is_suffix_refl|].
  pose proof (chops_length _ _ C) as L.
  destruct (IH r) as (r' & E' & S' & N'); [lia..|].
  exists r'. eauto using is_suffix_trans, chops_suffix.
Qed.

Lemma loop_ok st n mark s : step_ok st n -> (length mark <= n)%nat -> is_suffix s mark ->
  exists r, loop st s = Ok r /\ is_suffix r mark /\ st r = Ok None.
Proof.
  intros Hst Hn Hs. pose proof (suffix_len _ _ _ Hs Hn).
  destruct (iterate_ok st n Hst (S (length s)) s) as (r & E & S & N); [lia..|].
  exists r. eauto using is_suffix_trans.
Qed.

Lemma re_esc_plus_suffix excl d s : is_suffix (re_esc_plus excl d s) s.
Proof.
  induction s as [|c t IHt IHt'] using tail2_ind; [apply is_suffix_refl|]. cbn [re_esc_plus].
  destruct (c =? 36); [|destruct (c =? 92)].
  - destruct t as [|x t']; [|destruct (d && (x =? 36))]; auto with rest.
  - destruct t as [|x t']; [|destruct (x =? 10)]; auto with rest.
  - destruct (excl c); auto with rest.
Qed.

Lemma skip_re_esc_chops excl d s r : skip_re_esc excl d s = Some r -> chops s r.
Proof.
  unfold skip_re_esc.
  destruct (Nat.ltb_spec (length (re_esc_plus excl d s)) (length s)); [|discriminate].
  intro E; inversion E; subst. apply suffix_shorter_chops; [apply re_esc_plus_suffix|assumption].
Qed.

Lemma re_text_chops closing s r : re_text closing s = Some r -> chops s r.
Proof. apply skip_re_esc_chops. Qed.
Lemma re_sysv_chops closing s r : re_sysv closing s = Some r -> chops s r.
Proof. apply skip_re_esc_chops. Qed.
Lemma re_at_chops s r : re_at s = Some r -> chops s r.
Proof. apply skip_re_esc_chops. Qed.

Lemma re_index_chops s r : re_index s = Some r -> chops s r.
Proof.
  unfold re_index. destruct s as [|c t]; [discriminate|]. destruct (c =? 91); [|discriminate].
  intro H. eapply chops_trans_suffix; [apply chops_cons|].
  assert (Alt : skip_string [35; 93] t = Some r -> is_suffix r t).
  { intro A. apply chops_suffix, (skip_string_chops [35; 93]); [discriminate|exact A]. }
  destruct (span _ t) as [ds r0] eqn:E. apply next_bytes_eq in E.
  destruct ds as [|d ds]; [destruct (skip_byte 93 r0); auto|].
  destruct (skip_byte 93 r0) as [r1|] eqn:E1; [|auto].
  injection H as <-. apply (chops_within _ _ _ (skip_byte_chops _ _ _ E1)). exists (d :: ds). exact E.
Qed.

Lemma re_assign_op_chops s r : re_assign_op s = Some r -> chops s r.
Proof.
  unfold re_assign_op. destruct (skip_byte 61 s) as [r0|] eqn:E0.
  - intro H; inversion H; subst. eapply skip_byte_chops; exact E0.
  - destruct s as [|c t]; [discriminate|].
    destruct ((c =? 33) || (c =? 43) || (c =? 63)); [|discriminate].
    intro H. apply skip_byte_some in H. subst t.
    exists [c; 61]; split; [discriminate|reflexivity].
Qed.

Lemma partitions_nil {K} (rest : str) : partitions (@nil (str * K)) rest rest.
Proof. split; [reflexivity|constructor]. Qed.

Lemma partitions_chops {K} s r (k : K) toks rest :
  chops s r -> partitions toks rest r -> partitions ((since s r, k) :: toks) rest s.
Proof.
  intros C [P1 P2]. split.
  - simpl. rewrite <- app_assoc, P1. apply since_suffix, chops_suffix, C.
  - constructor; [apply since_chops_nonempty, C|exact P2].
Qed.
