(* C19: Pkgsrc.Relpath leads from `from` to `to`; Line.Rel; without the ':' guard Relpath can panic. *)
From PV Require Import Lib.Bytes Model.Paths Spec.PathDenote Proofs.PathsBase Proofs.PathsClean
  Proofs.PathsRender Proofs.PathsPrefix Proofs.PathsRel Proofs.PathsRefute.
Open Scope N_scope.

Lemma hpp_render rt1 e1 rt2 e2 :
  Forall elem e1 -> Forall elem e2 -> Forall nocolon e2 ->
  has_prefix_path (render rt2 e2) (render rt1 e1) =
  Bool.eqb rt1 rt2 && list_prefixb (root_mark rt1 ++ e1) (root_mark rt2 ++ e2).
Proof.
  intros H1 H2 Hc. rewrite has_prefix_path_components.
  - unfold path_prefixb. rewrite !components_render, !rooted_render by assumption. reflexivity.
  - apply render_nonempty, H1.
  - intros _. apply nocolon_is_abs, nocolon_render, Hc.
Qed.

Lemma hpp_abs ea eb : Forall good ea -> Forall good eb -> Forall nocolon ea ->
  has_prefix_path (render true ea) (render true eb) = list_prefixb eb ea.
Proof. intros Ha Hb Hc. apply good_elems in Ha, Hb. rewrite hpp_render by assumption. reflexivity. Qed.

Lemma path_rel_abs ea eb : Forall good ea -> Forall good eb -> Forall nocolon eb ->
  path_rel (render true ea) (render true eb) = Ok (render false (rel_list ea eb)).
Proof.
  intros Ha Hb Hc.
  apply path_rel_render; [apply shape_true, Ha|apply shape_true, Hb|left; reflexivity|exact Hc|apply diverge_good, Ha].
Qed.

Lemma rel_abs_leads ea eb : Forall good ea -> Forall good eb -> walk (rev ea) (rel_list ea eb) = rev eb.
Proof. intros Ha Hb. rewrite <- !walk_good_nil by assumption. apply rel_list_walk, diverge_good, Ha. Qed.

Lemma clean_rooted_denote cwd y :
  rooted y = true -> clean y = render true (denote cwd y) /\ Forall good (denote cwd y).
Proof.
  intro Hr. destruct (clean_render y) as (e & Hs & Hc & Hw & _). rewrite Hr in *. apply shape_true in Hs.
  specialize (Hw []). rewrite walk_good_nil in Hw by exact Hs.
  unfold denote. rewrite Hr, <- Hw, rev_involutive. auto.
Qed.

Lemma abs_path_form cwd x : rooted cwd = true -> nocolon cwd -> nocolon x ->
  abs_path cwd x = render true (denote cwd x) /\ Forall good (denote cwd x) /\ Forall nocolon (denote cwd x).
Proof.
  intros Hr Hcc Hcx. unfold abs_path. rewrite (nocolon_is_abs x Hcx).
  set (y := if rooted x then x else join_no_clean cwd x).
  replace (if negb (rooted x) then clean (join_no_clean cwd x) else clean x) with (clean y)
    by (subst y; destruct (rooted x); reflexivity).
  assert (Hy : rooted y = true /\ nocolon y /\ denote cwd y = denote cwd x).
  { subst y. destruct (rooted x) eqn:R; [auto|]. repeat split.
    - destruct cwd; [discriminate|exact Hr].
    - apply nocolon_app; [exact Hcc|]. apply nocolon_cons; [discriminate|exact Hcx].
    - unfold denote. rewrite R. unfold join_no_clean. rewrite rooted_app, Hr, walk_app_slash by (intros ->; discriminate).
      reflexivity. }
  destruct Hy as (Ry & Cy & <-). destruct (clean_rooted_denote cwd y Ry) as [Hc Hg].
  repeat split; [exact Hc|exact Hg|].
  rewrite <- (names_render true (denote cwd y)), <- Hc by apply good_elems, Hg. apply nocolon_names, nocolon_clean, Cy.
Qed.

Lemma denote_join cwd from r T :
  from <> [] -> walk (rev (denote cwd from)) (segs r) = rev T -> denote cwd (join_path from r) = T.
Proof.
  intros Hf H. unfold join_path. unfold denote at 1. rewrite rooted_app by exact Hf.
  change 47 with slash. rewrite walk_app_slash.
  unfold denote in H. rewrite rev_involutive in H. rewrite H. apply rev_involutive.
Qed.

(* branches 1 to 3 answer [rel_list] of the cleaned elements *)
Lemma rel_list_denotes cwd from to e1 e2 :
  from <> [] -> rooted from = rooted to ->
  walk (base_dir cwd from) e1 = walk (base_dir cwd from) (segs from) ->
  walk (base_dir cwd to) e2 = walk (base_dir cwd to) (segs to) ->
  Forall elem e2 -> Forall good (fst (diverge e1 e2)) ->
  denote cwd (join_path from (render false (rel_list e1 e2))) = denote cwd to.
Proof.
  intros Hf Hr W1 W2 E2 Hg. apply denote_join; [exact Hf|].
  rewrite !denote_unfold, !rev_involutive, <- W1, <- W2. unfold base_dir. rewrite Hr.
  apply rel_list_leads; assumption.
Qed.

(* branches 6 and 7 end in NewRelPath(CleanDot(...)) *)
Lemma clean_dot_rel X : rooted X = false -> nocolon X ->
  exists r, new_rel_path (clean_dot X) = Ok r /\ forall st, walk st (segs r) = walk st (segs X).
Proof.
  intros HR HC. exists (clean_dot X). destruct (clean_dot_render X) as [-> | ->].
  - split; [apply new_rel_path_ok; assumption|reflexivity].
  - pose proof (names_elem X) as He. split.
    + apply new_rel_path_ok; [rewrite rooted_render by exact He; exact HR|].
      apply nocolon_render, nocolon_names, HC.
    + intro st. rewrite walk_render by exact He. apply walk_names.
Qed.

Lemma clean_dot_join e : Forall elem e -> Forall nocolon e ->
  exists r, new_rel_path (clean_dot (join_slash e)) = Ok r /\ forall st, walk st (segs r) = walk st e.
Proof.
  intros He Hc. destruct e as [|x l]; [exists []; split; reflexivity|].
  change (join_slash (x :: l)) with (render false (x :: l)).
  destruct (clean_dot_rel (render false (x :: l))) as (r & Hr & Hw).
  - apply rooted_render, He.
  - apply nocolon_render, Hc.
  - exists r. split; [exact Hr|]. intro st. rewrite Hw. apply walk_render, He.
Qed.

(* branch 7: up to the pkgsrc root, then down *)
Lemma clean_dot_up_down u d : Forall elem u -> Forall nocolon u -> Forall elem d -> Forall nocolon d ->
  exists r, new_rel_path (clean_dot (join_no_clean (render false u) (render false d))) = Ok r
            /\ forall st, walk st (segs r) = walk (walk st u) d.
Proof.
  intros Eu Cu Ed Cd. unfold join_no_clean.
  destruct (clean_dot_rel (render false u ++ slash :: render false d)) as (r & Hr & Hw).
  - rewrite rooted_app by apply render_nonempty, Eu. apply rooted_render, Eu.
  - apply nocolon_app; [|apply nocolon_cons; [discriminate|]]; apply nocolon_render; assumption.
  - exists r. split; [exact Hr|]. intro st. rewrite Hw, walk_app_slash, !walk_render by assumption. reflexivity.
Qed.

(* branches 5 to 7, which work on the absolute paths *)
Definition relpath_tail (absFrom absTopdir absTo : str) : nat * res :=
  bind (path_rel absFrom absTopdir) (fun up =>
  bind (path_rel absTopdir absTo) (fun down =>
    if has_prefix_path absFrom absTo || has_prefix_path absTo absFrom
    then (5%nat, path_rel absFrom absTo)
    else
      bind (path_rel absTopdir absFrom) (fun topToFrom =>
        let fromParts := parts topToFrom in
        let toParts := parts down in
        if (2 <=? length fromParts)%nat && (2 <=? length toParts)%nat
           && str_eqb (nth_str fromParts 0) (nth_str toParts 0)
           && str_eqb (nth_str fromParts 1) (nth_str toParts 1)
        then
          let relParts := repeat dotdot (length fromParts - 2) ++ skipn 2 toParts in
          (6%nat, new_rel_path (clean_dot (join_slash relParts)))
        else
          (7%nat, new_rel_path (clean_dot (join_no_clean up down)))))).

Lemma relpath_tail_ok F P T :
  Forall good F -> Forall good P -> Forall good T ->
  Forall nocolon F -> Forall nocolon P -> Forall nocolon T ->
  list_prefixb P F = true ->
  exists r, snd (relpath_tail (render true F) (render true P) (render true T)) = Ok r
            /\ walk (rev F) (segs r) = rev T.
Proof.
  intros GF GP GT CF CP CT Hin. unfold relpath_tail.
  rewrite !path_rel_abs, !hpp_abs by assumption. unfold bind.
  assert (Hrel : forall a b, Forall good b -> Forall nocolon b ->
                 Forall elem (rel_list a b) /\ Forall nocolon (rel_list a b)).
  { intros a b Gb Cb. split; apply rel_list_Forall; auto using elem_dotdot, nocolon_dotdot, good_elems. }
  destruct (Hrel F P GP CP) as [Eu Cu]. destruct (Hrel P T GT CT) as [Ed Cd].
  destruct (list_prefixb T F || list_prefixb F T).
  { eexists. split; [reflexivity|]. rewrite walk_render by apply (Hrel F T GT CT). apply rel_abs_leads; assumption. }
  destruct (clean_dot_up_down _ _ Eu Cu Ed Cd) as (r7 & Hr7 & Wr7).
  specialize (Wr7 (rev F)). rewrite !rel_abs_leads in Wr7 by assumption. clear Eu Cu Cd.
  apply list_prefixb_spec in Hin as [f ->]. rewrite rel_list_prefix.
  assert (Gf := GF). apply Forall_app in Gf as [_ Gf].
  rewrite !parts_render by (exact Ed || apply good_elems, Gf). cbn [root_mark app].
  destruct (_ && _) eqn:Ec; [|exists r7; split; assumption]. clear r7 Hr7 Wr7.
  (* same category/package: both lists begin with the same two names, so `to` lies below topdir *)
  destruct (rel_list P T) as [|t0 [|t1 rest']] eqn:Erel, f as [|f0 [|f1 f']]; try discriminate Ec.
  repeat (apply andb_true_iff in Ec as [Ec ?]). apply str_eqb_spec in H, H0.
  change (f1 = t1) in H. change (f0 = t0) in H0. subst t0 t1. clear Ec H1.
  apply Forall_cons_iff in Gf as [[Gf0 _] Gf]. apply Forall_inv_tail in Gf.
  apply rel_list_down in Erel; [|intros ->; discriminate]. subst T.
  do 2 apply Forall_inv_tail in Ed. apply Forall_app in CT as [_ CT]. do 2 apply Forall_inv_tail in CT.
  cbn [length Nat.sub skipn]. rewrite Nat.sub_0_r.
  destruct (clean_dot_join (repeat dotdot (length f') ++ rest')) as (r & Hr & Hw).
  - apply Forall_app. split; [apply Forall_repeat, elem_dotdot|exact Ed].
  - apply Forall_app. split; [apply Forall_repeat, nocolon_dotdot|exact CT].
  - exists r. split; [exact Hr|]. rewrite Hw, <- (walk_good_nil _ GF), <- (walk_good_nil _ GT).
    change (f0 :: f1 :: f') with ([f0; f1] ++ f'). change (f0 :: f1 :: rest') with ([f0; f1] ++ rest').
    rewrite !app_assoc. apply rel_walk, Gf.
Qed.

Lemma branch4_condition_false cfrom cto :
  has_prefix_path cto cfrom = false -> str_eqb cfrom dotstr && negb (is_abs cto) = false.
Proof.
  intro H. destruct (str_eqb cfrom dotstr) eqn:E; [|reflexivity].
  apply str_eqb_spec in E. subst cfrom. unfold has_prefix_path in H.
  destruct (text_prefix cto dotstr); [discriminate|]. simpl in H. exact H.
Qed.

Theorem relpath_branch4_dead cwd topdir from to : fst (relpath_b cwd topdir from to) <> 4%nat.
Proof.
  unfold relpath_b. cbv zeta.
  destruct (str_eqb (clean from) (clean to)); [discriminate|].
  destruct (has_prefix_path (clean to) (clean from)) eqn:Eh; [discriminate|].
  destruct (str_eqb _ dotstr && _ && _ && _); [discriminate|].
  rewrite (branch4_condition_false _ _ Eh). unfold bind.
  repeat match goal with
         | |- context [match ?x with _ => _ end] => destruct x
         end; simpl; discriminate.
Qed.

Theorem relpath_denotes cwd topdir from to :
  rooted cwd = true -> nocolon cwd -> nocolon topdir -> nocolon from -> nocolon to ->
  from <> [] -> inside cwd topdir from = true ->
  exists r, relpath cwd topdir from to = Ok r /\ denote cwd (join_path from r) = denote cwd to.
Proof.
  intros Hrc Hcc Hct Hcf Hcto Hf Hin.
  destruct (abs_path_form cwd (clean from) Hrc Hcc (nocolon_clean from Hcf)) as (AF & GF & CF).
  destruct (abs_path_form cwd topdir Hrc Hcc Hct) as (AP & GP & CP).
  destruct (abs_path_form cwd (clean to) Hrc Hcc (nocolon_clean to Hcto)) as (AT & GT & CT).
  rewrite clean_denotes in *. unfold relpath, relpath_b. cbv zeta. rewrite AF, AP, AT. clear AF AP AT.
  destruct (clean_render from) as (e1 & S1 & -> & W1 & P1).
  destruct (clean_render to) as (e2 & S2 & -> & W2 & P2).
  pose proof (shape_elems _ _ S1) as E1. pose proof (shape_elems _ _ S2) as E2.
  pose proof (nocolon_clean_elems from _ Hcf P1) as C1. pose proof (nocolon_clean_elems to _ Hcto P2) as C2.
  assert (Hlead : rooted from = rooted to -> Forall good (fst (diverge e1 e2)) ->
                  denote cwd (join_path from (render false (rel_list e1 e2))) = denote cwd to).
  { intros Hr Hg. apply (rel_list_denotes cwd from to e1 e2 Hf Hr (W1 _) (W2 _) E2 Hg). }
  destruct (str_eqb (render _ e1) (render _ e2)) eqn:B1.
  { (* cfrom == cto *)
    apply str_eqb_spec, render_inj in B1 as [Hr <-]; [|assumption..].
    exists dotstr. split; [reflexivity|]. specialize (Hlead Hr). unfold rel_list in Hlead.
    rewrite diverge_same in Hlead. apply Hlead. constructor. }
  apply str_eqb_false in B1.
  destruct (has_prefix_path (render _ e2) (render _ e1)) eqn:B2.
  { (* cto.HasPrefixPath(cfrom): the rest of cto *)
    rewrite hpp_render in B2 by assumption. apply andb_true_iff in B2 as [Hr Hl]. apply eqb_prop in Hr.
    rewrite <- Hr in *. apply list_prefixb_spec in Hl as [rest Hl].
    rewrite <- app_assoc in Hl. apply app_inv_head in Hl. subst e2.
    assert (Hg : Forall good (fst (diverge e1 (e1 ++ rest)))) by (rewrite diverge_prefix; constructor).
    exists (render false (rel_list e1 (e1 ++ rest))). split; [|apply Hlead; auto].
    apply path_rel_render; auto. destruct (rooted from); [left; reflexivity|right].
    intro E. apply app_eq_nil in E as [-> ->]. apply B1. reflexivity. }
  destruct (str_eqb _ dotstr && _ && _ && _) eqn:B3.
  { (* from "category/package" to ".": "../.." *)
    repeat (apply andb_true_iff in B3 as [B3 ?]). apply str_eqb_spec in B3.
    apply (render_inj _ false e2 []) in B3 as [R2 ->]; [|assumption|constructor].
    apply negb_true_iff in H. rewrite nocolon_is_abs, rooted_render in H by (try apply nocolon_render; assumption).
    rewrite parts_render, H in H0, H1 by assumption. cbn [root_mark app] in H0, H1.
    destruct e1 as [|x [|y [|z e1]]]; try discriminate H1.
    apply negb_true_iff, str_eqb_false in H0.
    exists [46; 46; 47; 46; 46]. split; [reflexivity|]. apply (Hlead (eq_trans H (eq_sym R2))).
    rewrite H in S1. apply (shape_good _ _ _ S1 H0). }
  rewrite (branch4_condition_false _ _ B2).
  destruct (relpath_tail_ok _ _ _ GF GP GT CF CP CT Hin) as (r & Hr & Hw).
  exists r. split; [exact Hr|]. apply denote_join; assumption.
Qed.

(* Relpath for ALL byte strings: false, a component "c:" makes NewRelPath panic *)
Definition relpath_denotes_full : Prop :=
  forall cwd topdir from to, rooted cwd = true -> from <> [] -> inside cwd topdir from = true ->
  exists r, relpath cwd topdir from to = Ok r /\ denote cwd (join_path from r) = denote cwd to.

Definition ex_colon_to : str := [97; 47; 99; 58; 47; 120].   (* "a/c:/x" *)

Lemma relpath_denotes_refuted : ~ relpath_denotes_full.
Proof.
  intro H. destruct (H p_root p_root p_a ex_colon_to eq_refl ltac:(discriminate) eq_refl) as (r & Hr & _).
  vm_compute in Hr. discriminate.
Qed.

Lemma line_rel_denotes cwd topdir filename other :
  rooted cwd = true ->
  ~ In colon cwd -> ~ In colon topdir -> ~ In colon (dir filename) -> ~ In colon other ->
  inside cwd topdir (dir filename) = true ->
  exists r, line_rel cwd topdir filename other = Ok r
            /\ denote cwd (join_path (dir filename) r) = denote cwd other.
Proof.
  intros Hr Hc Ht Hd Ho Hin. unfold line_rel. apply relpath_denotes; try assumption.
  (* Dir never returns the empty path *)
  unfold dir. destruct (dir_trim (dir_skip_base (rev filename))) as [|c r]; [discriminate|].
  intro E. apply (f_equal (@rev _)) in E. rewrite rev_involutive in E. discriminate.
Qed.
