(* VaralignBlock over all lines of a file (process_file): blanks only, same
   kinds, same number of lines -- lifted from finish_blanks_only. *)
From PV Require Import Lib.Bytes Model.Varalign Proofs.VaralignBlanks.
Open Scope Z_scope.

Definition fline_rel (f f' : fline) : Prop :=
  fkind f' = fkind f /\ Forall2 line_rel (finfos f) (finfos f').
Definition wf_fline (f : fline) : Prop := Forall (fun i => wf (ps i)) (finfos f).

Lemma fline_rel_refl f : fline_rel f f.
Proof. split; [reflexivity|apply Forall2_refl, line_rel_refl]. Qed.

Lemma put_back_rel pending : forall ms',
  Forall2 (Forall2 line_rel) (map finfos (filter (fun f => participates (fkind f)) pending)) ms' ->
  Forall2 fline_rel pending (put_back pending ms').
Proof.
  induction pending as [|f r IH]; intros ms' H; simpl; [constructor|].
  simpl in H. destruct (participates (fkind f)) eqn:P.
  - simpl in H. inversion H as [|? x ? fx Hx Hr]; subst.
    constructor; [split; [reflexivity|exact Hx]|]. apply IH, Hr.
  - constructor; [apply fline_rel_refl|]. apply IH, H.
Qed.

Lemma flush_rel pending skip out : Forall wf_fline pending ->
  flush_pending pending skip = Ok out -> Forall2 fline_rel pending out.
Proof.
  intros W H. unfold flush_pending in H.
  destruct (finish _ skip) as [ms|] eqn:F; [|discriminate]. cbn [bind] in H. inversion H; subst.
  apply put_back_rel. eapply finish_blanks_only; [|exact F].
  unfold wf_block. apply Forall_forall. intros l Hl. apply in_map_iff in Hl as (f & <- & Hf).
  apply filter_In in Hf as [Hf _]. rewrite Forall_forall in W. apply W, Hf.
Qed.

Theorem process_file_blanks_only ls : forall pending_rev skip out,
  Forall wf_fline ls -> Forall wf_fline pending_rev ->
  process_file ls pending_rev skip = Ok out ->
  Forall2 fline_rel (rev pending_rev ++ ls) out.
Proof.
  induction ls as [|f r IH]; intros pr skip out W Wp H; simpl in H.
  - rewrite app_nil_r. eapply flush_rel; [|exact H]. apply Forall_rev, Wp.
  - inversion W as [|? ? Wf Wr]; subst.
    assert (STEP : forall sk, process_file r (f :: pr) sk = Ok out -> Forall2 fline_rel (rev pr ++ f :: r) out).
    { intros sk Hs. apply IH in Hs; [|exact Wr|constructor; assumption].
      simpl in Hs. rewrite <- app_assoc in Hs. exact Hs. }
    destruct (fkind f) eqn:K; try (eapply STEP; exact H).
    destruct (flush_pending (rev pr) skip) as [a|] eqn:FA; [|discriminate]. cbn [bind] in H.
    destruct (process_file r [] false) as [b|] eqn:FB; [|discriminate]. cbn [bind] in H.
    inversion H; subst.
    apply Forall2_app; [eapply flush_rel; [apply Forall_rev, Wp|exact FA]|].
    constructor; [apply fline_rel_refl|].
    apply (IH [] false b Wr (Forall_nil _) FB).
Qed.
