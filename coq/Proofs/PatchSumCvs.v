(* C18: the CVS gate in front of checkPatchSha1 (checkUncommittedPatch) never
   changes the verdict about the hash; it only decides about one extra warning. *)
From PV Require Import Lib.Bytes Model.Lines Model.PatchSum Spec.PatchSumSpec Proofs.LinesLoop Proofs.PatchSum.
Open Scope N_scope.

Lemma load_texts_total raw : exists ts, load_texts raw = Ok ts.
Proof.
  unfold load_texts. destruct (convert_total raw false) as [ls Hc]. rewrite Hc. eauto.
Qed.

Lemma load_cvs_entries_total d : exists es, load_cvs_entries d = Ok es.
Proof.
  unfold load_cvs_entries. destruct (cvs_entries d) as [raw|]; [|eauto].
  destruct (load_texts_total raw) as [ts ->].
  destruct (cvs_entries_log d) as [lraw|]; [|eauto].
  destruct (load_texts_total lraw) as [lts ->]. eauto.
Qed.

Lemma is_committed_total d b : exists c, is_committed d b = Ok c.
Proof.
  unfold is_committed. destruct (load_cvs_entries_total d) as [[es|] ->]; eauto.
Qed.

(* without a readable CVS/Entries nothing is committed, whatever Entries.Log says *)
Lemma is_committed_no_entries l b : is_committed (mk_cvs_dir None l) b = Ok false.
Proof. reflexivity. Qed.

Section WithHash.
Variable H : str -> str.

Definition sha1_verdict (alg : str) (p : option str) (d : str) : option verdict :=
  if str_eqb alg sha1_name then Some (check_patch_sha1 H p d) else None.

Lemma check_uncommitted_shape dc pd name alg p d :
  exists c, is_committed pd name = Ok c /\
  check_uncommitted_patch H dc pd name alg p d = Ok (dc && negb c, sha1_verdict alg p d).
Proof.
  destruct (is_committed_total pd name) as [c Hc]. exists c. split; [exact Hc|].
  unfold check_uncommitted_patch, sha1_verdict. destruct dc; [rewrite Hc|]; reflexivity.
Qed.

Theorem gate_shape pkg pd name alg p d :
  exists dc c, is_committed pkg distinfo_name = Ok dc /\ is_committed pd name = Ok c /\
  check_entry_cvs H pkg pd name alg p d = Ok (dc && negb c, sha1_verdict alg p d).
Proof.
  destruct (is_committed_total pkg distinfo_name) as [dc Hdc].
  destruct (check_uncommitted_shape dc pd name alg p d) as [c [Hc Hu]].
  exists dc, c. repeat split; try assumption.
  unfold check_entry_cvs. rewrite Hdc. exact Hu.
Qed.

Theorem gate_total pkg pd name alg p d :
  exists w v, check_entry_cvs H pkg pd name alg p d = Ok (w, v).
Proof. destruct (gate_shape pkg pd name alg p d) as [dc [c [_ [_ E]]]]. eauto. Qed.

Theorem gate_verdict_is_check pkg pd name p d :
  exists w, check_entry_cvs H pkg pd name sha1_name p d = Ok (w, Some (check_patch_sha1 H p d)).
Proof.
  destruct (gate_shape pkg pd name sha1_name p d) as [dc [c [_ [_ E]]]].
  exists (dc && negb c). rewrite E. unfold sha1_verdict. rewrite str_eqb_refl. reflexivity.
Qed.

Theorem verdict_independent_of_cvs pkg1 pd1 pkg2 pd2 name alg p d :
  exists w1 w2 v,
    check_entry_cvs H pkg1 pd1 name alg p d = Ok (w1, v) /\
    check_entry_cvs H pkg2 pd2 name alg p d = Ok (w2, v).
Proof.
  destruct (gate_shape pkg1 pd1 name alg p d) as [dc1 [c1 [_ [_ E1]]]].
  destruct (gate_shape pkg2 pd2 name alg p d) as [dc2 [c2 [_ [_ E2]]]].
  exists (dc1 && negb c1), (dc2 && negb c2), (sha1_verdict alg p d). split; assumption.
Qed.

Theorem accept_iff_equal_all_cvs pkg pd name s d :
  (exists w, check_entry_cvs H pkg pd name sha1_name (Some s) d = Ok (w, Some Silent))
  <-> d = makepatchsum H s.
Proof.
  destruct (gate_verdict_is_check pkg pd name (Some s) d) as [w0 E]. split.
  - intros [w Hw]. rewrite E in Hw. injection Hw as _ Hv. apply (accept_iff_equal H). exact Hv.
  - intros Hd. exists w0. rewrite E. apply (accept_iff_equal H) in Hd. rewrite Hd. reflexivity.
Qed.

Theorem reject_reports_digest_all_cvs pkg pd name s d :
  d <> makepatchsum H s ->
  exists w, check_entry_cvs H pkg pd name sha1_name (Some s) d
            = Ok (w, Some (Differs d (makepatchsum H s))).
Proof.
  intros Hd. destruct (gate_verdict_is_check pkg pd name (Some s) d) as [w0 E].
  exists w0. rewrite E. rewrite (reject_reports_digest H s d Hd). reflexivity.
Qed.

Theorem uncommitted_warning_exact pkg pd name alg p d w v :
  check_entry_cvs H pkg pd name alg p d = Ok (w, v) ->
  (w = true <-> is_committed pkg distinfo_name = Ok true /\ is_committed pd name = Ok false).
Proof.
  destruct (gate_shape pkg pd name alg p d) as [dc [c [Hdc [Hc E]]]].
  rewrite E. intros Hw. injection Hw as Hw _. subst w. rewrite Hdc, Hc.
  rewrite andb_true_iff, negb_true_iff. split; intros [A B]; split; congruence.
Qed.
End WithHash.
