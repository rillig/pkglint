(* C14: facts about the specification (Spec/BmakeCond.v) that the rewrite
   theorems need: words of a single word, Str_Match on literal and on [xX]
   class patterns, modifier chains with and without a leading :U. *)
From PV Require Import Lib.Bytes Spec.BmakeCond.
From Coq Require Import ZifyBool ZifyN ZifyNat.
Open Scope N_scope.

Definition wordlike (s : str) : Prop := forallb (fun c => negb (is_cspace c)) s = true.

Lemma is_ws_cspace c : is_ws c = true -> is_cspace c = true.
Proof. unfold is_ws, is_cspace. lia. Qed.

Lemma wordlike_cons c s : wordlike (c :: s) <-> is_cspace c = false /\ wordlike s.
Proof.
  unfold wordlike; simpl. rewrite andb_true_iff, negb_true_iff. reflexivity.
Qed.

Lemma wordlike_nil : wordlike []. Proof. reflexivity. Qed.

Lemma wordlike_skip s : wordlike s -> skip_cspace s = s.
Proof. destruct s as [|c s]; [reflexivity|]. intros H. apply wordlike_cons in H as [H _]. simpl. rewrite H. reflexivity. Qed.

Lemma wordlike_lower s : wordlike s -> wordlike (lower s).
Proof.
  induction s as [|c s IH]; [trivial|]. intros H. apply wordlike_cons in H as [H1 H2].
  simpl. apply wordlike_cons. split; [|apply IH; exact H2].
  unfold to_lower, is_upper, is_cspace in *. destruct ((65 <=? c) && (c <=? 90)) eqn:E; lia.
Qed.

Lemma split_ws_word w : wordlike w -> forall cur,
  split_ws w cur = match cur ++ w with [] => [] | x => [x] end.
Proof.
  induction w as [|c w IH]; intros H cur; simpl.
  - rewrite app_nil_r. destruct cur; reflexivity.
  - apply wordlike_cons in H as [H1 H2].
    assert (is_ws c = false) as ->.
    { destruct (is_ws c) eqn:E; [apply is_ws_cspace in E; congruence|reflexivity]. }
    rewrite IH by exact H2. rewrite <- app_assoc. reflexivity.
Qed.

Lemma words_word w : wordlike w -> words w = match w with [] => [] | _ => [w] end.
Proof. intros H. unfold words. rewrite split_ws_word by exact H. simpl. destruct w; reflexivity. Qed.

(* :M / :N on a value that is at most one word *)
Lemma filter_word (f : str -> bool) w : wordlike w ->
  join_sp (filter f (words w)) = if f w then w else [].
Proof.
  intros H. rewrite words_word by exact H. destruct w as [|c w]; [destruct (f []); reflexivity|].
  simpl. destruct (f (c :: w)); reflexivity.
Qed.

Definition plain_byte (c : N) : bool :=
  negb ((c =? 42) || (c =? 63) || (c =? 91) || (c =? 92)).

Lemma sm_literal p : forallb plain_byte p = true ->
  forall w fuel, (length p < fuel)%nat -> sm fuel w p = str_eqb w p.
Proof.
  induction p as [|pc p IH]; intros Hp w fuel Hf; (destruct fuel as [|f]; [inversion Hf|]);
    [destruct w; reflexivity|].
  apply Nat.succ_lt_mono in Hf. cbn [forallb] in Hp. apply andb_true_iff in Hp as [Hc Hp].
  apply negb_true_iff in Hc. apply orb_false_iff in Hc as [Hc H92].
  apply orb_false_iff in Hc as [Hc H91]. apply orb_false_iff in Hc as [H42 H63].
  cbn [sm]. rewrite H42. destruct w as [|c w]; [reflexivity|].
  rewrite H63, H91, H92, (IH Hp w f Hf). reflexivity.
Qed.

Lemma str_match_literal p w : forallb plain_byte p = true -> str_match w p = str_eqb w p.
Proof. intros H. apply sm_literal; [exact H|apply Nat.lt_succ_r, Nat.le_add_l]. Qed.

(* the pattern [a b] [c d] ... where each pair is a letter in both cases, and the lower-case word *)
Inductive yn_pattern : str -> str -> Prop :=
| yn_nil : yn_pattern [] []
| yn_cons a b l p ls :
    ((is_upper a = true /\ b = a + 32 /\ l = b) \/ (is_lower a = true /\ b + 32 = a /\ l = a)) ->
    yn_pattern p ls -> yn_pattern (91 :: a :: b :: 93 :: p) (l :: ls).

Lemma yn_pattern_lower p ls : yn_pattern p ls -> forallb is_lower ls = true.
Proof.
  induction 1 as [|a b l p ls H _ IH]; [reflexivity|]. simpl. rewrite IH, andb_true_r.
  unfold is_upper, is_lower in *. lia.
Qed.

Lemma yn_pattern_length p ls : yn_pattern p ls -> length p = (4 * length ls)%nat.
Proof. induction 1; simpl in *; lia. Qed.

Lemma sm_class2 f a b c w p : is_alpha a = true -> is_alpha b = true ->
  sm (S f) (c :: w) (91 :: a :: b :: 93 :: p) = ((a =? c) || (b =? c)) && sm f w p.
Proof.
  intros Ha Hb.
  assert (a =? 93 = false /\ a =? 94 = false /\ b =? 93 = false /\ b =? 45 = false)
    as (A93 & A94 & B93 & B45) by (unfold is_alpha, is_lower, is_upper in *; lia).
  cbn [sm]. change (91 =? 42) with false. change (91 =? 63) with false. change (91 =? 91) with true.
  cbv iota. rewrite A94. cbn [class_scan]. rewrite A93.
  destruct (a =? c).
  - cbn [skip_rbracket]. rewrite A93, B93. reflexivity.
  - rewrite B45. cbn [class_scan]. rewrite B93.
    destruct (b =? c); [cbn [skip_rbracket]; rewrite B93|]; reflexivity.
Qed.

Lemma sm_yn p ls : yn_pattern p ls ->
  forall w fuel, (length p < fuel)%nat -> sm fuel w p = str_eqb (lower w) ls.
Proof.
  induction 1 as [|a b l p ls H Hyn IH]; intros w fuel Hf; (destruct fuel as [|f]; [inversion Hf|]);
    [destruct w; reflexivity|].
  destruct w as [|c w]; [reflexivity|].
  rewrite sm_class2 by (unfold is_alpha, is_upper, is_lower in *; lia).
  change (lower (c :: w)) with (to_lower c :: lower w). cbn [str_eqb].
  rewrite <- (IH w f) by (cbn [length] in Hf; lia). f_equal.
  unfold to_lower, is_upper, is_lower in *. destruct ((65 <=? c) && (c <=? 90)) eqn:E; lia.
Qed.

Lemma str_match_yn p ls w : yn_pattern p ls -> str_match w p = str_eqb (lower w) ls.
Proof. intros H. apply sm_yn; [exact H|apply Nat.lt_succ_r, Nat.le_add_l]. Qed.

Lemma apply_mods_app e a b st :
  apply_mods e (a ++ b) st = match apply_mods e a st with Some st' => apply_mods e b st' | None => None end.
Proof.
  revert st; induction a as [|m a IH]; intros st; simpl; [reflexivity|].
  destruct (apply_mod e m st); [apply IH|reflexivity].
Qed.

Lemma apply_mods_defined e ms : forall d0 s d r,
  d0 <> DUndef -> apply_mods e ms (d0, s) = Some (d, r) -> d = d0.
Proof.
  induction ms as [|m ms IH]; intros d0 s d r Hd H; cbn [apply_mods] in H; [congruence|].
  destruct m; cbn [apply_mod] in H; try destruct (expand_pat e pat); try discriminate;
    try (eapply IH; eassumption).
  destruct d0; [|congruence|]; eapply IH; try eassumption; discriminate.
Qed.

Lemma apply_mods_undef_defined e ms : forall s d r,
  apply_mods e ms (DUndef, s) = Some (d, r) -> apply_mods e ms (DDefined, s) = Some (DDefined, r).
Proof.
  induction ms as [|m ms IH]; intros s d r H; cbn [apply_mods apply_mod] in *; [congruence|].
  destruct m; try destruct (expand_pat e pat); try discriminate; try (eapply IH; eassumption).
  rewrite H. f_equal. f_equal. eapply apply_mods_defined; [|exact H]. discriminate.
Qed.

Definition is_ModU (m : modifier) : bool := match m with ModU _ => true | _ => false end.

Lemma apply_mods_has_U e ms : existsb is_ModU ms = true -> forall d0 s d r,
  apply_mods e ms (d0, s) = Some (d, r) -> d <> DUndef.
Proof.
  induction ms as [|m ms IH]; intros Hex d0 s d r H; cbn [existsb apply_mods apply_mod] in *; [discriminate|].
  destruct m; cbn [is_ModU orb] in Hex; try destruct (expand_pat e pat); try discriminate;
    try (eapply IH; eassumption).
  destruct d0; apply apply_mods_defined in H; congruence.
Qed.

Lemma eval_expr_defined e v ms d s : e v <> None -> eval_expr e v ms = Some (d, s) -> d = DRegular.
Proof.
  unfold eval_expr. destruct (e v); [intros _|congruence]. apply apply_mods_defined. discriminate.
Qed.

(* ${V:U:mods} against ${V:mods} *)
Definition u_mods (add_u : bool) : list modifier := if add_u then [ModU []] else [].

Lemma eval_expr_u e v ms add_u d s :
  eval_expr e v ms = Some (d, s) ->
  exists d', eval_expr e v (u_mods add_u ++ ms) = Some (d', s)
             /\ (d' = DUndef -> add_u = false /\ d = DUndef).
Proof.
  intros H. destruct add_u; [|exists d; auto].
  unfold eval_expr in *. cbn [u_mods app apply_mods apply_mod]. destruct (e v).
  - exists d. split; [exact H|]. apply apply_mods_defined in H; congruence.
  - exists DDefined. split; [|discriminate]. eapply apply_mods_undef_defined, H.
Qed.

Definition no_dollar (p : str) : bool := negb (existsb (N.eqb 36) p).

Lemma no_dollar_cons c p : no_dollar (c :: p) = true <-> c <> 36 /\ no_dollar p = true.
Proof.
  unfold no_dollar. cbn [existsb]. destruct (N.eqb_spec 36 c) as [E|E]; cbn [orb negb].
  - split; [discriminate|]. intros [H _]. congruence.
  - split; [intros H; split; [congruence|exact H]|intros [_ H]; exact H].
Qed.

Lemma parse_pat_literal p : no_dollar p = true ->
  forall fuel, (length p < fuel)%nat -> parse_pat fuel p = Some (map PPByte p).
Proof.
  induction p as [|c p IH]; intros H fuel Hf.
  - destruct fuel; [simpl in Hf; lia|reflexivity].
  - apply no_dollar_cons in H as [Hc Hp]. destruct fuel as [|f]; [simpl in Hf; lia|]. simpl in Hf.
    cbn [parse_pat]. destruct (N.eqb_spec c 36); [congruence|].
    rewrite IH by (assumption || lia). reflexivity.
Qed.

Lemma expand_parts_literal e p : expand_parts e (map PPByte p) = p.
Proof. induction p as [|c p IH]; [reflexivity|]. cbn [map expand_parts]. rewrite IH. reflexivity. Qed.

Lemma expand_pat_literal e p : no_dollar p = true -> expand_pat e p = Some p.
Proof.
  intros H. unfold expand_pat. rewrite parse_pat_literal by (assumption || lia).
  cbn [option_map]. rewrite expand_parts_literal. reflexivity.
Qed.

Lemma truthy_empty : truthy [] false = false. Proof. reflexivity. Qed.

Lemma compare_eq_string l lq r rq :
  (lq = true \/ rq = true \/ try_parse_number r = None) -> compare_eq l lq r rq = str_eqb l r.
Proof.
  unfold compare_eq. intros [->|[->|H]]; [reflexivity|rewrite andb_false_r; reflexivity|].
  rewrite H. destruct (negb lq && negb rq); [|reflexivity]. destruct (try_parse_number l); reflexivity.
Qed.

Lemma str_eqb_sym a b : str_eqb a b = str_eqb b a.
Proof. exact (Bytes.str_eqb_sym a b). Qed.
