(* C01: SeparatorWriter -- the assertion in Separate() is unreachable for
   disciplined callers, and the writer only ever inserts newline bytes. *)
From Coq Require Import List NArith Bool Lia.
From PV Require Import Lib.Bytes Lib.PanicRes Model.SepWriter Spec.SepSpec.
Import ListNotations.
Open Scope N_scope.

Lemma insnl_snoc a o b : InsNL a o -> InsNL (a ++ [b]) (o ++ [b]).
Proof. induction 1; simpl; repeat constructor; auto. Qed.

Lemma insnl_snoc_nl a o : InsNL a o -> InsNL a (o ++ [10]).
Proof. induction 1; simpl; repeat constructor; auto. Qed.

Lemma insnl_length a o : InsNL a o -> (length a <= length o)%nat.
Proof. induction 1; simpl; lia. Qed.

Lemma insnl_filter a o : InsNL a o ->
  filter (fun b => negb (b =? 10)) o = filter (fun b => negb (b =? 10)) a.
Proof. induction 1; simpl; auto. destruct (negb (b =? 10)); congruence. Qed.

Lemma in_line_snoc s b : in_line (s ++ [b]) = negb (b =? 10).
Proof. unfold in_line. now rewrite last_last. Qed.

Definition no_nl (s : str) : Prop := forallb (fun b => negb (b =? 10)) s = true.

(* the invariant: `prev` is what the callers have written, k the number of Separate() calls;
   each Separate() pays for one inserted newline, and in state 2 the last one is still unspent *)
Record inv (prev : str) (k : nat) (w : sw) : Prop := {
  inv_range : sw_state w = 0 \/ sw_state w = 1 \/ sw_state w = 2 \/ sw_state w = 3;
  inv_state1 : sw_state w = 1 <-> in_line prev = true;
  inv_bytes : InsNL prev (sw_out w ++ sw_line w);
  inv_line : no_nl (sw_line w);
  inv_inline : in_line prev = false -> sw_line w = [];
  inv_len : (length (sw_out w ++ sw_line w) + (if (sw_state w =? 2)%N then 1 else 0) <= length prev + k)%nat
}.

Lemma inv_new : inv [] 0 sw_new.
Proof. constructor; simpl; auto; try easy. constructor. Qed.

Lemma no_nl_snoc s b : no_nl s -> (b =? 10) = false -> no_nl (s ++ [b]).
Proof. unfold no_nl. intros H E. rewrite forallb_app, H. simpl. now rewrite E. Qed.

Lemma inv_write_byte prev k w b : inv prev k w -> inv (prev ++ [b]) k (sw_write_byte w b).
Proof.
  intros [R S1 B L IL LEN]. unfold sw_write_byte. rewrite app_length in LEN.
  destruct (b =? 10) eqn:E; [apply N.eqb_eq in E; subst b|destruct (N.eqb_spec (sw_state w) 2) as [E2|E2]].
  - constructor; simpl; rewrite ?app_nil_r, ?in_line_snoc; simpl; auto; try easy.
    + destruct (sw_state w =? 1); auto.
    + destruct (sw_state w =? 1); easy.
    + rewrite app_assoc. now apply insnl_snoc.
    + rewrite !app_length. simpl. destruct (sw_state w =? 1), (sw_state w =? 2); simpl; lia.
  - (* the pending separator is spent on an empty line, before the byte *)
    assert (NL : sw_line w = []) by (apply IL; destruct (in_line prev); [|reflexivity]; assert (sw_state w = 1) by (now apply S1); congruence).
    rewrite NL in *.
    constructor; simpl; rewrite ?in_line_snoc, ?E; simpl; auto; try easy.
    + rewrite app_nil_r in B. apply insnl_snoc, insnl_snoc_nl, B.
    + unfold no_nl. simpl. now rewrite E.
    + rewrite !app_length in *. simpl in *. lia.
  - constructor; simpl; rewrite ?in_line_snoc, ?E; simpl; auto; try easy.
    + rewrite app_assoc. now apply insnl_snoc.
    + now apply no_nl_snoc.
    + rewrite !app_length. simpl. lia.
Qed.

Lemma inv_write s : forall prev k w, inv prev k w -> inv (prev ++ s) k (sw_write w s).
Proof.
  induction s as [|b s IH]; intros prev k w H; simpl.
  - now rewrite app_nil_r.
  - change (b :: s) with ([b] ++ s). rewrite app_assoc. apply IH. now apply inv_write_byte.
Qed.

Lemma inv_flush prev k w : inv prev k w -> inv prev k (sw_flush w).
Proof.
  intros [R S1 B L IL LEN]. constructor; simpl; rewrite ?app_nil_r; auto. reflexivity.
Qed.

Lemma inv_separate prev k w : inv prev k w -> in_line prev = false ->
  exists w', sw_separate w = Ok w' /\ inv prev (S k) w'.
Proof.
  intros [R S1 B L IL LEN] NI. unfold sw_separate.
  destruct (N.eqb_spec (sw_state w) 1) as [E1|E1]; [apply S1 in E1; congruence|].
  eexists; split; [reflexivity|].
  destruct (N.ltb_spec (sw_state w) 2); constructor; simpl; auto; try easy.
  - rewrite NI. easy.
  - replace (sw_state w =? 2) with false in LEN by lia. lia.
  - destruct (sw_state w =? 2); lia.
Qed.

Lemma separate_panics prev k w : inv prev k w -> in_line prev = true ->
  sw_separate w = Panic 5.
Proof.
  intros [R S1 _ _ _ _] I. apply S1 in I. unfold sw_separate. now rewrite I.
Qed.

Definition ev_ok (prev : str) (e : sw_event) : bool :=
  match e with ESeparate => negb (in_line prev) | _ => true end.
Definition ev_sep (e : sw_event) : nat := match e with ESeparate => 1 | _ => 0 end.

Lemma inv_step prev k w e : inv prev k w ->
  if ev_ok prev e
  then exists w', sw_step w e = Ok w' /\ inv (prev ++ ev_bytes e) (k + ev_sep e) w'
  else sw_step w e = Panic 5.
Proof.
  intros H. destruct e as [s|s| |]; cbn [ev_ok sw_step ev_bytes ev_sep]; rewrite ?app_nil_r, ?Nat.add_0_r.
  - eexists; split; [reflexivity|]. apply inv_write, H.
  - eexists; split; [reflexivity|]. rewrite app_assoc. apply inv_write_byte, inv_write, H.
  - destruct (in_line prev) eqn:I; cbn [negb].
    + exact (separate_panics prev k w H I).
    + rewrite Nat.add_1_r. apply inv_separate; assumption.
  - eexists; split; [reflexivity|]. apply inv_flush, H.
Qed.

Lemma disciplined_cons prev e evs :
  disciplined prev (e :: evs) = ev_ok prev e && disciplined (prev ++ ev_bytes e) evs.
Proof. destruct e; cbn [disciplined ev_ok ev_bytes andb]; rewrite ?app_nil_r; reflexivity. Qed.

Lemma run_from_char : forall evs prev k w, inv prev k w ->
  if disciplined prev evs
  then exists w', sw_run_from w evs = Ok w' /\ inv (prev ++ written evs) (k + count_sep evs) w'
  else sw_run_from w evs = Panic 5.
Proof.
  induction evs as [|e evs IH]; intros prev k w H.
  - exists w. split; [reflexivity|]. unfold written, count_sep. simpl. now rewrite app_nil_r, Nat.add_0_r.
  - rewrite disciplined_cons. cbn [sw_run_from]. pose proof (inv_step prev k w e H) as S.
    destruct (ev_ok prev e); [|rewrite S; reflexivity].
    destruct S as (w1 & -> & H1). cbn [bind andb].
    replace (prev ++ written (e :: evs)) with ((prev ++ ev_bytes e) ++ written evs)
      by (symmetry; apply app_assoc).
    replace (k + count_sep (e :: evs))%nat with (k + ev_sep e + count_sep evs)%nat
      by (unfold count_sep; destruct e; simpl; lia).
    apply IH, H1.
Qed.

Theorem separator_writer_safe : forall evs,
  disciplined [] evs = true -> exists w, sw_run evs = Ok w.
Proof.
  intros evs D. pose proof (run_from_char evs [] 0%nat sw_new inv_new) as A. rewrite D in A.
  destruct A as (w & E & _). eauto.
Qed.

Theorem separator_writer_panics_iff : forall evs,
  sw_run evs = Panic 5 <-> disciplined [] evs = false.
Proof.
  intros evs. unfold sw_run. pose proof (run_from_char evs [] 0%nat sw_new inv_new) as A.
  destruct (disciplined [] evs); [destruct A as (w & -> & _)|rewrite A]; easy.
Qed.

Theorem separator_writer_bytes : forall evs w, sw_run evs = Ok w ->
  InsNL (written evs) (sw_out w ++ sw_line w) /\
  filter (fun b => negb (b =? 10)) (sw_out w ++ sw_line w)
    = filter (fun b => negb (b =? 10)) (written evs) /\
  (length (written evs) <= length (sw_out w ++ sw_line w) <= length (written evs) + count_sep evs)%nat /\
  (sw_state w = 0 \/ sw_state w = 1 \/ sw_state w = 2 \/ sw_state w = 3) /\
  (sw_state w = 1 <-> in_line (written evs) = true) /\
  no_nl (sw_line w) /\
  (in_line (written evs) = false -> sw_line w = []).
Proof.
  intros evs w E. unfold sw_run in E. pose proof (run_from_char evs [] 0%nat sw_new inv_new) as A.
  destruct (disciplined [] evs); [|congruence].
  destruct A as (w' & E' & [R S1 Bt L IL LEN]). assert (w' = w) by congruence. subst w'. simpl in *.
  repeat split; auto using insnl_filter, insnl_length; try apply S1.
  destruct (sw_state w =? 2); lia.
Qed.

Lemma flush_empties w : sw_line (sw_flush w) = [].
Proof. reflexivity. Qed.

Lemma last_app_cons (p : str) b s d : last (p ++ b :: s) d = last (b :: s) d.
Proof.
  induction p as [|a p IH]; [reflexivity|].
  change ((a :: p) ++ b :: s) with (a :: (p ++ b :: s)).
  destruct (p ++ b :: s) eqn:E; [destruct p; discriminate|]. rewrite <- IH. reflexivity.
Qed.

Lemma in_line_app_complete p s : in_line p = false -> in_line s = false -> in_line (p ++ s) = false.
Proof.
  intros P S. destruct s as [|b s]; [now rewrite app_nil_r|].
  unfold in_line in *. now rewrite last_app_cons.
Qed.

Lemma logger_disciplined : forall cs prev,
  in_line prev = false -> forallb log_call_ok cs = true ->
  disciplined prev (flat_map log_events cs) = true.
Proof.
  induction cs as [|c cs IH]; intros prev P OK; [reflexivity|].
  simpl in OK. apply andb_true_iff in OK. destruct OK as [O1 O2].
  destruct c as [s|s|s| |]; cbn [flat_map log_events app disciplined ev_bytes].
  - apply IH; auto. apply in_line_app_complete; auto.
    simpl in O1. now destruct (in_line s).
  - apply IH; auto. rewrite app_assoc. apply in_line_snoc.
  - apply IH; auto. rewrite !app_assoc. apply in_line_snoc.
  - rewrite P. simpl. apply IH; auto.
  - rewrite app_nil_r. apply IH; auto.
Qed.

Theorem logger_calls_safe : forall cs,
  forallb log_call_ok cs = true -> exists w, sw_run (flat_map log_events cs) = Ok w.
Proof.
  intros cs OK. apply separator_writer_safe. apply logger_disciplined; auto.
Qed.
