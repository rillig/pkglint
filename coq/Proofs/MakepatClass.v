(* Character lists: the byte array filled by compileCharClass, the runs
   addTransitions cuts it into, and bmake's list scanner agree -- except for a
   non-negated list containing a range that ends in ']'. *)
From PV Require Import Lib.Bytes Model.Makepat Spec.StrMatch
  Proofs.MakepatBasics Proofs.MakepatChain.
From Coq Require Import ZifyBool ZifyN ZifyNat.
Open Scope N_scope.

Definition chars_at (chars : list bool) (i : N) : bool :=
  match nth_n chars i with Some b => b | None => false end.

Lemma chars_at_cons b chars i : chars_at (b :: chars) i = if i =? 0 then b else chars_at chars (N.pred i).
Proof. unfold chars_at. rewrite nth_n_cons. destruct (i =? 0); reflexivity. Qed.

Lemma set_range_from_at chars : forall i0 lo hi j, j < nlen chars ->
  chars_at (set_range_from chars i0 lo hi) j = chars_at chars j || ((lo <=? i0 + j) && (i0 + j <=? hi)).
Proof.
  induction chars as [|b chars IH]; intros i0 lo hi j H; [cbn in H; lia|].
  cbn [set_range_from]. rewrite !chars_at_cons. rewrite nlen_cons in H. destruct (N.eqb_spec j 0) as [->|Hj].
  - rewrite N.add_0_r. destruct ((lo <=? i0) && (i0 <=? hi)), b; reflexivity.
  - rewrite IH by lia. replace (N.succ i0 + N.pred j) with (i0 + j) by lia. reflexivity.
Qed.

Lemma set_range_at chars lo hi j : j < nlen chars ->
  chars_at (set_range chars lo hi) j = chars_at chars j || ((lo <=? j) && (j <=? hi)).
Proof. apply (set_range_from_at chars 0). Qed.

Lemma chars_empty_nlen : nlen chars_empty = 256.
Proof. reflexivity. Qed.

Lemma chars_empty_at j : chars_at chars_empty j = false.
Proof.
  unfold chars_empty. generalize 256%nat as n. intro n. revert j; induction n as [|n IH]; intro j; [reflexivity|].
  cbn [nrepeat]. rewrite chars_at_cons. destruct (j =? 0); [reflexivity|apply IH].
Qed.

Lemma chars_at_negb chars j : j < nlen chars -> chars_at (map negb chars) j = negb (chars_at chars j).
Proof.
  revert j; induction chars as [|b chars IH]; intros j H; [cbn in H; lia|].
  cbn [map]. rewrite !chars_at_cons. destruct (N.eqb_spec j 0); [reflexivity|].
  apply IH. rewrite nlen_cons in H. lia.
Qed.

Lemma map_negb_nlen (chars : list bool) : nlen (map negb chars) = nlen chars.
Proof. rewrite !nlen_length, map_length. reflexivity. Qed.

Lemma in_ranges_cons lo hi rs c : in_ranges ((lo, hi) :: rs) c = ((lo <=? c) && (c <=? hi)) || in_ranges rs c.
Proof. reflexivity. Qed.

Definition run_before (run : option N) (i : N) : Prop :=
  match run with Some st => st < i | None => True end.

Lemma runs_from_exact chars : forall i run c, run_before run i ->
  in_ranges (runs_from chars i run) c
  = match run with Some st => (st <=? c) && (c <? i) | None => false end
    || ((i <=? c) && chars_at chars (c - i)).
Proof.
  induction chars as [|b chars IH]; intros i run c Hrun; cbn [runs_from].
  - unfold chars_at. cbn [nth_n]. destruct run as [st|]; cbn in *; lia.
  - rewrite chars_at_cons. replace (N.pred (c - i)) with (c - N.succ i) by lia.
    destruct run as [st|], b; try rewrite in_ranges_cons; rewrite IH by (cbn in *; lia);
      generalize (chars_at chars (c - N.succ i)); intro v; cbn in Hrun;
      destruct (N.eqb_spec (c - i) 0); lia.
Qed.

(* DESIGN.md: add_transitions_exact *)
Theorem runs_exact chars c : in_ranges (runs chars) c = chars_at chars c.
Proof.
  unfold runs. rewrite runs_from_exact by exact I.
  rewrite N.sub_0_r, (proj2 (N.leb_le 0 c) (N.le_0_l c)). reflexivity.
Qed.

Lemma neqb c d : c <> d -> (c =? d) = false.
Proof. apply N.eqb_neq. Qed.

Lemma rb_elem_range neg x e r : x <> 93 ->
  range_to_rbracket_from (PElem neg) (x :: 45 :: e :: r)
  = (if neg then false else e =? 93) || range_to_rbracket_from (PElem neg) r.
Proof.
  intro Hx. cbn [range_to_rbracket_from pnext orb]. rewrite (neqb _ _ Hx).
  cbn [range_to_rbracket_from pnext orb]. destruct neg; reflexivity.
Qed.

Lemma rb_elem_step neg x d r : x <> 93 -> d <> 45 ->
  range_to_rbracket_from (PElem neg) (x :: d :: r) = range_to_rbracket_from (PElem neg) (d :: r).
Proof.
  intros Hx Hd. cbn [range_to_rbracket_from pnext orb]. rewrite (neqb _ _ Hx).
  cbn [range_to_rbracket_from pnext orb]. rewrite (neqb _ _ Hd). reflexivity.
Qed.

Lemma end_of_elem neg x p : x <> 93 ->
  end_of_char_list neg (x :: p) = if neg then LNoMatch else LMatch (after_rbracket (x :: p)).
Proof. intro Hx. unfold end_of_char_list. rewrite (neqb _ _ Hx). destruct neg; reflexivity. Qed.

Lemma list_scan_range neg c x e p : x <> 93 ->
  list_scan neg c (x :: 45 :: e :: p)
  = if in_range_either x e c then end_of_char_list neg (x :: 45 :: e :: p) else list_scan neg c p.
Proof.
  intro Hx. cbn [list_scan]. rewrite (neqb _ _ Hx). change (45 =? 45) with true. cbv iota.
  destruct (N.eqb_spec x c) as [->|]; [|reflexivity].
  replace (in_range_either c e c) with true by (unfold in_range_either; lia). reflexivity.
Qed.

Lemma list_scan_single neg c x d p : x <> 93 -> d <> 45 ->
  list_scan neg c (x :: d :: p)
  = if x =? c then end_of_char_list neg (x :: d :: p) else list_scan neg c (d :: p).
Proof. intros Hx Hd. cbn [list_scan]. rewrite (neqb _ _ Hx), (neqb _ _ Hd). reflexivity. Qed.

Lemma in_range_min_max x e c : (N.min x e <=? c) && (c <=? N.max x e) = in_range_either x e c.
Proof. unfold in_range_either. lia. Qed.

Lemma in_range_self x c : (x <=? c) && (c <=? x) = (x =? c).
Proof. lia. Qed.

(* One induction for three facts that need each other: the array gains exactly
   the bytes of the elements read (h), bmake's scan answers by h, and -- unless
   negated -- bmake resumes after the first ']' where Compile does. *)
Lemma class_loop_scan r cs : forall chars rest2 neg sc,
  class_loop r cs = Some (chars, rest2) ->
  range_to_rbracket_from (PElem neg) r = false -> sc < nlen cs ->
  range_to_rbracket_from PTop rest2 = false /\
  (neg = false -> after_rbracket r = rest2) /\
  exists h, chars_at chars sc = chars_at cs sc || h /\
            list_scan neg sc r = if xorb h neg then LMatch rest2 else LNoMatch.
Proof.
  apply class_loop_ind with
    (P := fun r cs res => forall chars rest2 neg sc, res = Some (chars, rest2) ->
       range_to_rbracket_from (PElem neg) r = false -> sc < nlen cs ->
       range_to_rbracket_from PTop rest2 = false /\
       (neg = false -> after_rbracket r = rest2) /\
       exists h, chars_at chars sc = chars_at cs sc || h /\
                 list_scan neg sc r = if xorb h neg then LMatch rest2 else LNoMatch);
    clear r cs; try discriminate.
  - intros r cs chars rest2 neg sc H G L. injection H as <- <-.
    split; [exact G|]. split; [reflexivity|]. exists false. split; [symmetry; apply orb_false_r|].
    cbn [list_scan]. destruct neg; reflexivity.
  - intros x e r cs res Hx IH chars rest2 neg sc H G L.
    rewrite rb_elem_range in G by exact Hx. apply orb_false_iff in G as [Ge G].
    destruct (IH _ _ neg sc H G) as (G2 & Ha & h & Hh & Hl); [rewrite set_range_nlen; exact L|].
    assert (Hafter : neg = false -> after_rbracket (x :: 45 :: e :: r) = rest2).
    { intros ->. cbn [after_rbracket]. rewrite (neqb _ _ Hx), Ge. exact (Ha eq_refl). }
    split; [exact G2|]. split; [exact Hafter|]. exists (in_range_either x e sc || h). split.
    + rewrite Hh, set_range_at, in_range_min_max by exact L. symmetry. apply orb_assoc.
    + rewrite list_scan_range by exact Hx. destruct (in_range_either x e sc); [|exact Hl].
      rewrite end_of_elem by exact Hx. destruct neg; [reflexivity|]. rewrite (Hafter eq_refl). reflexivity.
  - intros x d r cs res Hx Hd IH chars rest2 neg sc H G L.
    rewrite rb_elem_step in G by assumption.
    destruct (IH _ _ neg sc H G) as (G2 & Ha & h & Hh & Hl); [rewrite set_range_nlen; exact L|].
    assert (Hafter : neg = false -> after_rbracket (x :: d :: r) = rest2).
    { intro En. cbn [after_rbracket]. rewrite (neqb _ _ Hx). exact (Ha En). }
    split; [exact G2|]. split; [exact Hafter|]. exists ((x =? sc) || h). split.
    + rewrite Hh, set_range_at, in_range_self by exact L. symmetry. apply orb_assoc.
    + rewrite list_scan_single by assumption. destruct (x =? sc); [|exact Hl].
      rewrite end_of_elem by exact Hx. destruct neg; [reflexivity|]. rewrite (Hafter eq_refl). reflexivity.
Qed.

Lemma rb_list0 rest neg r1 : skip_byte 94 rest = (neg, r1) ->
  range_to_rbracket_from PList0 rest = range_to_rbracket_from (PElem neg) r1.
Proof.
  intro H. apply skip_byte_spec in H as [-> Hn]. destruct neg; [reflexivity|].
  destruct r1 as [|c r]; [reflexivity|]. cbn [range_to_rbracket_from pnext orb]. rewrite <- Hn. reflexivity.
Qed.

Theorem list_scan_class rest neg r1 chars rest2 sc :
  skip_byte 94 rest = (neg, r1) -> class_loop r1 chars_empty = Some (chars, rest2) ->
  range_to_rbracket_from PList0 rest = false -> sc < 256 ->
  range_to_rbracket_from PTop rest2 = false /\
  list_scan neg sc r1
  = if in_ranges (runs (if neg then map negb chars else chars)) sc then LMatch rest2 else LNoMatch.
Proof.
  intros Hsk Hcl G Hsc. rewrite (rb_list0 _ _ _ Hsk) in G.
  destruct (class_loop_scan _ _ _ _ neg sc Hcl G) as (G2 & _ & h & Hh & Hl); [rewrite chars_empty_nlen; exact Hsc|].
  apply class_loop_some in Hcl as (_ & _ & Lc). rewrite chars_empty_nlen in Lc.
  split; [exact G2|]. rewrite Hl, runs_exact. rewrite chars_empty_at in Hh. cbn [orb] in Hh.
  destruct neg.
  - rewrite chars_at_negb by lia. rewrite Hh. destruct h; reflexivity.
  - rewrite Hh. destruct h; reflexivity.
Qed.
