(* every transition of a compiled pattern is a non-empty range of bytes *)
From PV Require Import Lib.Bytes Lib.ByteRange Model.Makepat
  Proofs.MakepatBasics Proofs.MakepatReach Proofs.MakepatChain Proofs.MakepatClass.
From Coq Require Import ZifyBool ZifyN ZifyNat.
Open Scope N_scope.

Lemma runs_from_bounds chars : forall i run lo hi, run_before run i ->
  In (lo, hi) (runs_from chars i run) -> lo <= hi /\ hi < i + nlen chars.
Proof.
  induction chars as [|b chars IH]; intros i run lo hi Hrun H; cbn [runs_from] in H.
  - destruct run as [st|]; [|destruct H]. destruct H as [E|[]]. injection E as <- <-. cbn in *. lia.
  - rewrite nlen_cons. destruct run as [st|], b; cbn in Hrun;
      try (destruct H as [E|H]; [injection E as <- <-; lia|]);
      apply IH in H; cbn; lia.
Qed.

Lemma runs_bounds chars lo hi : nlen chars = 256 -> In (lo, hi) (runs chars) -> lo <= hi /\ hi < 256.
Proof. intros L H. unfold runs in H. apply runs_from_bounds in H; [lia|exact I]. Qed.

Definition elem_ok (e : elem) : Prop :=
  match e with EStar => True | ERanges rs => forall lo hi, In (lo, hi) rs -> lo <= hi /\ hi < 256 end.

Lemma range_ok lo hi : lo <= hi -> hi < 256 -> elem_ok (ERanges [(lo, hi)]).
Proof. intros H1 H2 lo' hi' [E|[]]. injection E as <- <-. auto. Qed.

Lemma parses_elems_ok p es : parses p es -> is_bytes p -> Forall elem_ok es.
Proof.
  induction 1 as [|rest es P IH|rest es P IH|c rest es P IH|rest neg r1 chars rest2 es Hsk Hcl P IH
                  |c rest es H42 H63 H92 H91 P IH]; intro Hb; constructor.
  - exact I.
  - exact (IH (Forall_inv_tail Hb)).
  - apply range_ok; lia.
  - exact (IH (Forall_inv_tail Hb)).
  - apply Forall_inv_tail, Forall_inv in Hb. apply range_ok; [lia|exact Hb].
  - exact (IH (Forall_inv_tail (Forall_inv_tail Hb))).
  - apply class_loop_some in Hcl as (_ & _ & L). rewrite chars_empty_nlen in L.
    intros lo hi I. apply runs_bounds in I; [exact I|]. destruct neg; [rewrite map_negb_nlen|]; exact L.
  - apply Forall_inv_tail in Hb. apply class_loop_some in Hcl as (_ & B & _). apply IH, B.
    apply skip_byte_spec in Hsk as [-> _]. destruct neg; [exact (Forall_inv_tail Hb)|exact Hb].
  - apply range_ok; [lia|exact (Forall_inv Hb)].
  - exact (IH (Forall_inv_tail Hb)).
Qed.

Lemma chain_ranges es : Forall elem_ok es -> forall n cur,
  (forall t, In t cur -> tmin t <= tmax t /\ tmax t < 256) ->
  forall st, In st (chain_from n cur es) -> forall t, In t (trans st) -> tmin t <= tmax t /\ tmax t < 256.
Proof.
  induction 1 as [|e es He Hes IH]; intros n cur Hcur st Ist t It.
  - cbn [chain_from] in Ist. destruct Ist as [<-|[]]. exact (Hcur t It).
  - destruct e as [|rs]; cbn [chain_from] in Ist.
    + apply (IH n (cur ++ [mkT 0 255 n])) with (st := st); [|exact Ist|exact It].
      intros t' I. apply in_app_or in I as [I|[<-|[]]]; [exact (Hcur t' I)|cbn; lia].
    + destruct Ist as [<-|Ist].
      * cbn [trans] in It. apply in_app_or in It as [I|I]; [exact (Hcur t I)|].
        apply in_map_iff in I as ([lo hi] & <- & I). cbn [mk_trans tmin tmax fst snd]. exact (He lo hi I).
      * apply (IH (n + 1) []) with (st := st); [intros ? []|exact Ist|exact It].
Qed.

Theorem compile_ranges p a : is_bytes p -> compile p = Ok (Some a) -> ranges_ok a.
Proof.
  intros Hb Hc. destruct (compile_chain p a Hc) as (es & P & ->).
  unfold ranges_ok. apply (chain_ranges es (parses_elems_ok p es P Hb) 0 []). intros t [].
Qed.
