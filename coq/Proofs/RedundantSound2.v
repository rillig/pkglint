(* The reference store and the variables an expansion can reach.

   Texts are lists of pieces (a byte other than '$', or a reference ${z}):
   tokenize is the inverse of flattening.  The invariant of the reference store
   (store_ok): every stored text is such a list, and the references left in the
   text stored for z are reachable from z along [direct pre] (the texts of the
   lines executed so far).  Two stores that agree off x expand a text to the
   same result when the text's references satisfy a predicate that is closed
   under [direct pre] and does not hold of x; hence a line that neither assigns
   x nor reaches x keeps two stores equal off x. *)
From PV Require Import Lib.Bytes Model.Redundant Spec.MakeEval Spec.VerdictSound Spec.VerdictSound2
  Proofs.MakeEvalLemmas Proofs.Redundant.

Inductive piece := PB (b : N) | PR (z : str).

Definition rname_ok (z : str) : bool :=
  forallb (fun c => negb ((c =? 125) || (c =? 36) || (c =? 123) || (c =? 58))) z.
Definition piece_ok (pc : piece) : bool :=
  match pc with PB b => negb (b =? 36) | PR z => rname_ok z end.
Definition flat_piece (pc : piece) : str :=
  match pc with PB b => [b] | PR z => ref_text z end.
Definition flat (ps : list piece) : str := flat_map flat_piece ps.
Definition tok_of (pc : piece) : tok := match pc with PB b => TByte b | PR z => TRef z end.
Definition prefs (ps : list piece) : list var :=
  flat_map (fun pc => match pc with PB _ => [] | PR z => [z] end) ps.

Lemma tokenize_from_some acc c t :
  tokenize_from (Some acc) (c :: t) =
    if c =? 125 then TRef (rev acc) :: tokenize_from None t
    else if (c =? 36) || (c =? 123) || (c =? 58) then [TBad]
    else tokenize_from (Some (c :: acc)) t.
Proof. reflexivity. Qed.

Lemma tokenize_from_none c t :
  tokenize_from None (c :: t) =
    if c =? 36 then
      match t with
      | d :: t'' => if d =? 123 then tokenize_from (Some []) t'' else [TBad]
      | [] => [TBad]
      end
    else TByte c :: tokenize_from None t.
Proof. reflexivity. Qed.

Lemma tokenize_ref z : rname_ok z = true -> forall acc rest,
  tokenize_from (Some acc) (z ++ 125 :: rest) = TRef (rev acc ++ z) :: tokenize_from None rest.
Proof.
  induction z as [|c z IH]; intros H acc rest; simpl app; rewrite tokenize_from_some.
  - rewrite app_nil_r. reflexivity.
  - simpl in H. apply andb_true_iff in H as [Hc Hz].
    destruct (c =? 125), (c =? 36), (c =? 123), (c =? 58); try discriminate Hc. simpl orb. cbv iota.
    rewrite (IH Hz). simpl rev. rewrite <- app_assoc. reflexivity.
Qed.

Lemma tokenize_flat ps :
  forallb piece_ok ps = true -> tokenize (flat ps) = map tok_of ps.
Proof.
  unfold tokenize. induction ps as [|[b|z] ps IH]; intro H; [reflexivity| |];
    simpl in H; apply andb_true_iff in H as [Hc Hps].
  - apply negb_true_iff in Hc. change (flat (PB b :: ps)) with (b :: flat ps).
    rewrite tokenize_from_none, Hc, (IH Hps). reflexivity.
  - change (flat (PR z :: ps)) with (ref_text z ++ flat ps). unfold ref_text.
    rewrite <- !app_assoc. simpl. rewrite (tokenize_ref z Hc), (IH Hps). reflexivity.
Qed.

Lemma flat_app a b : flat (a ++ b) = flat a ++ flat b.
Proof. unfold flat. apply flat_map_app. Qed.
Lemma prefs_app a b : prefs (a ++ b) = prefs a ++ prefs b.
Proof. unfold prefs. apply flat_map_app. Qed.

Lemma flat_bytes s : flat (map PB s) = s.
Proof. induction s as [|c s IH]; [reflexivity|]. unfold flat in *. simpl. rewrite IH. reflexivity. Qed.
Lemma prefs_bytes s : prefs (map PB s) = [].
Proof. induction s as [|c s IH]; [reflexivity|]. unfold prefs in *. simpl. exact IH. Qed.
Lemma ok_bytes s : no_dollar s = true -> forallb piece_ok (map PB s) = true.
Proof.
  induction s as [|c s IH]; intro H; [reflexivity|]. simpl in *.
  apply andb_true_iff in H as [H1 H2]. rewrite H1, (IH H2). reflexivity.
Qed.

Lemma in_tok_of w ps : In (TRef w) (map tok_of ps) <-> In w (prefs ps).
Proof.
  induction ps as [|[b|z] ps IH]; simpl; [tauto| |]; rewrite IH; intuition congruence.
Qed.

Lemma name_ok_rname w : name_ok w = true -> rname_ok w = true.
Proof.
  unfold name_ok, rname_ok. destruct w as [|c0 w0]; [reflexivity|].
  intro H. apply forallb_forall. intros c Hin.
  rewrite forallb_forall in H. specialize (H c Hin).
  destruct (c =? 125), (c =? 36), (c =? 123), (c =? 58); simpl in *; congruence.
Qed.

Section Reach.
Variable D : var -> list var.

Inductive reachP : var -> var -> Prop :=
| r1 z w : In w (D z) -> reachP z w
| rS z m w : In m (D z) -> reachP m w -> reachP z w.

Lemma reachP_snoc y a b : reachP y a -> In b (D a) -> reachP y b.
Proof.
  induction 1 as [z w H|z m w H _ IH]; intro Hb.
  - eapply rS; [exact H|apply r1; exact Hb].
  - eapply rS; [exact H|apply IH; exact Hb].
Qed.

Definition good (Q : var -> Prop) (e : str) : Prop :=
  exists ps, e = flat ps /\ forallb piece_ok ps = true /\ forall w, In w (prefs ps) -> Q w.

Lemma good_nil Q : good Q [].
Proof. exists []. repeat split; auto. intros w []. Qed.

Lemma good_app Q a b : good Q a -> good Q b -> good Q (a ++ b).
Proof.
  intros (pa & Ea & Oa & Qa) (pb & Eb & Ob & Qb). exists (pa ++ pb).
  rewrite flat_app, forallb_app, Oa, Ob, Ea, Eb. repeat split; auto.
  intros w H. rewrite prefs_app in H. apply in_app_or in H as [H|H]; auto.
Qed.

Lemma good_byte Q b : (b =? 36) = false -> good Q [b].
Proof.
  intro H. exists [PB b]. simpl. rewrite H. repeat split; auto. intros w [].
Qed.

Lemma good_cons Q b e : (b =? 36) = false -> good Q e -> good Q (b :: e).
Proof. intros H He. change (b :: e) with ([b] ++ e). apply good_app; [apply good_byte; exact H|exact He]. Qed.

Lemma good_ref (Q : var -> Prop) z : rname_ok z = true -> Q z -> good Q (ref_text z).
Proof.
  intros H Hq. exists [PR z]. unfold flat. simpl. rewrite H, app_nil_r. repeat split; auto.
  intros w [E|[]]. subst w. exact Hq.
Qed.

Lemma good_weaken (Q Q' : var -> Prop) e : (forall w, Q w -> Q' w) -> good Q e -> good Q' e.
Proof. intros H (ps & E & O & HQ). exists ps. repeat split; auto. Qed.

Definition store_ok (st : store) : Prop :=
  forall z t, st z = Some (Txt t) -> good (reachP z) t.

Definition edge_closed (Q : var -> Prop) : Prop := forall a b, Q a -> In b (D a) -> Q b.

Lemma edge_closed_reach Q a b : edge_closed Q -> Q a -> reachP a b -> Q b.
Proof.
  intros Hc Ha H. induction H as [z w H|z m w H _ IH].
  - eapply Hc; eauto.
  - apply IH. eapply Hc; eauto.
Qed.

Lemma good_bytes Q s : no_dollar s = true -> good Q s.
Proof.
  intro H. exists (map PB s). rewrite flat_bytes, prefs_bytes, (ok_bytes s H). repeat split. intros w [].
Qed.

Lemma good_render (Q : var -> Prop) v :
  forallb chunk_ok v = true -> (forall w, In w (uses v) -> Q w) -> good Q (render v).
Proof.
  induction v as [|c v IH]; intros Hok HQ; [apply good_nil|].
  simpl in Hok. apply andb_true_iff in Hok as [Hc Hv].
  change (render (c :: v)) with (render_chunk c ++ render v).
  apply good_app; [|apply IH; [exact Hv|]; intros w Hw; apply HQ, in_or_app; right; exact Hw].
  destruct c as [t|w]; [apply good_bytes; exact Hc|].
  apply good_ref; [apply name_ok_rname; exact Hc|]. apply HQ. left. reflexivity.
Qed.

Lemma expand_good fuel st Q : store_ok st -> edge_closed Q ->
  forall keep t e, good Q t -> expand fuel keep st (tokenize t) = Some e -> good Q e.
Proof.
  intros Hst Hcl. induction fuel as [fuel IHf] using lt_wf_ind.
  intros keep t e (ps & -> & Hok & HQ). rewrite (tokenize_flat _ Hok). revert e.
  induction ps as [|[b|z] ps IH]; intros e He; simpl map in He; rewrite expand_unfold in He.
  - injection He as <-. apply good_nil.
  - simpl in Hok. apply andb_true_iff in Hok as [Hb Hok]. apply negb_true_iff in Hb.
    destruct (expand fuel keep st (map tok_of ps)) as [e'|] eqn:E; [|discriminate].
    injection He as <-. apply good_cons; [exact Hb|]. apply (IH Hok HQ). reflexivity.
  - simpl in Hok. apply andb_true_iff in Hok as [Hz Hok].
    assert (HQz : Q z) by (apply HQ; left; reflexivity).
    assert (HQr : forall w, In w (prefs ps) -> Q w) by (intros w Hw; apply HQ; right; exact Hw).
    destruct (st z) as [[t|]|] eqn:Ez; [|discriminate|].
    + destruct fuel as [|f]; [discriminate|].
      destruct (expand f keep st (tokenize t)) as [e1|] eqn:E1; [|discriminate].
      destruct (expand (S f) keep st (map tok_of ps)) as [e2|] eqn:E2; [|discriminate].
      injection He as <-. apply good_app; [|apply (IH Hok HQr); reflexivity].
      apply (IHf f (Nat.lt_succ_diag_r f) keep t); [|exact E1].
      apply (good_weaken (reachP z)); [|exact (Hst z t Ez)].
      intros w Hw. exact (edge_closed_reach Q z w Hcl HQz Hw).
    + destruct (expand fuel keep st (map tok_of ps)) as [e'|] eqn:E; [|discriminate].
      injection He as <-. apply good_app; [|apply (IH Hok HQr); reflexivity].
      destruct keep; [apply good_ref; assumption|apply good_nil].
Qed.

Lemma store_ok_supd st y t : store_ok st -> good (reachP y) t -> store_ok (supd st y (Txt t)).
Proof.
  intros Hst Hg z t' H. destruct (str_eq_dec z y) as [->|Hn].
  - rewrite supd_same in H. injection H as <-. exact Hg.
  - rewrite supd_other in H by exact Hn. apply Hst; exact H.
Qed.

Lemma store_ok_supd_err st y : store_ok st -> store_ok (supd st y Err).
Proof.
  intros Hst z t' H. unfold supd in H. destruct (str_eqb y z); [discriminate|]. apply Hst; exact H.
Qed.

Lemma store_ok_eval_base st y : store_ok st -> store_ok (eval_base st y).
Proof.
  intro H. unfold eval_base. destruct (st y); [exact H|]. apply store_ok_supd; [exact H|apply good_nil].
Qed.

Lemma reach_edge_closed y : edge_closed (reachP y).
Proof. intros a b Ha Hb. eapply reachP_snoc; eauto. Qed.

Lemma exec_assign_store_ok fuel st a :
  store_ok st -> assign_ok a = true -> incl (uses (a_val a)) (D (a_var a)) ->
  store_ok (exec_assign fuel st (spec_assign a)).
Proof.
  intros Hst Hok Hin.
  assert (Hg : good (reachP (a_var a)) (render (a_val a))).
  { apply good_render; [apply (assign_ok_parts a Hok)|]. intros w Hw. apply r1, Hin, Hw. }
  pose proof (fun st0 H0 keep e => expand_good fuel st0 _ H0 (reach_edge_closed (a_var a)) keep _ e Hg)
    as Hexp.
  unfold exec_assign, spec_assign. simpl. fold (eval_base st (a_var a)).
  destruct (a_op a); simpl.
  - apply store_ok_supd; assumption.
  - destruct (expand fuel false st _) as [e|] eqn:E; [|apply store_ok_supd_err; exact Hst].
    apply store_ok_supd; [exact Hst|]. unfold sh_output.
    apply good_app; [apply good_byte; reflexivity|].
    apply good_app; [exact (Hexp st Hst false e E)|apply good_byte; reflexivity].
  - destruct (expand fuel true _ _) as [e|] eqn:E; [|apply store_ok_supd_err; exact Hst].
    apply store_ok_supd; [exact Hst|]. exact (Hexp _ (store_ok_eval_base st _ Hst) true e E).
  - destruct (st (a_var a)) as [[old|]|] eqn:Eo; [|exact Hst|apply store_ok_supd; assumption].
    apply store_ok_supd; [exact Hst|].
    apply good_app; [exact (Hst _ _ Eo)|]. simpl app. apply good_cons; [reflexivity|exact Hg].
  - destruct (st (a_var a)); [exact Hst|apply store_ok_supd; assumption].
Qed.

Lemma exec_from_store_ok fuel ls : forall st,
  store_ok st -> forallb line_ok ls = true ->
  (forall l a, In l ls -> l_body l = Some a -> incl (uses (a_val a)) (D (a_var a))) ->
  store_ok (exec_from fuel st (to_spec ls)).
Proof.
  induction ls as [|l ls IH]; intros st Hst Hok Hrec; simpl; [exact Hst|].
  simpl in Hok. apply andb_true_iff in Hok as [H1 H2].
  apply IH; [|exact H2|intros l' a Hl'; apply Hrec; right; exact Hl'].
  specialize (Hrec l). unfold spec_line, line_ok in *.
  destruct (l_body l) as [a|]; [|exact Hst]. apply exec_assign_store_ok; auto.
  apply (Hrec a); [left|]; reflexivity.
Qed.

End Reach.

Lemma store_after_ok fuel pre :
  wf_program pre = true -> store_ok (direct pre) (store_after fuel pre).
Proof.
  intro Hwf. unfold store_after. apply exec_from_store_ok; [discriminate|exact Hwf|].
  intros l a Hin Hb w Hw. unfold direct. apply in_flat_map. exists l. split; [exact Hin|].
  rewrite Hb, str_eqb_refl. exact Hw.
Qed.

Definition unreached (pre : program) (ws : list var) (x : var) : Prop :=
  exists Q : var -> Prop, edge_closed (direct pre) Q /\ (forall w, In w ws -> Q w) /\ ~ Q x.

Lemma unnamed_unreached pre ws x :
  (forall z, ~ In x (direct pre z)) -> ~ In x ws -> unreached pre ws x.
Proof.
  intros Hn Hx. exists (fun w => w <> x). split; [|split; [|auto]].
  - intros a b _ Hb ->. exact (Hn a Hb).
  - intros w Hw ->. contradiction.
Qed.

Lemma expand_indep fuel x pre s1 s2 a keep :
  store_ok (direct pre) s1 -> agree_off x s1 s2 -> assign_ok a = true ->
  unreached pre (uses (a_val a)) x ->
  expand fuel keep s1 (tokenize (render (a_val a))) = expand fuel keep s2 (tokenize (render (a_val a))).
Proof.
  intros Hst Hag Hok (Q & Hcl & Hinc & Hx).
  destruct (good_render Q (a_val a)) as (ps & -> & Ops & Qps); [apply (assign_ok_parts a Hok)|exact Hinc|].
  rewrite (tokenize_flat _ Ops). apply (expand_agree Q).
  - intros z Hz. apply Hag. intros ->. contradiction.
  - intros z t w Hz Ez Hw. destruct (Hst z t Ez) as (pt & -> & Ot & Qt).
    rewrite (tokenize_flat _ Ot) in Hw. apply in_tok_of, Qt in Hw.
    exact (edge_closed_reach (direct pre) Q z w Hcl Hz Hw).
  - intros w Hw. apply Qps, in_tok_of, Hw.
Qed.

Lemma exec_line_indep fuel x pre s1 s2 l :
  store_ok (direct pre) s1 -> agree_off x s1 s2 -> line_ok l = true -> assigns x l = false ->
  (forall a, l_body l = Some a -> is_eager (a_op a) = true -> unreached pre (uses (a_val a)) x) ->
  agree_off x (exec_line fuel s1 (spec_line l)) (exec_line fuel s2 (spec_line l)).
Proof.
  intros Hst Hag Hok Hna Hind. unfold assigns, line_ok, spec_line in *.
  destruct (l_body l) as [a|]; [|exact Hag]. simpl.
  assert (Hyx : a_var a <> x) by (intros E; rewrite E, str_eqb_refl in Hna; discriminate).
  assert (Hun : spec_op (a_op a) = SEval \/ spec_op (a_op a) = SShell -> unreached pre (uses (a_val a)) x).
  { intro H. apply (Hind a eq_refl). destruct (a_op a), H; discriminate || reflexivity. }
  intros y Hy. apply exec_assign_cong; simpl; intros.
  - apply Hag, Hy.
  - apply Hag, Hyx.
  - apply (expand_indep fuel x pre); auto using store_ok_eval_base.
    intros z Hz. apply eval_base_agree; auto.
  - apply (expand_indep fuel x pre); auto.
Qed.

Lemma shell_assign_indep fuel x pre s1 s2 a :
  store_ok (direct pre) s1 -> agree_off x s1 s2 -> assign_ok a = true -> a_op a = OpShell ->
  unreached pre (uses (a_val a)) x ->
  exec_assign fuel s1 (spec_assign a) (a_var a) = exec_assign fuel s2 (spec_assign a) (a_var a).
Proof.
  intros Hst Hag Hok Ho Hun. unfold exec_assign, spec_assign. simpl. rewrite Ho. simpl.
  rewrite (expand_indep fuel x pre s1 s2 a false Hst Hag Hok Hun).
  destruct (expand fuel false s2 _); rewrite !supd_same; reflexivity.
Qed.

Lemma wf_app a b : wf_program (a ++ b) = true -> wf_program a = true /\ wf_program b = true.
Proof. unfold wf_program. rewrite forallb_app. intro H. apply andb_true_iff in H. exact H. Qed.

Lemma indep_lines_app x : forall a pre b,
  indep_lines x pre (a ++ b) = indep_lines x pre a && indep_lines x (pre ++ a) b.
Proof.
  induction a as [|l a IH]; intros pre b; simpl.
  - rewrite app_nil_r. reflexivity.
  - rewrite IH, <- app_assoc, andb_assoc. reflexivity.
Qed.

Lemma assigns_decomp_unique x (pre1 pre1' : program) lp lp' mid mid' :
  pre1 ++ lp :: mid = pre1' ++ lp' :: mid' ->
  assigns x lp = true -> assigns x lp' = true ->
  forallb (fun l0 => negb (assigns x l0)) mid = true ->
  forallb (fun l0 => negb (assigns x l0)) mid' = true ->
  pre1 = pre1' /\ lp = lp' /\ mid = mid'.
Proof.
  revert pre1'. induction pre1 as [|y pre1 IH]; intros [|y' pre1'] E H1 H2 M1 M2; simpl in E.
  - inversion E; subst. auto.
  - inversion E; subst. exfalso. rewrite forallb_app in M1. apply andb_true_iff in M1 as [_ M1].
    simpl in M1. rewrite H2 in M1. discriminate.
  - inversion E; subst. exfalso. rewrite forallb_app in M2. apply andb_true_iff in M2 as [_ M2].
    simpl in M2. rewrite H1 in M2. discriminate.
  - inversion E; subst. destruct (IH pre1' H3 H1 H2 M1 M2) as (A & B & C). subst. auto.
Qed.

(* guard2 lets a program through that guard excludes:
   VA= a / VC= c / VB:= ${VC} / VA= b : "VA in line 1 is overwritten in line 4";
   line 3 is a ':=' with a '$' between the two lines, and does not reach VA. *)
Definition prog_between : program :=
  [ mkLine 0 1 (Some (mkAssign [86; 65]%N OpAssign [Lit [97]%N]));
    mkLine 0 2 (Some (mkAssign [86; 67]%N OpAssign [Lit [99]%N]));
    mkLine 0 3 (Some (mkAssign [86; 66]%N OpEval [Ref [86; 67]%N]));
    mkLine 0 4 (Some (mkAssign [86; 65]%N OpAssign [Lit [98]%N])) ].
Lemma prog_between_facts :
  wf_program prog_between = true /\
  check prog_between = Ok [mkVerdict 0 3 KOverwritten] /\
  guard prog_between (mkVerdict 0 3 KOverwritten) = false /\
  guard2 prog_between (mkVerdict 0 3 KOverwritten) = true.
Proof. repeat split; vm_compute; reflexivity. Qed.
