From Coq Require Import List NArith Bool Lia Arith.
From PV Require Import Lib.Bytes Lib.PanicRes Model.Resolve Spec.ResolveSpec.
Import ListNotations.

Lemma match_at_spec s name : match_at s = Some name ->
  exists rest, s = expr_text name ++ rest.
Proof.
  unfold match_at. destruct s as [|a [|b r]]; try discriminate.
  destruct (N.eqb_spec a 36); [|discriminate]. destruct (N.eqb_spec b 123); [|discriminate].
  cbn [andb]. pose proof (span_app is_varchar r) as Happ.
  destruct (span is_varchar r) as [nm rest]. cbn [fst snd] in Happ.
  destruct nm as [|n nm]; [discriminate|]. destruct rest as [|c rest]; [discriminate|].
  destruct (N.eqb_spec c 125); [|discriminate]. intros H; inversion H; subst.
  exists rest. unfold expr_text. cbn [app]. rewrite <- app_assoc. reflexivity.
Qed.

Lemma expr_text_length name : length (expr_text name) = (length name + 3)%nat.
Proof. unfold expr_text. cbn [length]. rewrite app_length. cbn [length]. lia. Qed.

Lemma skipn_length_app {A} (a b : list A) : skipn (length a) (a ++ b) = b.
Proof. induction a; auto. Qed.

Lemma match_at_skip c t name : match_at (c :: t) = Some name ->
  c :: t = expr_text name ++ skipn (length name + 2) t.
Proof.
  intros H. destruct (match_at_spec _ _ H) as [rest E]. rewrite E at 1. f_equal.
  injection E as _ ->. symmetry.
  replace (length name + 2)%nat with (length (123%N :: name ++ [125%N])).
  - apply (skipn_length_app (123%N :: name ++ [125%N])).
  - cbn [length]. rewrite app_length. cbn [length]. lia.
Qed.

(* the measure: with f = 1 it drops at every pass that changes the text (termination),
   with f = vlen sc it pays for what a pass adds to the length *)
Fixpoint wsum (f : str -> nat) (l : list str) (vis : list str) : nat :=
  match l with
  | [] => O
  | k :: t => if mem k vis then wsum f t vis else (f k + wsum f t vis)%nat
  end.

Lemma wsum_mono f l x vis : (wsum f l (x :: vis) <= wsum f l vis)%nat.
Proof.
  induction l as [|k t IH]; cbn [wsum mem]; [lia|].
  destruct (str_eqb x k); cbn [orb]; destruct (mem k vis); lia.
Qed.

Lemma wsum_drop f l x vis : In x l -> mem x vis = false ->
  (wsum f l (x :: vis) + f x <= wsum f l vis)%nat.
Proof.
  intros Hin Hm. induction l as [|k t IH]; [contradiction|].
  cbn [wsum mem]. destruct Hin as [->|Hin].
  - rewrite str_eqb_refl. cbn [orb]. rewrite Hm. pose proof (wsum_mono f t x vis). lia.
  - specialize (IH Hin). destruct (str_eqb x k); cbn [orb]; destruct (mem k vis); lia.
Qed.

Lemma wsum_nil f l : wsum f l [] = fold_right (fun k acc => (f k + acc)%nat) O l.
Proof. induction l as [|k t IH]; [reflexivity|]. cbn [wsum mem fold_right]. rewrite IH. reflexivity. Qed.

Lemma wsum_one_nil l : wsum (fun _ => 1%nat) l [] = length l.
Proof. induction l as [|k t IH]; [reflexivity|]. cbn [wsum mem length]. rewrite IH. reflexivity. Qed.

Lemma rlookup_in sc k x : rlookup sc k = Some x -> In k (keys sc).
Proof.
  unfold keys. intros H. apply nodup_In.
  induction sc as [|[k0 x0] t IH]; [discriminate|]. cbn [rlookup] in H. cbn [map fst].
  destruct (str_eqb k0 k) eqn:E; [left; apply str_eqb_spec; exact E | right; auto].
Qed.

Section Pass.
Variable sc : rscope.
Let K := keys sc.
Let one : str -> nat := fun _ => 1%nat.

Lemma replace1_wsum g vis name vis1 repl : replace1 sc vis name = (vis1, repl) ->
  (wsum g K vis1 <= wsum g K vis)%nat /\
  (repl <> expr_text name ->
   rlookup sc name = Some repl /\ (wsum g K vis1 + g name <= wsum g K vis)%nat).
Proof.
  unfold replace1. destruct (mem name vis) eqn:Hm; intros [= <- <-]; [split; [lia|congruence]|].
  split; [apply wsum_mono|]. destruct (rlookup sc name) as [x|] eqn:Hl; [|congruence].
  intros _. split; [reflexivity|]. apply wsum_drop; [exact (rlookup_in _ _ _ Hl)|exact Hm].
Qed.

Lemma pass_spec s : forall skip vis vis' out, pass sc vis skip s = (vis', out) ->
  (forall g, wsum g K vis' <= wsum g K vis)%nat /\
  (length out + wsum (vlen sc) K vis' <= length (skipn skip s) + wsum (vlen sc) K vis)%nat /\
  (out <> skipn skip s -> (wsum one K vis' < wsum one K vis)%nat).
Proof.
  induction s as [|c t IH]; intros skip vis vis' out H.
  - cbn [pass] in H. inversion H; subst. rewrite skipn_nil. repeat split; try lia. congruence.
  - cbn [pass] in H. destruct skip as [|k]; [|cbn [skipn]; apply IH; exact H].
    destruct (match_at (c :: t)) as [name|] eqn:Hm.
    + destruct (replace1 sc vis name) as [vis1 repl] eqn:Hr.
      destruct (pass sc vis1 (length name + 2) t) as [vis2 out2] eqn:Hp.
      inversion H; subst. clear H.
      destruct (IH _ _ _ _ Hp) as (M2 & L2 & C2).
      pose proof (fun g => replace1_wsum g _ _ _ _ Hr) as R.
      cbn [skipn]. rewrite (match_at_skip _ _ _ Hm) at 1 2. rewrite !app_length.
      split; [intros g; specialize (M2 g); specialize (R g); lia|].
      destruct (str_eq_dec repl (expr_text name)) as [->|Hd].
      * split; [specialize (R (vlen sc)); lia|]. intros Hne.
        assert (out2 <> skipn (length name + 2) t) by congruence. specialize (R one). specialize (C2 H). lia.
      * destruct (proj2 (R (vlen sc)) Hd) as [Hl Hv]. unfold vlen at 2 in Hv. rewrite Hl in Hv.
        split; [lia|]. intros _. specialize (M2 one). destruct (proj2 (R one) Hd) as [_ H1]. unfold one at 2 in H1. lia.
    + destruct (pass sc vis 0 t) as [vis2 out2] eqn:Hp. inversion H; subst. clear H.
      destruct (IH _ _ _ _ Hp) as (M2 & L2 & C2). cbn [skipn] in *.
      split; [exact M2|split]; [cbn [length]; lia|]. intros Hne. apply C2. congruence.
Qed.

Lemma loop_terminates : forall fuel vis s, (wsum one K vis < fuel)%nat ->
  exists r, resolve_loop fuel sc vis s = Ok r.
Proof.
  induction fuel as [|f IH]; intros vis s Hlt; [lia|].
  cbn [resolve_loop]. destruct (pass sc vis 0 s) as [vis' replaced] eqn:Hp.
  destruct (str_eqb replaced s) eqn:E; [eauto|].
  destruct (pass_spec _ _ _ _ _ Hp) as (_ & _ & C). cbn [skipn] in C.
  apply IH. assert (replaced <> s) by (intros ->; rewrite str_eqb_refl in E; discriminate).
  specialize (C H). lia.
Qed.

Lemma loop_bounded : forall fuel vis s r, resolve_loop fuel sc vis s = Ok r ->
  (length r <= length s + wsum (vlen sc) K vis)%nat.
Proof.
  induction fuel as [|f IH]; intros vis s r H; [discriminate|].
  cbn [resolve_loop] in H. destruct (pass sc vis 0 s) as [vis' replaced] eqn:Hp.
  destruct (pass_spec _ _ _ _ _ Hp) as (_ & L & _). cbn [skipn] in L.
  destruct (str_eqb replaced s) eqn:E.
  - inversion H; subst. lia.
  - specialize (IH _ _ _ H). lia.
Qed.

Lemma loop_stable : forall fuel vis s r, resolve_loop fuel sc vis s = Ok r ->
  exists vis', stable sc vis' r.
Proof.
  induction fuel as [|f IH]; intros vis s r H; [discriminate|].
  cbn [resolve_loop] in H. destruct (pass sc vis 0 s) as [vis' replaced] eqn:Hp.
  destruct (str_eqb replaced s) eqn:E.
  - inversion H; subst. apply str_eqb_spec in E. subst s. exists vis. unfold stable. rewrite Hp. reflexivity.
  - eapply IH; eauto.
Qed.
End Pass.

Lemma resolve_fuel_sufficient : forall (sc : rscope) (text : str) (fuel : nat),
  (length (keys sc) < fuel)%nat -> exists r, resolve_loop fuel sc [] text = Ok r.
Proof. intros. apply loop_terminates. rewrite wsum_one_nil. exact H. Qed.

Lemma resolve_terminates : forall (has_expr : bool) (sc : rscope) (text : str),
  exists r, resolve_exprs has_expr sc text = Ok r.
Proof.
  intros. unfold resolve_exprs. destruct has_expr; cbn [negb]; [|eauto].
  apply resolve_fuel_sufficient. apply Nat.lt_succ_diag_r.
Qed.

Lemma resolve_output_bounded : forall (has_expr : bool) (sc : rscope) (text r : str),
  resolve_exprs has_expr sc text = Ok r ->
  (length r <= length text + value_budget sc)%nat.
Proof.
  intros he sc text r. unfold resolve_exprs. destruct he; cbn [negb].
  - intros H. apply loop_bounded in H. rewrite wsum_nil in H. exact H.
  - intros H; inversion H; subst. lia.
Qed.

Lemma resolve_result_stable : forall (sc : rscope) (text r : str),
  resolve_exprs true sc text = Ok r -> exists vis, stable sc vis r.
Proof. intros sc text r H. unfold resolve_exprs in H. cbn [negb] in H. eapply loop_stable; eauto. Qed.

Lemma resolve_no_expr_identity : forall sc text, resolve_exprs false sc text = Ok text.
Proof. reflexivity. Qed.
