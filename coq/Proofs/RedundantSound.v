(* "The flagged line can be deleted", reduced to a statement about the reference
   store after the line that triggers the verdict; small facts about the guards. *)
From PV Require Import Lib.Bytes Model.Redundant Spec.MakeEval Spec.VerdictSound Spec.VerdictSound2
  Proofs.MakeEvalLemmas Proofs.Redundant.

Lemma delete_nth_app {A} (a : list A) x b : delete_nth (length a) (a ++ x :: b) = a ++ b.
Proof. induction a as [|y a IH]; simpl; [reflexivity|]. rewrite IH. reflexivity. Qed.

Lemma final_of_app fuel a b x :
  final fuel (to_spec (a ++ b)) x =
  expand (S fuel) false (exec_from fuel (store_after fuel a) (to_spec b)) [TRef x].
Proof.
  unfold final. rewrite exec_is_exec_from. unfold to_spec. rewrite map_app, exec_from_app. reflexivity.
Qed.

(* the flagged line is the current line *)
Lemma fwd_deletable pre l a post :
  l_body l = Some a ->
  (forall fuel, exec_assign fuel (store_after fuel pre) (spec_assign a) (a_var a) =
                store_after fuel pre (a_var a)) ->
  deletable (pre ++ l :: post) (length pre).
Proof.
  intros Eb H fuel x. rewrite delete_nth_app, !final_of_app.
  apply final_ext_stores. simpl to_spec. unfold spec_line. rewrite Eb. simpl.
  apply exec_from_ext. intro y. symmetry.
  destruct (str_eq_dec y (a_var a)) as [->|Hn]; [apply H|apply exec_assign_other; exact Hn].
Qed.

(* the flagged line lp is an earlier line *)
Lemma bwd_deletable pre pre1 lp mid l a post :
  pre = pre1 ++ lp :: mid -> l_body l = Some a ->
  (forall fuel, agree_off (a_var a) (store_after fuel pre)
                          (exec_from fuel (store_after fuel pre1) (to_spec mid))) ->
  (forall fuel, exec_assign fuel (store_after fuel pre) (spec_assign a) (a_var a) =
                exec_assign fuel (exec_from fuel (store_after fuel pre1) (to_spec mid)) (spec_assign a) (a_var a)) ->
  deletable (pre ++ l :: post) (length pre1).
Proof.
  intros -> Eb Hag H fuel x. rewrite <- app_assoc. simpl app. rewrite delete_nth_app.
  change (pre1 ++ lp :: mid ++ l :: post) with (pre1 ++ (lp :: mid) ++ l :: post).
  rewrite (app_assoc pre1 (lp :: mid)), !final_of_app. apply final_ext_stores.
  unfold to_spec. rewrite map_app, exec_from_app. simpl. unfold spec_line. rewrite Eb. simpl.
  apply exec_from_ext. intro y. symmetry.
  destruct (str_eq_dec y (a_var a)) as [->|Hn]; [apply H|].
  rewrite !exec_assign_other by exact Hn. apply Hag; exact Hn.
Qed.

Lemma exec_from_unassigned fuel x : forall ls st,
  forallb (fun l => negb (assigns x l)) ls = true -> exec_from fuel st (to_spec ls) x = st x.
Proof.
  induction ls as [|l ls IH]; intros st H; simpl; [reflexivity|].
  simpl in H. apply andb_true_iff in H as [H1 H2]. rewrite (IH _ H2).
  apply exec_line_other. rewrite sassigns_spec_line. apply negb_true_iff, H1.
Qed.

Lemma writes_of_nil_inv x : forall ls idx,
  writes_of x idx ls = [] -> forallb (fun l => negb (assigns x l)) ls = true.
Proof.
  induction ls as [|l ls IH]; intros idx H; simpl; [reflexivity|].
  simpl in H. apply app_eq_nil in H as [H1 H2]. rewrite (IH _ H2), andb_true_r.
  unfold entry in H1. unfold assigns. destruct (l_body l) as [a|]; [|reflexivity].
  destruct (str_eqb (a_var a) x); [discriminate|reflexivity].
Qed.

Lemma trimmed_not_space t : trimmed (32 :: t) = false.
Proof. reflexivity. Qed.

Lemma guard4_later pre l post a i k :
  l_body l = Some a -> guard4 (pre ++ l :: post) (mkVerdict (length pre) i k) = true ->
  a_op a <> OpDefault -> (i < length pre)%nat ->
  after_eval_ref (writes_of (a_var a) 0 pre) = false.
Proof.
  intros Eb Hg Ho Hi. revert Hg. unfold guard4, line_op, line_var. simpl.
  replace (Nat.ltb (length pre) i) with false by (symmetry; apply Nat.ltb_ge; lia).
  rewrite nth_error_mid, Eb, firstn_mid. simpl.
  destruct (a_op a); try congruence; intro H; apply negb_true_iff in H; exact H.
Qed.

Lemma after_eval_ref_plain x : forall ls idx ws,
  forallb eager_plain_line ls = true -> after_eval_ref ws = false ->
  after_eval_ref (ws ++ writes_of x idx ls) = false.
Proof.
  induction ls as [|l ls IH]; intros idx ws H Hws; simpl; [rewrite app_nil_r; exact Hws|].
  simpl in H. apply andb_true_iff in H as [H1 H2]. rewrite app_assoc. apply IH; [exact H2|].
  unfold entry. unfold eager_plain_line in H1. destruct (l_body l) as [a|]; [|rewrite app_nil_r; exact Hws].
  destruct (str_eqb (a_var a) x); [|rewrite app_nil_r; exact Hws].
  rewrite after_eval_ref_snoc. simpl. destruct (a_op a); auto. simpl in H1. rewrite H1. reflexivity.
Qed.
