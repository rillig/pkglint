(* Lemmas about single calls of Model.ShellLex.Lex: what it returns, and the
   lexer state it leaves, for each class of token of the specification. *)
From Coq Require Import NArith ZArith List Bool Lia.
From PV Require Import Lib.Bytes Gen.ShellGrammar Model.ShellLex Spec.PosixSh.
From PV Require Lib.LinesLib.
Import ListNotations.
Open Scope Z_scope.

Definition prepend (ts : list term) (r : lexed) : lexed :=
  match r with Lexed l => Lexed (ts ++ l) | other => other end.

(* from lx, the next |ts| calls of Lex return ts and leave lx' *)
Definition steps (lx : lexer) (ts : list term) (lx' : lexer) : Prop :=
  forall fuel, lex_stream (length ts + fuel) lx = prepend ts (lex_stream fuel lx').

Lemma prepend_nil r : prepend [] r = r.
Proof. destruct r; reflexivity. Qed.

Lemma prepend_app a b r : prepend (a ++ b) r = prepend a (prepend b r).
Proof. destruct r; simpl; try reflexivity. rewrite app_assoc. reflexivity. Qed.

Lemma steps_nil lx : steps lx [] lx.
Proof. intro fuel. simpl. rewrite prepend_nil. reflexivity. Qed.

Lemma steps_one lx t lx' : Lex lx = LexTok t lx' -> steps lx [t] lx'.
Proof.
  intros H fuel. simpl. rewrite H. destruct (lex_stream fuel lx'); reflexivity.
Qed.

Lemma steps_app a ts1 b ts2 c : steps a ts1 b -> steps b ts2 c -> steps a (ts1 ++ ts2) c.
Proof.
  intros H1 H2 fuel. rewrite app_length, <- Nat.add_assoc, H1, H2, prepend_app. reflexivity.
Qed.

Lemma steps_cons a t b ts c : Lex a = LexTok t b -> steps b ts c -> steps a (t :: ts) c.
Proof. intros H1 H2. exact (steps_app a [t] b ts c (steps_one a t b H1) H2). Qed.

(* neither counter can reach the values at which `in`, `do`, `esac` are special *)
Definition safe (f c : Z) : Prop := (f < 0 \/ 2 <= f) /\ (c < 0 \/ 3 <= c).

Definition bumpv (z : Z) : Z := if 0 <=? z then z + 1 else z.

Lemma safe_bump f c : safe f c -> safe (bumpv f) (bumpv c).
Proof. unfold safe, bumpv. intros [Hf Hc]. destruct (Z.leb_spec 0 f), (Z.leb_spec 0 c); lia. Qed.

Lemma safe_m1 : safe (-1) (-1).
Proof. unfold safe. lia. Qed.

Lemma bump_mk io rem a f c i g :
  bump (mkLx io rem a f c i g) = mkLx io rem a (bumpv f) (bumpv c) i g.
Proof. unfold bump, bumpv. simpl. destruct (0 <=? f); simpl; destruct (0 <=? c); reflexivity. Qed.

Ltac split_orb H :=
  repeat match type of H with
  | (_ || _)%bool = false => let H1 := fresh "Hne" in apply orb_false_iff in H; destruct H as [H1 H]
  end.

Ltac rewrite_neq :=
  repeat match goal with
  | H : str_eqb ?s ?k = false |- context [str_eqb ?s ?k] => rewrite H
  end.

Lemma not_operator_lookup s : is_operator s = false -> lookup operator_table s = None.
Proof.
  unfold is_operator, mem, operator_texts. cbn [existsb]. intro H. split_orb H.
  cbn [lookup operator_table]. rewrite_neq. reflexivity.
Qed.

Lemma not_reserved_lookup s : is_reserved s = false ->
  lookup keyword_table s = None /\ str_eqb s s_esac = false.
Proof.
  unfold is_reserved, mem, reserved_texts. cbn [existsb]. intro H. split_orb H.
  split; [| assumption]. cbn [lookup keyword_table]. rewrite_neq. reflexivity.
Qed.

Lemma not_io_number s : io_number_shaped s = false -> match_io_number s = None.
Proof.
  unfold io_number_shaped, match_io_number. destruct (span is_digit s) as [ds r].
  destruct ds as [| d ds]; [reflexivity |]. cbn [negb andb].
  unfold mem, redirect_texts, redirect_ops. cbn [existsb]. intro H. split_orb H.
  rewrite_neq. reflexivity.
Qed.

Lemma assignment_like_shaped s : assignment_like s = assignment_shaped s.
Proof. reflexivity. Qed.

Lemma comment_like_hash s : comment_like s = starts_with_hash s.
Proof. reflexivity. Qed.

Lemma assignment_not_reserved s : assignment_like s = true -> is_reserved s = false.
Proof.
  intro Ha. destruct (is_reserved s) eqn:Hr; [| reflexivity].
  unfold is_reserved, mem in Hr. apply existsb_exists in Hr. destruct Hr as (k & Hin & Heq).
  apply str_eqb_spec in Heq. subst k.
  unfold reserved_texts in Hin. simpl in Hin.
  repeat (destruct Hin as [<- | Hin]; [vm_compute in Ha; discriminate |]). destruct Hin.
Qed.

Lemma arg_ok_inv w : arg_ok w = true ->
  t_kind w = WkPlain /\ lookup operator_table (t_text w) = None /\
  match_io_number (t_text w) = None /\ starts_with_hash (t_text w) = false.
Proof.
  unfold arg_ok. rewrite !andb_true_iff, !negb_true_iff. intros (((Hk & Hop) & Hio) & Hh).
  repeat split; [destruct (t_kind w); easy | apply not_operator_lookup | apply not_io_number |]; assumption.
Qed.

Lemma name_ok_inv w : name_ok w = true ->
  arg_ok w = true /\ is_reserved (t_text w) = false /\ assignment_shaped (t_text w) = false.
Proof. unfold name_ok. rewrite !andb_true_iff, !negb_true_iff. intros [[Hw Hr] Ha]. auto. Qed.

Lemma name_ok_arg_ok w : name_ok w = true -> arg_ok w = true.
Proof. intro H. apply name_ok_inv in H. tauto. Qed.

Lemma pattern_ok_inv w : pattern_ok w = true -> arg_ok w = true /\ str_eqb (t_text w) s_esac = false.
Proof. unfold pattern_ok. rewrite andb_true_iff, negb_true_iff. trivial. Qed.

(* g = afterAssign on entry; it is cleared before anything else and only passed on
   to the reserved-word test and to the final switch *)
Lemma Lex_unfold w rest a f c i g :
  Lex (mkLx [] (w :: rest) a f c i g) =
  match lookup operator_table (t_text w) with
  | Some (t, eff) => LexTok t (eff (mkLx [] rest a f c i false))
  | None =>
    match match_io_number (t_text w) with
    | Some (_, op) => LexTok tkIO_NUMBER (mkLx op rest a f c i false)
    | None =>
      if a then
        match (if negb i && negb g then lookup keyword_table (t_text w) else None) with
        | Some (t, eff) => LexTok t (eff (mkLx [] rest true (-1) (-1) i false))
        | None => lex_word (t_text w) (t_kind w) g (mkLx [] rest true (-1) (-1) i false)
        end
      else lex_word (t_text w) (t_kind w) g (mkLx [] rest false (bumpv f) (bumpv c) i false)
    end
  end.
Proof.
  unfold Lex. cbv beta iota delta [remaining ioRedirect].
  destruct (lookup operator_table (t_text w)) as [[t eff] |]; [reflexivity |].
  destruct (match_io_number (t_text w)) as [[ds op] |]; [reflexivity |].
  destruct a; [| rewrite <- bump_mk]; reflexivity.
Qed.

Lemma lex_word_mk token kind g rest a f c i :
  lex_word token kind g (mkLx [] rest a f c i false) =
  if (f =? 2) && str_eqb token s_in then LexTok tkIN (mkLx [] rest false f c i false)
  else if (f =? 2) && str_eqb token s_do then LexTok tkDO (mkLx [] rest true f c i false)
  else if (c =? 2) && str_eqb token s_in then LexTok tkIN (mkLx [] rest false f c true false)
  else if ((a && negb g) || (c =? 3)) && str_eqb token s_esac then LexTok tkESAC (mkLx [] rest true f c false false)
  else if a && negb i && assignment_shaped token then LexTok tkASSIGNMENT_WORD (mkLx [] rest a f c i true)
  else if starts_with_hash token then LexEOF (mkLx [] rest a f c i false)
  else if 0 <=? c then
    match kind with
    | WkNil => LexPanic
    | WkLoopExpr => LexTok tkWORD (mkLx [] rest true f c i false)
    | WkPlain => LexTok tkWORD (mkLx [] rest false f c i false)
    end
  else LexTok tkWORD (mkLx [] rest false f c i false).
Proof. reflexivity. Qed.

Lemma safe_not_special f c :
  safe f c -> (bumpv f =? 2) = false /\ (bumpv c =? 2) = false /\ (bumpv c =? 3) = false.
Proof.
  unfold safe, bumpv. intros [Hf Hc]. rewrite !Z.eqb_neq.
  destruct (Z.leb_spec 0 f), (Z.leb_spec 0 c); lia.
Qed.

(* the counters single out `in` and `do` two tokens after `for`, `in` two tokens after
   `case`, `esac` right after that *)
Lemma lex_arg_step w rest f c i g :
  arg_ok w = true ->
  (bumpv f =? 2) = false -> (bumpv c =? 2) = false ->
  (bumpv c =? 3) && str_eqb (t_text w) s_esac = false ->
  Lex (mkLx [] (w :: rest) false f c i g) = LexTok tkWORD (mkLx [] rest false (bumpv f) (bumpv c) i false).
Proof.
  intros Hw Hf Hc He. destruct (arg_ok_inv w Hw) as (Hk & Hop & Hio & Hh).
  rewrite Lex_unfold, Hop, Hio, lex_word_mk, Hf, Hc. cbn [andb orb]. rewrite He, Hh, Hk.
  destruct (0 <=? bumpv c); reflexivity.
Qed.

Lemma lex_arg w rest f c i g :
  arg_ok w = true -> safe f c ->
  Lex (mkLx [] (w :: rest) false f c i g) = LexTok tkWORD (mkLx [] rest false (bumpv f) (bumpv c) i false).
Proof.
  intros Hw Hs. destruct (safe_not_special f c Hs) as (Hf & Hc2 & Hc3).
  apply lex_arg_step; [assumption .. | rewrite Hc3; reflexivity].
Qed.

Lemma lex_arg_for_name w rest i :
  arg_ok w = true ->
  Lex (mkLx [] (w :: rest) false 0 (-1) i false) = LexTok tkWORD (mkLx [] rest false 1 (-1) i false).
Proof. intro Hw. exact (lex_arg_step w rest 0 (-1) i false Hw eq_refl eq_refl eq_refl). Qed.

Lemma lex_arg_case_subject w rest i :
  arg_ok w = true ->
  Lex (mkLx [] (w :: rest) false (-1) 0 i false) = LexTok tkWORD (mkLx [] rest false (-1) 1 i false).
Proof. intro Hw. exact (lex_arg_step w rest (-1) 0 i false Hw eq_refl eq_refl eq_refl). Qed.

(* sinceCase goes from 2 to 3, where `esac` is special *)
Lemma lex_first_pattern w rest i :
  pattern_ok w = true ->
  Lex (mkLx [] (w :: rest) false (-1) 2 i false) = LexTok tkWORD (mkLx [] rest false (-1) 3 i false).
Proof.
  intros Hn. destruct (pattern_ok_inv w Hn) as (Hw & Hesac).
  exact (lex_arg_step w rest (-1) 2 i false Hw eq_refl eq_refl Hesac).
Qed.

Lemma lex_cmdstart_word w rest f c i g :
  arg_ok w = true ->
  (if negb i && negb g then lookup keyword_table (t_text w) else None) = None ->
  negb g && str_eqb (t_text w) s_esac = false ->
  Lex (mkLx [] (w :: rest) true f c i g) =
  if negb i && assignment_shaped (t_text w)
  then LexTok tkASSIGNMENT_WORD (mkLx [] rest true (-1) (-1) i true)
  else LexTok tkWORD (mkLx [] rest false (-1) (-1) i false).
Proof.
  intros Hw Hkw He. destruct (arg_ok_inv w Hw) as (Hk & Hop & Hio & Hh).
  rewrite Lex_unfold, Hop, Hio, Hkw, lex_word_mk, Hh.
  cbn [Z.eqb andb orb Z.leb Z.compare]. rewrite orb_false_r, He. reflexivity.
Qed.

(* inCasePattern protects the pattern from the reserved-word switch and from the
   assignment-word arm *)
Lemma lex_pattern_after_dsemi w rest f c :
  pattern_ok w = true ->
  Lex (mkLx [] (w :: rest) true f c true false) = LexTok tkWORD (mkLx [] rest false (-1) (-1) true false).
Proof.
  intros Hn. destruct (pattern_ok_inv w Hn) as (Hw & Hesac).
  exact (lex_cmdstart_word w rest f c true false Hw eq_refl Hesac).
Qed.

Lemma lex_name w rest f c i :
  name_ok w = true ->
  Lex (mkLx [] (w :: rest) true f c i false) = LexTok tkWORD (mkLx [] rest false (-1) (-1) i false).
Proof.
  intros Hn. destruct (name_ok_inv w Hn) as (Hw & Hr & Has).
  destruct (not_reserved_lookup _ Hr) as (Hkw & Hesac).
  rewrite lex_cmdstart_word, Has, andb_false_r; [reflexivity | exact Hw | | exact Hesac].
  rewrite Hkw. destruct i; reflexivity.
Qed.

(* after an assignment word the reserved-word switch is off *)
Lemma lex_name_after_assign w rest f c :
  later_name_ok w = true ->
  Lex (mkLx [] (w :: rest) true f c false true) = LexTok tkWORD (mkLx [] rest false (-1) (-1) false false).
Proof.
  unfold later_name_ok. rewrite andb_true_iff, negb_true_iff. intros [Hw Has].
  rewrite (lex_cmdstart_word w rest f c false true Hw eq_refl eq_refl), <- assignment_like_shaped, Has.
  reflexivity.
Qed.

Lemma lex_assign w rest f c g :
  assign_ok w = true ->
  Lex (mkLx [] (w :: rest) true f c false g) = LexTok tkASSIGNMENT_WORD (mkLx [] rest true (-1) (-1) false true).
Proof.
  unfold assign_ok. rewrite andb_true_iff. intros [Hw Ha].
  destruct (not_reserved_lookup _ (assignment_not_reserved _ Ha)) as (Hkw & Hesac).
  rewrite lex_cmdstart_word, <- assignment_like_shaped, Ha; [reflexivity | exact Hw | | ].
  - rewrite Hkw. destruct g; reflexivity.
  - rewrite Hesac. apply andb_false_r.
Qed.

Definition kt (s : str) : tok := mkTok s WkPlain.

Lemma lex_operator s {x eff} : lookup operator_table s = Some (x, eff) ->
  forall k i rest a f c g,
  Lex (mkLx [] (mkTok s k :: rest) a f c i g) = LexTok x (eff (mkLx [] rest a f c i false)).
Proof. intros H k i rest a f c g. rewrite Lex_unfold. cbn [t_text]. rewrite H. reflexivity. Qed.

Lemma lookup_In {A} (tbl : list (str * A)) s v : lookup tbl s = Some v -> In (s, v) tbl.
Proof.
  induction tbl as [| [k v'] tbl IH]; cbn [lookup In]; [discriminate |].
  destruct (str_eqbP s k) as [-> | _]; [intros [= ->]; left; reflexivity | auto].
Qed.

Lemma reserved_not_operator s e : lookup keyword_table s = Some e ->
  lookup operator_table s = None /\ match_io_number s = None.
Proof.
  intro H. apply lookup_In in H. cbn [keyword_table In] in H.
  repeat (destruct H as [[= <- <-] | H]; [split; reflexivity |]). destruct H.
Qed.

Lemma lex_reserved s {x eff} : lookup keyword_table s = Some (x, eff) ->
  forall k rest f c,
  Lex (mkLx [] (mkTok s k :: rest) true f c false false) = LexTok x (eff (mkLx [] rest true (-1) (-1) false false)).
Proof.
  intros H k rest f c. destruct (reserved_not_operator s _ H) as [Hop Hio].
  rewrite Lex_unfold. cbn [t_text negb andb]. rewrite Hop, Hio, H. reflexivity.
Qed.

(* `esac` is not in the reserved-word switch: it is an arm of the final one *)
Lemma lex_esac_cmdstart rest f c i :
  Lex (mkLx [] (kt s_esac :: rest) true f c i false) = LexTok tkESAC (mkLx [] rest true (-1) (-1) false false).
Proof. destruct i; reflexivity. Qed.

Lemma lex_for_in rest i :
  Lex (mkLx [] (kt s_in :: rest) false 1 (-1) i false) = LexTok tkIN (mkLx [] rest false 2 (-1) i false).
Proof. reflexivity. Qed.
Lemma lex_for_do rest i :
  Lex (mkLx [] (kt s_do :: rest) false 1 (-1) i false) = LexTok tkDO (mkLx [] rest true 2 (-1) i false).
Proof. reflexivity. Qed.
Lemma lex_case_in rest i :
  Lex (mkLx [] (kt s_in :: rest) false (-1) 1 i false) = LexTok tkIN (mkLx [] rest false (-1) 2 true false).
Proof. reflexivity. Qed.
Lemma lex_case_in_esac rest i :
  Lex (mkLx [] (kt s_esac :: rest) false (-1) 2 i false) = LexTok tkESAC (mkLx [] rest true (-1) 3 false false).
Proof. reflexivity. Qed.

Lemma lex_rop o rest a f c i g :
  Lex (mkLx [] (kt (rop_text o) :: rest) a f c i g) = LexTok (rop_term o) (mkLx [] rest false f c i false).
Proof. destruct o; reflexivity. Qed.

Lemma lex_pending_rop o t rest a f c i :
  Lex (mkLx (rop_text o) (t :: rest) a f c i false) = LexTok (rop_term o) (mkLx [] (t :: rest) false f c i false).
Proof. destruct o; reflexivity. Qed.

Lemma digit_first_not_operator d ds r :
  is_digit d = true -> lookup operator_table ((d :: ds) ++ r) = None.
Proof.
  intro Hd. cbn [lookup operator_table app].
  assert (H : forall k ks, is_digit k = false -> str_eqb (d :: ds ++ r) (k :: ks) = false).
  { intros k ks Hk. simpl. destruct (N.eqb_spec d k) as [-> |]; [congruence | reflexivity]. }
  unfold s_semi, s_semisemi, s_nl, s_amp, s_pipe, s_lparen, s_rparen, s_andand, s_oror, s_gt, s_gtand,
    s_lt, s_ltand, s_ltgt, s_gtgt, s_ltlt, s_ltltdash, s_gtpipe.
  rewrite !H by reflexivity. reflexivity.
Qed.

Lemma lex_io_number ds o rest a f c i g :
  ds <> [] -> forallb is_digit ds = true ->
  Lex (mkLx [] (kt (ds ++ rop_text o) :: rest) a f c i g)
  = LexTok tkIO_NUMBER (mkLx (rop_text o) rest a f c i false).
Proof.
  intros Hne Hd. destruct ds as [| d ds]; [congruence |].
  unfold Lex. cbn [remaining ioRedirect set_io set_remaining kt t_text t_kind].
  rewrite digit_first_not_operator by (simpl in Hd; apply andb_true_iff in Hd; tauto).
  unfold match_io_number. rewrite LinesLib.span_app_exact; [| exact Hd | destruct o; reflexivity].
  destruct o; reflexivity.
Qed.
