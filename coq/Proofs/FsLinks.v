(* C05/C02 with symbolic links (Model/FsLinks.v): what a run may change.

   Under every plan (no fault, a failing call, every crash point with a partial write) a
   system call has one of three effects on the state: none, the call itself, or -- for a
   write -- a shorter write (eff).  The temporary file of a save is a regular file the
   save has created, so the calls on it are those of Model/FsProto.v, and the invariants
   of Proofs/FsProto.v (writing, closed) survive all three effects. *)
From PV Require Import Lib.Bytes Model.FsProto Model.FsLinks Proofs.FsProto.
Import ListNotations.
Open Scope N_scope.

Lemma resolve_nonlink n p m f : lookup p m = Some f -> f_kind f <> KSymlink -> resolve n p m = RFound p f.
Proof.
  intros L K. destruct n; cbn [resolve]; rewrite L; destruct (f_kind f); try reflexivity; congruence.
Qed.

Lemma resolve_link_step n p m l : lookup p m = Some l -> f_kind l = KSymlink ->
  resolve (S n) p m = resolve n (f_data l) m.
Proof. intros L K. cbn [resolve]. rewrite L, K. reflexivity. Qed.

Lemma lstep_chmod_nonlink s p m f : lookup p (st_fs s) = Some f -> f_kind f <> KSymlink ->
  lstep s (Chmod p m) = step s (Chmod p m).
Proof. intros L K. cbn [lstep step]. rewrite (resolve_nonlink _ p _ f L K), L. reflexivity. Qed.

Definition eff (s : state) (o : op) (s' : state) : Prop :=
  s' = s \/ s' = fst (lstep s o) \/
  exists fd d d', o = Write fd d /\ s' = fst (lstep s (Write fd d')).

Lemma eff_plain s o s' : (forall fd d, o <> Write fd d) -> eff s o s' -> s' = s \/ s' = fst (lstep s o).
Proof. intros N [H|[H|(fd & d & _ & E & _)]]; [auto|auto|destruct (N fd d E)]. Qed.

Lemma step_fault_eff s o fl : eff s o (step_fault s o fl).
Proof.
  destruct o; cbn [step_fault]; try (left; reflexivity).
  - right; right. exists fd, data, (firstn (fl_short fl) data). split; reflexivity.
  - right; left. reflexivity.
Qed.

Lemma sys_l_cases o w : exists s' r, sys_l o w = lw_next w o s' r /\
  (lstep (lw_st w) o = (s', r) \/ r <> None /\ eff (lw_st w) o s').
Proof.
  unfold sys_l. cbv zeta.
  assert (N : exists s' r, (let (s', r) := lstep (lw_st w) o in lw_next w o s' r) = lw_next w o s' r /\
            (lstep (lw_st w) o = (s', r) \/ r <> None /\ eff (lw_st w) o s')).
  { destruct (lstep (lw_st w) o) as [s' r]. exists s', r. auto. }
  assert (D : forall e s', eff (lw_st w) o s' -> exists s'0 r, lw_next w o s' (Some e) = lw_next w o s'0 r /\
            (lstep (lw_st w) o = (s'0, r) \/ r <> None /\ eff (lw_st w) o s'0)).
  { intros e s' H. exists s', (Some e). split; [reflexivity|right; split; [discriminate|exact H]]. }
  destruct (lw_plan w) as [|k fl|k n]; [exact N| |].
  - destruct (Nat.eqb k (lw_count w)); [apply D, step_fault_eff|exact N].
  - destruct (Nat.ltb (lw_count w) k); [exact N|].
    destruct (Nat.eqb (lw_count w) k); [|apply D; left; reflexivity].
    destruct o; apply D; try (left; reflexivity). right; right. exists fd, data, (firstn n data). auto.
Qed.

Lemma sys_l_eff o w w1 r : sys_l o w = (w1, r) -> eff (lw_st w) o (lw_st w1).
Proof.
  destruct (sys_l_cases o w) as (s' & r' & -> & H). unfold lw_next. intro E. injection E as <- _.
  destruct H as [H|[_ H]]; [right; left; rewrite H; reflexivity|exact H].
Qed.

Lemma sys_l_none_normal o w w1 : sys_l o w = (w1, None) -> lstep (lw_st w) o = (lw_st w1, None).
Proof.
  destruct (sys_l_cases o w) as (s' & r' & -> & H). unfold lw_next. intro E. injection E as <- ->.
  destruct H as [H|[H _]]; [exact H|congruence].
Qed.

Lemma sys_l_plan o w : lw_plan (fst (sys_l o w)) = lw_plan w.
Proof. destruct (sys_l_cases o w) as (s' & r & -> & _). reflexivity. Qed.

Lemma sys_l_frame {o w w1 r} q : sys_l o w = (w1, r) -> (forall fd d, o <> Write fd d) ->
  lookup q (st_fs (fst (lstep (lw_st w) o))) = lookup q (st_fs (lw_st w)) ->
  lookup q (st_fs (lw_st w1)) = lookup q (st_fs (lw_st w)).
Proof.
  intros E N F. destruct (eff_plain _ _ _ N (sys_l_eff _ _ _ _ E)) as [-> | ->]; [reflexivity|exact F].
Qed.

Lemma openexcl_writing s tmp s1 : lstep s (OpenExcl 0 tmp 438) = (s1, None) ->
  writing s s1 tmp [] (N.ldiff 438 (st_umask s)).
Proof.
  cbn [lstep]. intro H. destruct (lookup tmp (st_fs s)) as [f0|] eqn:L.
  - rewrite (step_openexcl_taken s tmp f0 L) in H. discriminate.
  - replace s1 with (fst (step s (OpenExcl 0 tmp 438))) by (rewrite H; reflexivity).
    apply step_openexcl_free, L.
Qed.

Lemma sys_l_write {s w1 w2 r tmp d m new} :
  writing s (lw_st w1) tmp d m -> sys_l (Write 0 new) w1 = (w2, r) -> exists d', writing s (lw_st w2) tmp d' m.
Proof.
  intros W E. destruct (sys_l_eff _ _ _ _ E) as [->|[->|(fd & d0 & d' & E' & ->)]];
    [exists d; exact W| |injection E' as <- _]; eexists; apply (step_write s _ tmp d m _ W).
Qed.

Lemma sys_l_close {s w1 w2 r tmp d m} :
  writing s (lw_st w1) tmp d m -> sys_l (Close 0) w1 = (w2, r) -> closed s (lw_st w2) tmp d m.
Proof.
  intros W E. apply sys_l_eff, eff_plain in E; [|discriminate]. destruct E as [-> | ->].
  - destruct W. constructor; assumption.
  - apply (step_close s _ tmp d m W).
Qed.

Lemma sys_l_chmod {s w1 w2 r tmp d m m'} :
  closed s (lw_st w1) tmp d m -> sys_l (Chmod tmp m') w1 = (w2, r) -> exists m'', closed s (lw_st w2) tmp d m''.
Proof.
  intros C E. apply sys_l_eff, eff_plain in E; [|discriminate]. destruct E as [-> | ->]; [exists m; exact C|].
  exists m'. rewrite (lstep_chmod_nonlink _ tmp m' _ (cl_tmp C)) by discriminate.
  apply (step_chmod_tmp s _ tmp d m m' C).
Qed.

Lemma save_one_l_frame w f new q : q <> f -> q <> tmp_name f ->
  lookup q (st_fs (lw_st (save_one_l f new w))) = lookup q (st_fs (lw_st w)).
Proof.
  intros Hf Ht. unfold save_one_l. cbv zeta. set (tmp := tmp_name f) in *.
  change (lw_st w) with (lw_st (set_saved_l false w)). generalize (set_saved_l false w). intro w0.
  destruct (sys_l (OpenExcl 0 tmp 438) w0) as [w1 [e|]] eqn:E1.
  { apply (sys_l_frame _ E1); [discriminate|]. apply lookup_step_openexcl_neq, Ht. }
  apply sys_l_none_normal, openexcl_writing in E1.
  destruct (sys_l (Write 0 new) w1) as [w2 err] eqn:E2.
  destruct (sys_l_write E1 E2) as [d W2].
  destruct (sys_l (Close 0) w2) as [w3 err1] eqn:E3.
  pose proof (sys_l_close W2 E3) as C3.
  generalize (match err with Some e => Some e | None => err1 end). intro err'.
  match goal with |- context [match ?x with _ => _ end] =>
    match type of x with (lworld * option errno)%type => destruct x as [w4 err''] eqn:E4 end end.
  (* Stat and the optional chmod *)
  assert (C4 : exists m4, closed (lw_st w0) (lw_st w4) tmp d m4).
  { destruct err' as [e|]; [|destruct (stat_follow f (st_fs (lw_st w3))) as [old|]].
    - injection E4 as <- _. eauto.
    - apply (sys_l_chmod C3 E4).
    - injection E4 as <- _. eauto. }
  destruct C4 as [m4 C4]. pose proof (cl_only C4 q Ht) as F4.
  assert (U : forall k wx, lookup q (st_fs (lw_st wx)) = lookup q (st_fs (lw_st w0)) ->
    lookup q (st_fs (lw_st (fst (sys_l (Unlink tmp) (tech_error_l k tmp wx))))) = lookup q (st_fs (lw_st w0))).
  { intros k wx <-. destruct (sys_l (Unlink tmp) (tech_error_l k tmp wx)) as [wy r] eqn:E.
    apply (sys_l_frame _ E); [discriminate|]. apply lookup_step_unlink_neq, Ht. }
  destruct err'' as [e|]; [apply U, F4|].
  destruct (sys_l (Rename tmp f) w4) as [w5 r5] eqn:E5.
  assert (F5 : lookup q (st_fs (lw_st w5)) = lookup q (st_fs (lw_st w0))).
  { rewrite <- F4. apply (sys_l_frame _ E5); [discriminate|]. apply lookup_step_rename_neq; assumption. }
  destruct r5; [apply U|]; exact F5.
Qed.

Lemma tech_error_l_st k loc w : lw_st (tech_error_l k loc w) = lw_st w.
Proof. reflexivity. Qed.

Lemma set_saved_l_st b w : lw_st (set_saved_l b w) = lw_st w.
Proof. reflexivity. Qed.

(* Lstat: the Chmod is only issued for an entry that is a regular file itself, so it
   changes that entry and no other *)
Lemma check_exec_l_frame w f q : q <> f ->
  lookup q (st_fs (lw_st (check_exec_l f w))) = lookup q (st_fs (lw_st w)).
Proof.
  intro Hf. unfold check_exec_l, check_exec_with.
  destruct (lookup f (st_fs (lw_st w))) as [e|] eqn:L; [|reflexivity].
  destruct (f_kind e) eqn:K; try reflexivity.
  destruct (N.land (f_mode e) 73 =? 0); [reflexivity|]. unfold chmod_fix_l.
  destruct (sys_l (Chmod f (N.ldiff (f_mode e) 73)) w) as [w1 r] eqn:E.
  assert (F : lookup q (st_fs (lw_st w1)) = lookup q (st_fs (lw_st w))).
  { apply (sys_l_frame _ E); [discriminate|].
    rewrite (lstep_chmod_nonlink _ f _ e L) by (rewrite K; discriminate). apply lookup_step_chmod_neq, Hf. }
  destruct r; exact F.
Qed.

Lemma l_named_cons a prog q : l_named (a :: prog) q <-> l_named [a] q \/ l_named prog q.
Proof. unfold l_named. destruct a; cbn [l_saved_paths l_exec_paths map In]; tauto. Qed.

Lemma lrun_action_frame a w q : ~ l_named [a] q ->
  lookup q (st_fs (lw_st (lrun_action w a))) = lookup q (st_fs (lw_st w)).
Proof.
  unfold l_named. destruct a as [f new|f|b f new]; cbn [lrun_action l_saved_paths l_exec_paths map In]; intro H.
  - apply save_one_l_frame; intros ->; apply H; auto.
  - apply check_exec_l_frame; intros ->; apply H; auto.
  - destruct (Bool.eqb (lw_saved w) b); [|reflexivity].
    apply save_one_l_frame; intros ->; apply H; auto.
Qed.

Lemma lrun_frame prog : forall w q, ~ l_named prog q ->
  lookup q (st_fs (lw_st (lrun prog w))) = lookup q (st_fs (lw_st w)).
Proof.
  induction prog as [|a prog IH]; intros w q H; [reflexivity|]. rewrite l_named_cons in H.
  change (lrun (a :: prog) w) with (lrun prog (lrun_action w a)).
  rewrite IH by tauto. apply lrun_action_frame. tauto.
Qed.

Fixpoint chain (fuel : nat) (p : path) (m : fsmap) : list path :=
  p :: match lookup p m with
       | Some f => match f_kind f, fuel with
                   | KSymlink, S n => chain n (f_data f) m
                   | _, _ => []
                   end
       | None => []
       end.

Lemma resolve_in_chain n : forall p m,
  match resolve n p m with RFound q _ => In q (chain n p m) | RDangling q => In q (chain n p m) | RLoop => True end.
Proof.
  induction n as [|n IH]; intros p m; cbn [resolve chain];
    (destruct (lookup p m) as [f|]; [|left; reflexivity]); destruct (f_kind f); try (left; reflexivity).
  - exact I.
  - specialize (IH (f_data f) m). destruct (resolve n (f_data f) m); try exact I; right; exact IH.
Qed.

Lemma l_namedb_spec prog q : l_namedb prog q = true <-> l_named prog q.
Proof.
  unfold l_namedb, l_named. rewrite !Bool.orb_true_iff, !existsb_str_iff. tauto.
Qed.

(* C02: the contrapositive of lrun_frame *)
Theorem link_changed_entry_is_named : forall (s : state) (prog : list laction) (plan : lplan) (q : path),
  lookup q (st_fs (lw_st (lrun prog (init_lworld s plan)))) <> lookup q (st_fs s) -> l_named prog q.
Proof.
  intros s prog plan q H. destruct (l_namedb prog q) eqn:E; [apply l_namedb_spec; exact E|].
  destruct H. apply (lrun_frame prog (init_lworld s plan)). rewrite <- l_namedb_spec. congruence.
Qed.

Lemma l_unnamed_changed_in_none entries init prog cur :
  l_unnamed_changed_in entries init prog cur = None ->
  forall p g, In (p, g) entries -> ~ l_named prog p -> lookup p cur = lookup p init.
Proof.
  induction entries as [|[q h] entries IH]; intros H p g Hin Hn; [destruct Hin|].
  cbn [l_unnamed_changed_in] in H.
  match type of H with (if ?c then _ else _) = _ => destruct c eqn:Eok; [|discriminate] end.
  destruct Hin as [Heq|Hin]; [|apply (IH H p g Hin Hn)].
  inversion Heq; subst q h.
  apply Bool.orb_true_iff in Eok. destruct Eok as [E|E]; [exfalso; apply Hn; apply l_namedb_spec; exact E|].
  destruct (lookup p init) as [[k1 d1 m1]|], (lookup p cur) as [[k2 d2 m2]|]; try discriminate; [|reflexivity].
  cbn [f_kind f_data f_mode] in E.
  destruct k1, k2; try discriminate; apply andb_prop in E; destruct E as [E1 E2];
    apply str_eqb_spec in E1; apply N.eqb_eq in E2; subst; reflexivity.
Qed.

(* C05: [l_unnamed_changed] judges the snapshots of real runs *)
Theorem l_unnamed_changed_sound : forall (init : fsmap) (prog : list laction) (cur : fsmap),
  l_unnamed_changed init prog cur = None ->
  forall q, ~ l_named prog q -> lookup q cur = lookup q init.
Proof.
  intros init prog cur H. unfold l_unnamed_changed in H.
  destruct (l_unnamed_changed_in init init prog cur) eqn:E1; [discriminate|].
  apply (both_trees (fun q => ~ l_named prog q)). intros p g [Hg|Hg].
  - apply (l_unnamed_changed_in_none init init prog cur E1 p g Hg).
  - apply (l_unnamed_changed_in_none cur init prog cur H p g Hg).
Qed.

Definition lx_L : path := [76].          (* "L" *)
Definition lx_T : path := [84].          (* "T" *)
Definition lx_old : str := [111; 108; 100].
Definition lx_new : str := [110; 101; 119].
Definition lx_state : state :=
  mkstate [(lx_L, mkfile KSymlink lx_T 511); (lx_T, mkfile KReg lx_old 420)] [] 18.
Definition lx_state_x : state :=
  mkstate [(lx_L, mkfile KSymlink lx_T 511); (lx_T, mkfile KReg lx_old 493)] [] 18.

(* NOT the code, writing in place through the link: killed after the open, the link's
   target -- an entry the run does not name -- is an empty file *)
Theorem write_through_link_refuted :
  ~ (forall (s : state) (f : path) (new : str) (plan : lplan) (q : path), q <> f -> q <> tmp_name f ->
       lookup q (st_fs (lw_st (save_through_link f new (init_lworld s plan)))) = lookup q (st_fs s)).
Proof.
  intro H. specialize (H lx_state lx_L lx_new (PKill 1 0) lx_T).
  assert (A : lx_T <> lx_L) by (vm_compute; discriminate).
  assert (B : lx_T <> tmp_name lx_L) by (vm_compute; discriminate).
  specialize (H A B). vm_compute in H. discriminate H.
Qed.

(* NOT the code, Stat instead of Lstat on the argument: the link's target is chmod-ed *)
Theorem stat_argument_refuted :
  ~ (forall (s : state) (f : path) (plan : lplan) (q : path), q <> f ->
       lookup q (st_fs (lw_st (check_exec_stat f (init_lworld s plan)))) = lookup q (st_fs s)).
Proof.
  intro H. specialize (H lx_state_x lx_L PNone lx_T).
  assert (A : lx_T <> lx_L) by (vm_compute; discriminate).
  specialize (H A). vm_compute in H. discriminate H.
Qed.

(* the components of a world built by lw_next compute *)
Ltac lproj :=
  cbn [lw_next init_lworld set_saved_l fst snd lw_st lw_count lw_plan lw_trace lw_stderr lw_saved].

Lemma sys_l_pnone o w : lw_plan w = PNone ->
  sys_l o w = lw_next w o (fst (lstep (lw_st w) o)) (snd (lstep (lw_st w) o)).
Proof. intro P. unfold sys_l. rewrite P. destruct (lstep (lw_st w) o). reflexivity. Qed.

(* the calls are those of FsProto.save_ops, on the states Proofs/FsProto.v describes; the
   one difference is the Stat, which finds the link's target *)
Theorem save_replaces_link : forall (s : state) (F T : path) (l t : file) (new : str),
  lookup F (st_fs s) = Some l -> f_kind l = KSymlink -> f_data l = T ->
  lookup T (st_fs s) = Some t -> f_kind t = KReg ->
  lookup (tmp_name F) (st_fs s) = None -> F <> T -> tmp_name F <> T ->
  let w := save_one_l F new (init_lworld s PNone) in
  lookup F (st_fs (lw_st w)) = Some (mkfile KReg new (f_mode t)) /\
  lookup T (st_fs (lw_st w)) = Some t /\
  lookup (tmp_name F) (st_fs (lw_st w)) = None /\
  lw_stderr w = [] /\ lw_saved w = true.
Proof.
  intros s F T l t new HF Kl Dl HT Kt Htmp NFT NtT.
  pose proof (tmp_name_neq F) as NtF. unfold save_one_l. set (tmp := tmp_name F) in *.
  destruct (step_openexcl_free s tmp Htmp) as [R1 W1].
  destruct (step_write s _ tmp [] _ new W1) as [R2 W2]. cbn [app] in W2.
  destruct (step_close s _ tmp _ _ W2) as [R3 C3].
  (* Stat follows the link, in every state that differs from s at the temporary name only *)
  assert (ST : forall s', tmp_only s s' tmp -> stat_follow F (st_fs s') = Some t).
  { intros s' O. unfold stat_follow, link_fuel.
    rewrite (resolve_link_step _ F _ l), Dl, (resolve_nonlink _ T _ t); rewrite ?O by congruence; congruence. }
  destruct (step_chmod_tmp s _ tmp _ _ (f_mode t) C3) as [R4 C4].
  destruct (step_rename_tmp s _ tmp F _ _ C4 NtF) as (R5 & L1 & L2 & L3).
  (* no plan: each call is performed, with the result found above *)
  rewrite sys_l_pnone by reflexivity. lproj. cbn [lstep]. rewrite R1.
  rewrite sys_l_pnone by reflexivity. lproj. cbn [lstep]. rewrite R2.
  rewrite sys_l_pnone by reflexivity. lproj. cbn [lstep]. rewrite R3, (ST _ (cl_only C3)).
  rewrite sys_l_pnone by reflexivity. lproj.
  rewrite (lstep_chmod_nonlink _ tmp (f_mode t) _ (cl_tmp C3)), R4 by discriminate.
  rewrite sys_l_pnone by reflexivity. lproj. cbn [lstep]. rewrite R5. lproj.
  rewrite (L3 T) by congruence. auto.
Qed.
