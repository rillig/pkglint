(* The counterexample to the soundness of the verdicts that remains in the code
   with the fixes 01-04, and the counterexamples that the fixes removed: on them
   the repaired code does not emit the wrong verdict. *)
From PV Require Import Lib.Bytes Model.Redundant Spec.MakeEval Spec.VerdictSound.

Definition vA : var := [86; 65]%N.   (* "VA" *)
Definition vB : var := [86; 66]%N.   (* "VB" *)
Definition vC : var := [86; 67]%N.   (* "VC" *)
Definition la : str := [97]%N.       (* "a" *)
Definition lb : str := [98]%N.       (* "b" *)
Definition l1 : str := [49]%N.       (* "1" *)
Definition l2 : str := [50]%N.       (* "2" *)

Definition asg (f n : N) (x : var) (o : op) (v : value) : line :=
  mkLine f n (Some (mkAssign x o v)).

(* DESIGN section 8 item 7:   VB= 1 / VA:= ${VB} / VA= ${VB} / VB= 2
   "Definition of VA is redundant because of line 2" on line 3;
   with line 3 VA is 2, without it VA is 1. *)
Definition prog_eval : program :=
  [ asg 0 1 vB OpAssign [Lit l1]; asg 0 2 vA OpEval [Ref vB];
    asg 0 3 vA OpAssign [Ref vB]; asg 0 4 vB OpAssign [Lit l2] ].
Definition verdict_eval : verdict := mkVerdict 2 1 KRedundant.

Lemma prog_eval_facts :
  wf_program prog_eval = true /\ check prog_eval = Ok [verdict_eval] /\
  final 6 (to_spec prog_eval) vA = Some l2 /\
  final 6 (to_spec (delete_nth 2 prog_eval)) vA = Some l1.
Proof. repeat split; vm_compute; reflexivity. Qed.

Lemma refute (P : program -> verdict -> Prop) p vs vd x v1 v2 :
  wf_program p = true -> check p = Ok vs -> In vd vs -> P p vd ->
  final 6 (to_spec p) x = Some v1 ->
  final 6 (to_spec (delete_nth (vd_flagged vd) p)) x = Some v2 -> v1 <> v2 ->
  ~ verdict_sound_on P.
Proof.
  intros Hwf Hck Hin HP H1 H2 Hne H.
  specialize (H p vs vd Hwf Hck Hin HP 6%nat x). rewrite H1, H2 in H. congruence.
Qed.

Lemma verdict_sound_refuted : ~ verdict_sound_on (fun _ _ => True).
Proof.
  destruct prog_eval_facts as (Hwf & Hck & H1 & H2).
  apply (refute _ prog_eval _ verdict_eval vA _ _ Hwf Hck (or_introl eq_refl) I H1 H2). discriminate.
Qed.

Lemma verdict_sound_full_refuted :
  ~ (forall (p : program) (vs : list verdict) (vd : verdict),
       wf_program p = true -> check p = Ok vs -> In vd vs -> deletable p (vd_flagged vd)).
Proof.
  intro H. apply verdict_sound_refuted. intros p vs vd Hwf Hck Hin _. exact (H p vs vd Hwf Hck Hin).
Qed.

(* VC= ${VA} / VA= a / VB:= ${VC} / VA= b : ':=' reads VA through VC, no verdict *)
Definition prog_indirect : program :=
  [ asg 0 1 vC OpAssign [Ref vA]; asg 0 2 vA OpAssign [Lit la];
    asg 0 3 vB OpEval [Ref vC]; asg 0 4 vA OpAssign [Lit lb] ].
Lemma prog_indirect_facts : check prog_indirect = Ok [].
Proof. vm_compute. reflexivity. Qed.

(* VA= a / VA!= c / VA= a : line 3 is not "redundant"; the '!=' line is
   "overwritten in line 3", which is sound *)
Definition prog_shell : program :=
  [ asg 0 1 vA OpAssign [Lit la]; asg 0 2 vA OpShell [Lit [99]%N];
    asg 0 3 vA OpAssign [Lit la] ].
Lemma prog_shell_facts :
  check prog_shell = Ok [mkVerdict 0 1 KRedundant; mkVerdict 1 2 KOverwritten] /\
  deletable_b 6 prog_shell 0 = true /\ deletable_b 6 prog_shell 1 = true.
Proof. repeat split; vm_compute; reflexivity. Qed.

(* main: VA= b / VA= a / .include "inc"   inc: VA?= a : line 2 is not flagged *)
Definition prog_incdefault : program :=
  [ asg 0 1 vA OpAssign [Lit lb]; asg 0 2 vA OpAssign [Lit la];
    mkLine 0 3 None; asg 1 1 vA OpDefault [Lit la] ].
Lemma prog_incdefault_facts : check prog_incdefault = Ok [mkVerdict 0 1 KOverwritten].
Proof. vm_compute. reflexivity. Qed.

(* VA= a / VA!= ${VA} : no verdict *)
Definition prog_shellself : program :=
  [ asg 0 1 vA OpAssign [Lit la]; asg 0 2 vA OpShell [Ref vA] ].
Lemma prog_shellself_facts : check prog_shellself = Ok [].
Proof. vm_compute. reflexivity. Qed.

(* with only the condition for flagged earlier lines the statement is false *)
Lemma guard_needs_eval_condition :
  ~ verdict_sound_on (fun p vd =>
      Nat.ltb (vd_flagged vd) (vd_because vd) = true ->
      eager_plain (between p (vd_flagged vd) (vd_because vd)) && line_plain p (vd_because vd) = true).
Proof.
  destruct prog_eval_facts as (Hwf & Hck & H1 & H2).
  eapply (refute _ prog_eval _ verdict_eval vA);
    [exact Hwf|exact Hck|left; reflexivity| |exact H1|exact H2|discriminate].
  vm_compute. discriminate.
Qed.

(* the guard is satisfiable, for each kind of verdict:
   VA= a / VA= a / VA?= b / VA= b : line 2 redundant, line 3 no effect, line 3 overwritten *)
Definition prog_good : program :=
  [ asg 0 1 vA OpAssign [Lit la]; asg 0 2 vA OpAssign [Lit la];
    asg 0 3 vA OpDefault [Lit lb]; asg 0 4 vA OpAssign [Lit lb] ].
Lemma prog_good_facts :
  wf_program prog_good = true /\
  check prog_good = Ok [mkVerdict 1 0 KRedundant; mkVerdict 2 1 KNoEffect; mkVerdict 2 3 KOverwritten] /\
  forallb (guard prog_good) [mkVerdict 1 0 KRedundant; mkVerdict 2 1 KNoEffect; mkVerdict 2 3 KOverwritten] = true.
Proof. repeat split; vm_compute; reflexivity. Qed.

(* a program with ':=' of a reference elsewhere is still inside the guard:
   VB:= ${VC} / VA= a / VA= a *)
Definition prog_good_eval : program :=
  [ asg 0 1 vB OpEval [Ref vC]; asg 0 2 vA OpAssign [Lit la]; asg 0 3 vA OpAssign [Lit la] ].
Lemma prog_good_eval_facts :
  wf_program prog_good_eval = true /\ check prog_good_eval = Ok [mkVerdict 2 1 KRedundant] /\
  guard prog_good_eval (mkVerdict 2 1 KRedundant) = true /\ eager_plain prog_good_eval = false.
Proof. repeat split; vm_compute; reflexivity. Qed.

Lemma prog_good_plain : eager_plain prog_good = true.
Proof. vm_compute. reflexivity. Qed.
