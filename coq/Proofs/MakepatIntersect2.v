(* Intersect builds the product automaton lazily: a pair of states gets a
   state of the product when stateFor first asks for it.  The four nested
   loops are one fold over a work list; the table and the automaton under
   construction keep an invariant, and the step for an item adds its edge. *)
From PV Require Import Lib.Bytes Model.Makepat
  Proofs.MakepatBasics Proofs.MakepatNFA.
From Coq Require Import ZifyBool ZifyN ZifyNat.
Open Scope N_scope.

Definition item : Type := N * N * transition * transition.

Fixpoint ofold (f : item -> istate -> option istate) (l : list item) (st : istate) : option istate :=
  match l with
  | [] => Some st
  | x :: l' => match f x st with Some st' => ofold f l' st' | None => None end
  end.

Lemma ofold_app f l1 l2 st :
  ofold f (l1 ++ l2) st = match ofold f l1 st with Some st' => ofold f l2 st' | None => None end.
Proof.
  revert st; induction l1 as [|x l1 IH]; intro st; cbn [app ofold]; [reflexivity|].
  destruct (f x st); [apply IH|reflexivity].
Qed.

Fixpoint with_idx {A} (i : N) (l : list A) : list (N * A) :=
  match l with [] => [] | x :: t => (i, x) :: with_idx (N.succ i) t end.

Lemma with_idx_In {A} (l : list A) : forall k i x,
  In (i, x) (with_idx k l) <-> exists j, i = k + j /\ nth_n l j = Some x.
Proof.
  induction l as [|y l IH]; intros k i x; cbn [with_idx In].
  - split; [contradiction|intros (j & _ & H); discriminate].
  - rewrite IH. split.
    + intros [E|(j & -> & H)]; [injection E as <- <-; exists 0; split; [lia|reflexivity]|].
      exists (N.succ j). rewrite nth_n_succ. split; [lia|exact H].
    + intros (j & -> & H). destruct (N.zero_or_succ j) as [->|[j' ->]]; [injection H as ->; left; f_equal; lia|].
      rewrite nth_n_succ in H. right. exists j'. split; [lia|exact H].
Qed.

Lemma with_idx_0 {A} (l : list A) i x : In (i, x) (with_idx 0 l) <-> nth_n l i = Some x.
Proof. rewrite with_idx_In. split; [intros (j & -> & H); exact H|intro H; exists i; auto]. Qed.

Definition step (p1 p2 : pattern) (x : item) (st : istate) : option istate :=
  match x with (i1, i2, t1, t2) => isect_pair p1 p2 i1 i2 t1 t2 st end.

Definition work_t2 (i1 i2 : N) (t1 : transition) (ts2 : list transition) : list item :=
  map (fun t2 => (i1, i2, t1, t2)) ts2.
Definition work_t1 (i1 i2 : N) (ts1 ts2 : list transition) : list item :=
  flat_map (fun t1 => work_t2 i1 i2 t1 ts2) ts1.
Definition work_s2 (i1 : N) (s1 : state) (sts2 : list (N * state)) : list item :=
  flat_map (fun x => work_t1 i1 (fst x) (trans s1) (trans (snd x))) sts2.
Definition work_s1 (sts1 : list (N * state)) (p2 : pattern) : list item :=
  flat_map (fun x => work_s2 (fst x) (snd x) (with_idx 0 p2)) sts1.
Definition work (p1 p2 : pattern) : list item := work_s1 (with_idx 0 p1) p2.

Lemma isect_t2_flat p1 p2 i1 i2 t1 ts2 : forall st,
  isect_t2 p1 p2 i1 i2 t1 ts2 st = ofold (step p1 p2) (work_t2 i1 i2 t1 ts2) st.
Proof.
  induction ts2 as [|t2 ts2 IH]; intro st; [reflexivity|].
  cbn [isect_t2 work_t2 map ofold step]. destruct (isect_pair p1 p2 i1 i2 t1 t2 st); [apply IH|reflexivity].
Qed.

Lemma isect_t1_flat p1 p2 i1 i2 ts1 ts2 : forall st,
  isect_t1 p1 p2 i1 i2 ts1 ts2 st = ofold (step p1 p2) (work_t1 i1 i2 ts1 ts2) st.
Proof.
  induction ts1 as [|t1 ts1 IH]; intro st; [reflexivity|].
  cbn [isect_t1 work_t1 flat_map]. rewrite ofold_app, <- isect_t2_flat.
  destruct (isect_t2 p1 p2 i1 i2 t1 ts2 st); [apply IH|reflexivity].
Qed.

Lemma isect_s2_flat p1 p2 i1 s1 sts2 : forall i2 st,
  isect_s2 p1 p2 i1 s1 sts2 i2 st = ofold (step p1 p2) (work_s2 i1 s1 (with_idx i2 sts2)) st.
Proof.
  induction sts2 as [|s2 sts2 IH]; intros i2 st; [reflexivity|].
  cbn [isect_s2 with_idx work_s2 flat_map fst snd]. rewrite ofold_app, <- isect_t1_flat.
  destruct (isect_t1 p1 p2 i1 i2 (trans s1) (trans s2) st); [apply IH|reflexivity].
Qed.

Lemma isect_s1_flat p1 p2 sts1 : forall i1 st,
  isect_s1 p1 p2 sts1 i1 st = ofold (step p1 p2) (work_s1 (with_idx i1 sts1) p2) st.
Proof.
  induction sts1 as [|s1 sts1 IH]; intros i1 st; [reflexivity|].
  cbn [isect_s1 with_idx work_s1 flat_map fst snd]. rewrite ofold_app, <- isect_s2_flat.
  destruct (isect_s2 p1 p2 i1 s1 p2 0 st); [apply IH|reflexivity].
Qed.

Theorem isect_flat p1 p2 st : isect_s1 p1 p2 p1 0 st = ofold (step p1 p2) (work p1 p2) st.
Proof. apply isect_s1_flat. Qed.

Lemma work_In p1 p2 i1 i2 t1 t2 :
  In (i1, i2, t1, t2) (work p1 p2) <->
  exists s1 s2, nth_n p1 i1 = Some s1 /\ nth_n p2 i2 = Some s2 /\ In t1 (trans s1) /\ In t2 (trans s2).
Proof.
  unfold work, work_s1, work_s2, work_t1, work_t2. rewrite in_flat_map. split.
  - intros ([j1 s1] & I1 & H). cbn [fst snd] in H. apply in_flat_map in H as ([j2 s2] & I2 & H).
    cbn [fst snd] in H. apply in_flat_map in H as (u1 & J1 & H). apply in_map_iff in H as (u2 & E & J2).
    injection E as <- <- <- <-. apply with_idx_0 in I1, I2. exists s1, s2. auto.
  - intros (s1 & s2 & N1 & N2 & J1 & J2). apply with_idx_0 in N1, N2.
    exists (i1, s1). split; [exact N1|]. apply in_flat_map. exists (i2, s2). split; [exact N2|].
    apply in_flat_map. exists t1. split; [exact J1|]. apply in_map_iff. exists t2. auto.
Qed.

Lemma bmax_max x y : bmax x y = N.max x y.
Proof. unfold bmax. destruct (N.ltb_spec y x); lia. Qed.

Lemma bmin_min x y : bmin x y = N.min x y.
Proof. unfold bmin. destruct (N.ltb_spec x y); lia. Qed.

Definition tab (st : istate) (s1 s2 id : N) : Prop := lookup s1 s2 (imap st) = Some id.

Definition edge_of (u1 u2 : transition) (to : N) : transition :=
  mkT (bmax (tmin u1) (tmin u2)) (bmin (tmax u1) (tmax u2)) to.
Definition overlap (u1 u2 : transition) : Prop :=
  bmax (tmin u1) (tmin u2) <= bmin (tmax u1) (tmax u2).

Section Product.
Variables a b : pattern.

Record J (st : istate) : Prop := {
  j_inj : forall s1 s2 s1' s2' id, tab st s1 s2 id -> tab st s1' s2' id -> s1 = s1' /\ s2 = s2';
  j_fin : forall s1 s2 id, tab st s1 s2 id ->
          exists x x1 x2, nth_n (ires st) id = Some x /\ nth_n a s1 = Some x1 /\ nth_n b s2 = Some x2
                          /\ fin x = fin x1 && fin x2;
  j_sound : forall id x t, nth_n (ires st) id = Some x -> In t (trans x) ->
            exists s1 s2 x1 x2 u1 u2, tab st s1 s2 id
              /\ nth_n a s1 = Some x1 /\ nth_n b s2 = Some x2 /\ In u1 (trans x1) /\ In u2 (trans x2)
              /\ overlap u1 u2 /\ tab st (tto u1) (tto u2) (tto t)
              /\ t = edge_of u1 u2 (tto t)
}.

Lemma J_lt st s1 s2 id : J st -> tab st s1 s2 id -> id < nlen (ires st).
Proof. intros Hj T. destruct (j_fin _ Hj _ _ _ T) as (x & _ & _ & N & _). exact (nth_n_some_lt _ _ _ N). Qed.

Definition ext (st st' : istate) : Prop :=
  (forall s1 s2 id, tab st s1 s2 id -> tab st' s1 s2 id) /\
  (forall id x t, nth_n (ires st) id = Some x -> In t (trans x) ->
                  exists x', nth_n (ires st') id = Some x' /\ In t (trans x')).

Lemma ext_refl st : ext st st.
Proof. split; [auto|]. intros id x t N I. exists x. auto. Qed.

Lemma ext_trans st1 st2 st3 : ext st1 st2 -> ext st2 st3 -> ext st1 st3.
Proof.
  intros [A1 B1] [A2 B2]. split; [auto|]. intros id x t N I.
  destruct (B1 _ _ _ N I) as (x' & N' & I'). exact (B2 _ _ _ N' I').
Qed.

Definition has_edge (st : istate) (x : item) : Prop :=
  match x with
  | (i1, i2, u1, u2) =>
    overlap u1 u2 ->
    exists id id' y, tab st i1 i2 id /\ tab st (tto u1) (tto u2) id'
                     /\ nth_n (ires st) id = Some y /\ In (edge_of u1 u2 id') (trans y)
  end.

Lemma has_edge_ext st st' x : ext st st' -> has_edge st x -> has_edge st' x.
Proof.
  intros [A B] H. destruct x as [[[i1 i2] u1] u2]. intro O.
  destruct (H O) as (id & id' & y & I1 & I2 & N & I3).
  destruct (B _ _ _ N I3) as (y' & N' & I3'). exists id, id', y'. auto.
Qed.

Lemma state_for_spec st s1 s2 : J st -> s1 < nlen a -> s2 < nlen b ->
  exists st' id, state_for a b st s1 s2 = Some (st', id) /\ J st' /\ ext st st'
                 /\ tab st' s1 s2 id /\ id <= nlen (ires st).
Proof.
  intros Hj H1 H2. unfold state_for. destruct (lookup s1 s2 (imap st)) as [ns|] eqn:El.
  - exists st, ns. split; [reflexivity|]. split; [exact Hj|]. split; [apply ext_refl|]. split; [exact El|].
    apply N.lt_le_incl. exact (J_lt st s1 s2 ns Hj El).
  - destruct (nth_n_lt a s1 H1) as [x1 N1]. destruct (nth_n_lt b s2 H2) as [x2 N2].
    rewrite N1, N2, add_state_spec, to_state_id_id.
    eexists _, _. split; [reflexivity|].
    assert (T : forall k1 k2 id, lookup k1 k2 ((s1, s2, nlen (ires st)) :: imap st) = Some id
                <-> tab st k1 k2 id \/ (k1 = s1 /\ k2 = s2 /\ id = nlen (ires st))).
    { intros k1 k2 id. unfold tab. cbn [lookup].
      destruct (N.eqb_spec s1 k1) as [<-|]; destruct (N.eqb_spec s2 k2) as [<-|]; cbn [andb];
        rewrite ?El; intuition congruence. }
    split; [|split; [|split; [apply T; auto|apply N.le_refl]]].
    + constructor; unfold tab; cbn [ires imap].
      * intros k1 k2 k1' k2' id Ha Hb. apply T in Ha, Hb.
        pose proof (J_lt st k1 k2 id Hj). pose proof (J_lt st k1' k2' id Hj).
        destruct Ha as [Ha|Ha], Hb as [Hb|Hb]; [exact (j_inj _ Hj _ _ _ _ _ Ha Hb)|lia..].
      * intros k1 k2 id Ht. apply T in Ht as [Ht|(-> & -> & ->)].
        -- destruct (j_fin _ Hj _ _ _ Ht) as (x & y1 & y2 & Nx & Ny).
           exists x, y1, y2. split; [apply nth_n_app_some; exact Nx|exact Ny].
        -- exists (mkS [] (fin x1 && fin x2)), x1, x2.
           split; [rewrite nth_n_app_r, N.sub_diag by lia; reflexivity|auto].
      * intros id x t Nx It. apply nth_n_snoc_inv in Nx as [Nx| ->]; [|destruct It].
        destruct (j_sound _ Hj _ _ _ Nx It) as (k1 & k2 & y1 & y2 & u1 & u2 & I & Ny1 & Ny2 & I1 & I2 & O & I3 & E).
        exists k1, k2, y1, y2, u1, u2. rewrite !T. tauto.
    + split; unfold tab; cbn [ires imap].
      * intros k1 k2 id Ht. apply T. left; exact Ht.
      * intros id x t Nx It. exists x. split; [apply nth_n_app_some; exact Nx|exact It].
Qed.

Hypothesis Hwa : wf a.
Hypothesis Hwb : wf b.

Lemma step_spec st i1 i2 u1 u2 : J st -> In (i1, i2, u1, u2) (work a b) ->
  exists st', step a b (i1, i2, u1, u2) st = Some st' /\ J st' /\ ext st st'
              /\ has_edge st' (i1, i2, u1, u2).
Proof.
  intros Hj Hw. apply work_In in Hw as (x1 & x2 & N1 & N2 & I1 & I2).
  assert (T1 : tto u1 < nlen a) by (destruct Hwa as [_ H]; exact (H x1 (nth_n_In _ _ _ N1) u1 I1)).
  assert (T2 : tto u2 < nlen b) by (destruct Hwb as [_ H]; exact (H x2 (nth_n_In _ _ _ N2) u2 I2)).
  cbn [step]. unfold isect_pair.
  destruct (N.leb_spec (bmax (tmin u1) (tmin u2)) (bmin (tmax u1) (tmax u2))) as [O|O].
  2: { exists st. split; [reflexivity|]. split; [exact Hj|]. split; [apply ext_refl|].
       intro O'. unfold overlap in O'. lia. }
  rewrite !to_state_id_id.
  destruct (state_for_spec st i1 i2 Hj) as (st1 & from & -> & Hj1 & X1 & F1 & _);
    [exact (nth_n_some_lt _ _ _ N1)|exact (nth_n_some_lt _ _ _ N2)|].
  destruct (state_for_spec st1 (tto u1) (tto u2) Hj1 T1 T2) as (st2 & to & -> & Hj2 & X2 & F2 & _).
  apply X2 in F1. destruct (j_fin _ Hj2 _ _ _ F1) as (y & _ & _ & Ny & _).
  fold (edge_of u1 u2 to). set (e := edge_of u1 u2 to).
  destruct (upd_n_at (ires st2) from (fun s => mkS (trans s ++ [e]) (fin s)) y Ny) as (R3 & E3 & _ & N3).
  unfold add_transition. rewrite E3.
  eexists. split; [reflexivity|]. split; [|split].
  - constructor; unfold tab; cbn [ires imap].
    + exact (j_inj _ Hj2).
    + intros k1 k2 id I. destruct (j_fin _ Hj2 _ _ _ I) as (x & z1 & z2 & Nx & Nz).
      rewrite N3. destruct (N.eqb_spec id from) as [->|]; [|exists x, z1, z2; auto].
      replace x with y in Nz by congruence. eexists _, z1, z2. split; [reflexivity|exact Nz].
    + intros id x t Nx It. rewrite N3 in Nx.
      destruct (N.eqb_spec id from) as [->|]; [|exact (j_sound _ Hj2 _ _ _ Nx It)].
      injection Nx as <-. cbn [trans] in It. apply in_app_or in It as [It|[<-|[]]]; [exact (j_sound _ Hj2 _ _ _ Ny It)|].
      exists i1, i2, x1, x2, u1, u2. repeat (split; [assumption|]). reflexivity.
  - apply (ext_trans st st1); [exact X1|]. apply (ext_trans st1 st2); [exact X2|].
    split; [auto|]. cbn [ires]. intros id x t Nx It. rewrite N3.
    destruct (N.eqb_spec id from) as [->|]; [|exists x; auto].
    replace x with y in It by congruence. eexists. split; [reflexivity|]. apply in_or_app. left; exact It.
  - intros _. exists from, to. eexists. split; [exact F1|]. split; [exact F2|]. cbn [ires].
    rewrite N3, N.eqb_refl. split; [reflexivity|]. apply in_or_app. right. left. reflexivity.
Qed.

Lemma ofold_spec l : forall st, J st -> (forall x, In x l -> In x (work a b)) ->
  exists st', ofold (step a b) l st = Some st' /\ J st' /\ ext st st' /\ forall x, In x l -> has_edge st' x.
Proof.
  induction l as [|[[[i1 i2] u1] u2] l IH]; intros st Hj Hw.
  - exists st. split; [reflexivity|]. split; [exact Hj|]. split; [apply ext_refl|]. intros x [].
  - destruct (step_spec st i1 i2 u1 u2 Hj) as (st1 & E1 & Hj1 & X1 & H1); [apply Hw; left; reflexivity|].
    cbn [ofold]. rewrite E1.
    destruct (IH st1 Hj1) as (st' & E' & Hj' & X' & H'); [intros y I; apply Hw; right; exact I|].
    exists st'. split; [exact E'|]. split; [exact Hj'|]. split; [exact (ext_trans _ _ _ X1 X')|].
    intros y [<-|I]; [exact (has_edge_ext _ _ _ X' H1)|exact (H' y I)].
Qed.

End Product.
