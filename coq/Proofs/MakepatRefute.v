(* Witnesses by computation: where the full statements fail. *)
From PV Require Import Lib.Bytes Model.Makepat Spec.StrMatch.
Open Scope N_scope.

(* the Go result as an option, to compare with the spec *)
Definition res_to_option {A} (r : res A) : option A :=
  match r with Ok a => Some a | _ => None end.

Definition match_is_strmatch_full : Prop :=
  forall (p : str) (a : pattern) (s : str),
    compile p = Ok (Some a) -> res_to_option (matchp a s) = str_match p s.

Definition tricky_pat : str := [91; 97; 45; 93; 93].   (* [a-]] *)
Definition tricky_str : str := [97].                   (* a *)

Lemma tricky_witness :
  exists a, compile tricky_pat = Ok (Some a) /\ matchp a tricky_str = Ok true
            /\ str_match tricky_pat tricky_str = Some false
            /\ matchp a (tricky_str ++ [93]) = Ok false
            /\ str_match tricky_pat (tricky_str ++ [93]) = Some true.
Proof. eexists. split; [vm_compute; reflexivity|]. repeat split; vm_compute; reflexivity. Qed.

Lemma match_is_strmatch_refuted : ~ match_is_strmatch_full.
Proof.
  intro H. destruct tricky_witness as (a & Hc & Hm & Hs & _).
  specialize (H _ _ tricky_str Hc). rewrite Hm, Hs in H. discriminate H.
Qed.
