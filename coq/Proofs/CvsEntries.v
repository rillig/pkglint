(* Theorems about Model/CvsEntries.v.

   - split_slash / join_slash round trip, parse_entry_line_spec
   - the calendar: days_from_civil (civil_from_days d) = d for ALL d : Z
     (linear arithmetic within one era of 146097 days, lifted to all eras
     algebraically), month/day ranges
   - ansic_parse (ansic_utc s) = Some s for ansic_lo <= s < ansic_hi, hence
     ansic_utc is injective on the instants whose year has four digits
   - the decision isLocallyModified: does not consult the environment; the
     local-time mutant does. *)
From Coq Require Import ZArith Lia ZifyBool ZifyN List.
From PV Require Import Lib.Bytes Model.CvsEntries.
Import ListNotations.
Open Scope Z_scope.

(* The two halves of Hinnant's civil_from_days, each linear arithmetic over
   quotients by constants: the year of the era and the day of that year
   (years begin on March 1), then the month (counted from March) and the day. *)
Lemma year_of_era doe : 0 <= doe < 146097 ->
  let yoe := (doe - doe / 1460 + doe / 36524 - doe / 146096) / 365 in
  0 <= yoe <= 399 /\ 0 <= doe - (365 * yoe + yoe / 4 - yoe / 100) <= 365.
Proof. intros H yoe. subst yoe. Z.div_mod_to_equations. lia. Qed.

Lemma month_of_doy doy : 0 <= doy <= 365 ->
  let mp := (5 * doy + 2) / 153 in
  0 <= mp <= 11 /\ 1 <= doy - (153 * mp + 2) / 5 + 1 <= 31 /\ (306 <= doy <-> 10 <= mp).
Proof. intros H mp. subst mp. Z.div_mod_to_equations. lia. Qed.

(* 146037 = day 306 (January 1) of the last year of the era *)
Lemma ymd_of_doe_facts doe yoe m d :
  0 <= doe < 146097 -> ymd_of_doe doe = (yoe, m, d) ->
  0 <= yoe <= 399 /\ 1 <= m <= 12 /\ 1 <= d <= 31 /\ doe_of_ymd yoe m d = doe /\
  (doe < 146037 -> (if m <=? 2 then 1 else 0) + yoe <= 399) /\
  (146037 <= doe -> yoe = 399 /\ m <= 2).
Proof.
  intros Hd. unfold ymd_of_doe, doe_of_ymd.
  pose proof (year_of_era doe Hd) as [Hy Hdoy]. cbv zeta in Hy, Hdoy.
  remember ((doe - doe / 1460 + doe / 36524 - doe / 146096) / 365) as y eqn:Ey.
  remember (doe - (365 * y + y / 4 - y / 100)) as doy eqn:Edoy.
  pose proof (month_of_doy doy Hdoy) as (Hmp & Hdd & H306). cbv zeta in Hmp, Hdd, H306.
  remember ((5 * doy + 2) / 153) as mp eqn:Emp. clear Ey Emp.
  (* not [injection]: it would reduce [153 * mp] to a match on mp *)
  cbv zeta. intro E. apply pair_equal_spec in E as [E <-]. apply pair_equal_spec in E as [<- <-].
  destruct (mp <? 10) eqn:E10; destruct (2 <? _) eqn:E2; destruct (_ <=? 2) eqn:E3; lia.
Qed.

Lemma civil_from_days_eq z0 : exists yoe m d,
  ymd_of_doe ((z0 + 719468) mod 146097) = (yoe, m, d) /\
  civil_from_days z0 = ((if m <=? 2 then 1 else 0) + yoe + (z0 + 719468) / 146097 * 400, m, d).
Proof. unfold civil_from_days. destruct (ymd_of_doe _) as [[yoe m] d]. eauto. Qed.

Theorem days_from_civil_from_days : forall d, days_from_civil (civil_from_days d) = d.
Proof.
  intro z0. destruct (civil_from_days_eq z0) as (yoe & m & d & E & ->).
  apply ymd_of_doe_facts in E as (Hy & _ & _ & Hdoe & _); [|apply Z.mod_pos_bound; lia].
  unfold days_from_civil.
  replace ((if m <=? 2 then 1 else 0) + yoe + (z0 + 719468) / 146097 * 400 - (if m <=? 2 then 1 else 0))
    with (yoe + (z0 + 719468) / 146097 * 400) by lia.
  rewrite Z.div_add, Z.mod_add, Z.div_small, Z.mod_small, Hdoe by lia.
  pose proof (Z.div_mod (z0 + 719468) 146097). lia.
Qed.

Theorem civil_from_days_range : forall d,
  let '(y, m, dd) := civil_from_days d in 1 <= m <= 12 /\ 1 <= dd <= 31.
Proof.
  intro z0. destruct (civil_from_days_eq z0) as (yoe & m & d & E & ->).
  apply ymd_of_doe_facts in E; [tauto|apply Z.mod_pos_bound; lia].
Qed.

(* the years of the days 0000-01-01 .. 9999-12-31 have four digits *)
Lemma civil_from_days_year4 z0 y m d :
  -719528 <= z0 < 2932897 -> civil_from_days z0 = (y, m, d) -> 0 <= y <= 9999.
Proof.
  intros Hz. destruct (civil_from_days_eq z0) as (yoe & m' & d' & E & ->). intros [= <- <- <-].
  pose proof (Z.mod_pos_bound (z0 + 719468) 146097) as Hb.
  apply ymd_of_doe_facts in E as (Hy & _ & _ & _ & Hlo & Hhi); [|lia].
  pose proof (Z.div_mod (z0 + 719468) 146097) as Hdm.
  destruct (Z.leb_spec m' 2); lia.
Qed.

Lemma weekday_of_days_range d : (0 <= weekday_of_days d <= 6)%Z.
Proof. unfold weekday_of_days. pose proof (Z.mod_pos_bound (d + 4) 7 ltac:(lia)). lia. Qed.

(* an independent parser of the ANSIC layout, by fixed columns *)
Definition digit_of (c : N) : option Z :=
  if is_digit c then Some (Z.of_N c - 48) else None.

Definition parse2 (a b : N) : option Z :=
  match digit_of a, digit_of b with
  | Some x, Some y => Some (10 * x + y)
  | _, _ => None
  end.
Definition parse2s (a b : N) : option Z :=
  if (a =? 32)%N then digit_of b else parse2 a b.
Definition parse4 (a b c d : N) : option Z :=
  match parse2 a b, parse2 c d with
  | Some x, Some y => Some (100 * x + y)
  | _, _ => None
  end.
Definition parse_month (s : str) : option Z :=
  if str_eqb s [74; 97; 110]%N then Some 1
  else if str_eqb s [70; 101; 98]%N then Some 2
  else if str_eqb s [77; 97; 114]%N then Some 3
  else if str_eqb s [65; 112; 114]%N then Some 4
  else if str_eqb s [77; 97; 121]%N then Some 5
  else if str_eqb s [74; 117; 110]%N then Some 6
  else if str_eqb s [74; 117; 108]%N then Some 7
  else if str_eqb s [65; 117; 103]%N then Some 8
  else if str_eqb s [83; 101; 112]%N then Some 9
  else if str_eqb s [79; 99; 116]%N then Some 10
  else if str_eqb s [78; 111; 118]%N then Some 11
  else if str_eqb s [68; 101; 99]%N then Some 12
  else None.

(* columns: 0-2 weekday (ignored), 4-6 month, 8-9 day, 11-12 hour, 14-15 minute,
   17-18 second, 20-23 year; the separators are not looked at *)
Definition ansic_parse (s : str) : option Z :=
  match s with
  | [_; _; _; _; m1; m2; m3; _; d1; d2; _; h1; h2; _; mi1; mi2; _; s1; s2; _; y1; y2; y3; y4] =>
      match parse_month [m1; m2; m3], parse2s d1 d2, parse2 h1 h2, parse2 mi1 mi2,
            parse2 s1 s2, parse4 y1 y2 y3 y4 with
      | Some m, Some d, Some hh, Some mi, Some ss, Some y =>
          Some (days_from_civil (y, m, d) * 86400 + hh * 3600 + mi * 60 + ss)
      | _, _, _, _, _, _ => None
      end
  | _ => None
  end.

Lemma digit_of_byte q : 0 <= q <= 9 -> digit_of (digit_byte q) = Some q.
Proof.
  intro H. unfold digit_of, digit_byte, is_digit.
  replace ((48 <=? Z.to_N (48 + q))%N && (Z.to_N (48 + q) <=? 57)%N) with true by lia.
  f_equal. lia.
Qed.

Lemma digit_byte_not_space q : 0 <= q -> (digit_byte q =? 32)%N = false.
Proof. intro H. unfold digit_byte. lia. Qed.

Lemma parse2_fmt2_zero n : 0 <= n < 100 -> exists a b, fmt2_zero n = [a; b] /\ parse2 a b = Some n.
Proof.
  intros H. eexists _, _. split; [reflexivity|]. unfold parse2.
  rewrite !digit_of_byte by (Z.div_mod_to_equations; lia).
  f_equal. Z.div_mod_to_equations. lia.
Qed.

Lemma parse2s_fmt2_space n : 1 <= n < 100 -> exists a b, fmt2_space n = [a; b] /\ parse2s a b = Some n.
Proof.
  intros H. eexists _, _. split; [reflexivity|]. unfold parse2s.
  destruct (n <? 10) eqn:E.
  - change (32 =? 32)%N with true. cbv iota.
    rewrite digit_of_byte by (Z.div_mod_to_equations; lia).
    f_equal. apply Z.mod_small. lia.
  - rewrite digit_byte_not_space by (Z.div_mod_to_equations; lia).
    destruct (parse2_fmt2_zero n) as (? & ? & [= <- <-] & ->); [lia|reflexivity].
Qed.

Lemma parse4_fmt_year y : 0 <= y <= 9999 ->
  exists a b c e, fmt_year y = [a; b; c; e] /\ parse4 a b c e = Some y.
Proof.
  intro H. unfold fmt_year, fmt_abs4.
  replace (y <? 0) with false by lia. replace (y <? 10000) with true by lia.
  eexists _, _, _, _. split; [reflexivity|]. unfold parse4, parse2.
  rewrite !digit_of_byte by (Z.div_mod_to_equations; lia).
  f_equal. Z.div_mod_to_equations. lia.
Qed.

Lemma day_name_length w : length (day_name w) = 3%nat.
Proof. unfold day_name. repeat destruct (_ =? _); reflexivity. Qed.

Lemma month_name_length m : length (month_name m) = 3%nat.
Proof. unfold month_name. repeat destruct (_ =? _); reflexivity. Qed.

Lemma parse_month_name m : 1 <= m <= 12 -> parse_month (month_name m) = Some m.
Proof.
  intro H.
  assert (C : m = 1 \/ m = 2 \/ m = 3 \/ m = 4 \/ m = 5 \/ m = 6 \/ m = 7 \/ m = 8 \/ m = 9 \/
              m = 10 \/ m = 11 \/ m = 12) by lia.
  repeat (destruct C as [->|C]; [vm_compute; reflexivity|]). subst. vm_compute. reflexivity.
Qed.

Lemma ansic_parse_fields wd mo dd hh mi ss yy m d h i s y :
  length wd = 3%nat -> length mo = 3%nat -> parse_month mo = Some m ->
  (exists a b, dd = [a; b] /\ parse2s a b = Some d) ->
  (exists a b, hh = [a; b] /\ parse2 a b = Some h) ->
  (exists a b, mi = [a; b] /\ parse2 a b = Some i) ->
  (exists a b, ss = [a; b] /\ parse2 a b = Some s) ->
  (exists a b c e, yy = [a; b; c; e] /\ parse4 a b c e = Some y) ->
  ansic_parse (wd ++ [32%N] ++ mo ++ [32%N] ++ dd ++ [32%N] ++ hh ++ [58%N] ++ mi ++ [58%N]
               ++ ss ++ [32%N] ++ yy)
  = Some (days_from_civil (y, m, d) * 86400 + h * 3600 + i * 60 + s).
Proof.
  destruct wd as [|? [|? [|? [|]]]]; try discriminate. intros _.
  destruct mo as [|? [|? [|? [|]]]]; try discriminate. intros _ Hm.
  intros (? & ? & -> & Hd) (? & ? & -> & Hh) (? & ? & -> & Hi) (? & ? & -> & Hs) (? & ? & ? & ? & -> & Hy).
  cbn [app ansic_parse]. rewrite Hm, Hd, Hh, Hi, Hs, Hy. reflexivity.
Qed.

Lemma ansic_parse_length t v : ansic_parse t = Some v -> length t = 24%nat.
Proof. do 24 (destruct t as [|? t]; [discriminate|]). destruct t; [reflexivity|discriminate]. Qed.

Lemma hms r : 0 <= r < 86400 ->
  0 <= r / 3600 < 24 /\ 0 <= r mod 3600 / 60 < 60 /\ 0 <= r mod 60 < 60 /\
  r / 3600 * 3600 + r mod 3600 / 60 * 60 + r mod 60 = r.
Proof. intro H. Z.div_mod_to_equations. lia. Qed.

Theorem ansic_parse_format : forall s, ansic_lo <= s < ansic_hi -> ansic_parse (ansic_utc s) = Some s.
Proof.
  intros s Hs. unfold ansic_lo, ansic_hi in Hs. unfold ansic_utc.
  pose proof (Z.div_mod s 86400 ltac:(lia)) as Hdm.
  pose proof (Z.mod_pos_bound s 86400 ltac:(lia)) as Hr.
  set (days := s / 86400) in *. set (r := s mod 86400) in *.
  pose proof (civil_from_days_range days) as Hrange.
  pose proof (days_from_civil_from_days days) as Hinv.
  destruct (civil_from_days days) as [[y m] d] eqn:E.
  assert (Hy : 0 <= y <= 9999) by (apply (civil_from_days_year4 days _ m d); [lia|exact E]).
  destruct Hrange as [Hm Hd]. destruct (hms r Hr) as (Hh & Hi & Hsec & Hsum).
  rewrite (ansic_parse_fields _ _ _ _ _ _ _ m d (r / 3600) (r mod 3600 / 60) (r mod 60) y).
  - rewrite Hinv. f_equal. lia.
  - apply day_name_length.
  - apply month_name_length.
  - apply parse_month_name, Hm.
  - apply parse2s_fmt2_space. lia.
  - apply parse2_fmt2_zero. lia.
  - apply parse2_fmt2_zero. lia.
  - apply parse2_fmt2_zero. lia.
  - apply parse4_fmt_year, Hy.
Qed.

Theorem ansic_utc_injective : forall s1 s2,
  ansic_lo <= s1 < ansic_hi -> ansic_lo <= s2 < ansic_hi -> ansic_utc s1 = ansic_utc s2 -> s1 = s2.
Proof.
  intros s1 s2 H1 H2 E. apply ansic_parse_format in H1, H2. congruence.
Qed.

Theorem ansic_utc_length : forall s, ansic_lo <= s < ansic_hi -> length (ansic_utc s) = 24%nat.
Proof. intros s H. apply (ansic_parse_length _ s), ansic_parse_format, H. Qed.

(* the right-hand sides were printed by go1.23.5: time.Unix(s, 0).UTC().Format(time.ANSIC) *)
Example ansic_ex_1521633600 : ansic_utc (1521633600) = [87; 101; 100; 32; 77; 97; 114; 32; 50; 49; 32; 49; 50; 58; 48; 48; 58; 48; 48; 32; 50; 48; 49; 56]%N. (* "Wed Mar 21 12:00:00 2018" *)
Proof. vm_compute. reflexivity. Qed.
Example ansic_ex_0 : ansic_utc (0) = [84; 104; 117; 32; 74; 97; 110; 32; 32; 49; 32; 48; 48; 58; 48; 48; 58; 48; 48; 32; 49; 57; 55; 48]%N. (* "Thu Jan  1 00:00:00 1970" *)
Proof. vm_compute. reflexivity. Qed.
Example ansic_ex_m1 : ansic_utc (-1) = [87; 101; 100; 32; 68; 101; 99; 32; 51; 49; 32; 50; 51; 58; 53; 57; 58; 53; 57; 32; 49; 57; 54; 57]%N. (* "Wed Dec 31 23:59:59 1969" *)
Proof. vm_compute. reflexivity. Qed.
Example ansic_ex_951782400 : ansic_utc (951782400) = [84; 117; 101; 32; 70; 101; 98; 32; 50; 57; 32; 48; 48; 58; 48; 48; 58; 48; 48; 32; 50; 48; 48; 48]%N. (* "Tue Feb 29 00:00:00 2000" *)
Proof. vm_compute. reflexivity. Qed.
Example ansic_ex_951868799 : ansic_utc (951868799) = [84; 117; 101; 32; 70; 101; 98; 32; 50; 57; 32; 50; 51; 58; 53; 57; 58; 53; 57; 32; 50; 48; 48; 48]%N. (* "Tue Feb 29 23:59:59 2000" *)
Proof. vm_compute. reflexivity. Qed.
Example ansic_ex_m2203891200 : ansic_utc (-2203891200) = [84; 104; 117; 32; 77; 97; 114; 32; 32; 49; 32; 48; 48; 58; 48; 48; 58; 48; 48; 32; 49; 57; 48; 48]%N. (* "Thu Mar  1 00:00:00 1900" *)
Proof. vm_compute. reflexivity. Qed.
Example ansic_ex_4107456000 : ansic_utc (4107456000) = [83; 117; 110; 32; 70; 101; 98; 32; 50; 56; 32; 48; 48; 58; 48; 48; 58; 48; 48; 32; 50; 49; 48; 48]%N. (* "Sun Feb 28 00:00:00 2100" *)
Proof. vm_compute. reflexivity. Qed.
Example ansic_ex_4107542400 : ansic_utc (4107542400) = [77; 111; 110; 32; 77; 97; 114; 32; 32; 49; 32; 48; 48; 58; 48; 48; 58; 48; 48; 32; 50; 49; 48; 48]%N. (* "Mon Mar  1 00:00:00 2100" *)
Proof. vm_compute. reflexivity. Qed.
Example ansic_ex_253402300799 : ansic_utc (253402300799) = [70; 114; 105; 32; 68; 101; 99; 32; 51; 49; 32; 50; 51; 58; 53; 57; 58; 53; 57; 32; 57; 57; 57; 57]%N. (* "Fri Dec 31 23:59:59 9999" *)
Proof. vm_compute. reflexivity. Qed.
Example ansic_ex_253402300800 : ansic_utc (253402300800) = [83; 97; 116; 32; 74; 97; 110; 32; 32; 49; 32; 48; 48; 58; 48; 48; 58; 48; 48; 32; 49; 48; 48; 48; 48]%N. (* "Sat Jan  1 00:00:00 10000" *)
Proof. vm_compute. reflexivity. Qed.
Example ansic_ex_m62167219200 : ansic_utc (-62167219200) = [83; 97; 116; 32; 74; 97; 110; 32; 32; 49; 32; 48; 48; 58; 48; 48; 58; 48; 48; 32; 48; 48; 48; 48]%N. (* "Sat Jan  1 00:00:00 0000" *)
Proof. vm_compute. reflexivity. Qed.
Example ansic_ex_m62167219201 : ansic_utc (-62167219201) = [70; 114; 105; 32; 68; 101; 99; 32; 51; 49; 32; 50; 51; 58; 53; 57; 58; 53; 57; 32; 45; 48; 48; 48; 49]%N. (* "Fri Dec 31 23:59:59 -0001" *)
Proof. vm_compute. reflexivity. Qed.
Example ansic_ex_m62198755200 : ansic_utc (-62198755200) = [70; 114; 105; 32; 74; 97; 110; 32; 32; 49; 32; 48; 48; 58; 48; 48; 58; 48; 48; 32; 45; 48; 48; 48; 49]%N. (* "Fri Jan  1 00:00:00 -0001" *)
Proof. vm_compute. reflexivity. Qed.
Example ansic_ex_m62135596800 : ansic_utc (-62135596800) = [77; 111; 110; 32; 74; 97; 110; 32; 32; 49; 32; 48; 48; 58; 48; 48; 58; 48; 48; 32; 48; 48; 48; 49]%N. (* "Mon Jan  1 00:00:00 0001" *)
Proof. vm_compute. reflexivity. Qed.
Example ansic_ex_1709210096 : ansic_utc (1709210096) = [84; 104; 117; 32; 70; 101; 98; 32; 50; 57; 32; 49; 50; 58; 51; 52; 58; 53; 54; 32; 50; 48; 50; 52]%N. (* "Thu Feb 29 12:34:56 2024" *)
Proof. vm_compute. reflexivity. Qed.
Example ansic_ex_68169600000 : ansic_utc (68169600000) = [83; 97; 116; 32; 77; 97; 114; 32; 49; 56; 32; 48; 48; 58; 48; 48; 58; 48; 48; 32; 52; 49; 51; 48]%N. (* "Sat Mar 18 00:00:00 4130" *)
Proof. vm_compute. reflexivity. Qed.
Example civil_ex_1900_03_01 : civil_from_days (-25508) = (1900, 3, 1).
Proof. vm_compute. reflexivity. Qed.
Example civil_ex_2100_02_28 : civil_from_days 47540 = (2100, 2, 28).
Proof. vm_compute. reflexivity. Qed.
Example civil_ex_2100_03_01 : civil_from_days 47541 = (2100, 3, 1).
Proof. vm_compute. reflexivity. Qed.
Example weekday_ex_epoch : weekday_of_days 0 = 4.
Proof. reflexivity. Qed.

(* C07: isLocallyModified never looks at the environment (time zone, user, locale, ...) *)
Theorem locally_modified_env_independent : forall e1 e2 es name st,
  is_locally_modified e1 es name st = is_locally_modified e2 es name st.
Proof. reflexivity. Qed.

Definition wit_env (off : Z) : env := mk_env (fun _ => off) [] [] [] [] 0%N.
Definition wit_name : str := [97%N].
Definition wit_entries : entries :=
  [(wit_name, mk_cvs_entry wit_name [49%N] (ansic_utc 0) [] [])].

(* non-vacuity: the variant that formats in local time DOES depend on the environment *)
Theorem locally_modified_local_refuted :
  ~ (forall e1 e2 es name st,
       is_locally_modified_local e1 es name st = is_locally_modified_local e2 es name st).
Proof.
  intro H. specialize (H (wit_env 0) (wit_env 3600) wit_entries wit_name (Some 0)).
  vm_compute in H. discriminate H.
Qed.

Theorem locally_modified_spec : forall e es name st,
  is_locally_modified e es name st = true <->
  exists ent, entries_lookup es name = Some ent /\
    (st = None \/ exists s, st = Some s /\ ce_timestamp ent <> ansic_utc s).
Proof.
  intros e es name st. unfold is_locally_modified.
  destruct (entries_lookup es name) as [ent|]; [|split; [discriminate|intros (? & [=] & _)]].
  destruct st as [s|].
  - rewrite negb_true_iff, <- not_true_iff_false, str_eqb_spec. split.
    + intro H. exists ent. eauto 6.
    + intros (? & [= <-] & [[=]|(? & [= <-] & H)]). exact H.
  - split; [eauto|reflexivity].
Qed.

Open Scope N_scope.

Lemma split_slash_nonempty s : split_slash s <> [].
Proof.
  destruct s as [|c s]; cbn [split_slash]; [discriminate|].
  destruct (c =? 47); [discriminate|]. destruct (split_slash s); discriminate.
Qed.

Lemma split_slash_cons c s : exists f fs, split_slash s = f :: fs /\
  split_slash (c :: s) = if c =? 47 then [] :: f :: fs else (c :: f) :: fs.
Proof.
  cbn [split_slash]. pose proof (split_slash_nonempty s).
  destruct (split_slash s) as [|f fs]; [contradiction|eauto].
Qed.

Theorem split_slash_join : forall s, join_slash (split_slash s) = s.
Proof.
  induction s as [|c s IH]; [reflexivity|].
  destruct (split_slash_cons c s) as (f & fs & E & ->). rewrite E in IH. rewrite <- IH.
  destruct (N.eqb_spec c 47) as [->|_], fs; reflexivity.
Qed.

Theorem split_slash_no_slash : forall s f, In f (split_slash s) -> ~ In 47 f.
Proof.
  induction s as [|c s IH]; intros f Hin.
  - destruct Hin as [<-|[]]. intros [].
  - destruct (split_slash_cons c s) as (g & gs & E & Ec). rewrite Ec in Hin. rewrite E in IH.
    destruct (N.eqb_spec c 47) as [->|Hc]; destruct Hin as [<-|Hin].
    + intros [].
    + apply IH, Hin.
    + intros [H|H]; [congruence|]. exact (IH g (or_introl eq_refl) H).
    + apply IH. right. exact Hin.
Qed.

Lemma split_slash_plain f : ~ In 47 f -> split_slash f = [f].
Proof.
  induction f as [|c f IH]; cbn [split_slash In]; intro H; [reflexivity|].
  destruct (N.eqb_spec c 47); [tauto|]. rewrite IH by tauto. reflexivity.
Qed.

Lemma split_slash_app f r : ~ In 47 f -> split_slash (f ++ 47 :: r) = f :: split_slash r.
Proof.
  induction f as [|c f IH]; cbn [app split_slash In]; intro H; [reflexivity|].
  destruct (N.eqb_spec c 47); [tauto|]. rewrite IH by tauto. reflexivity.
Qed.

(* the CVS/Entries line: "/name/revision/timestamp/options/tagdate" *)
Theorem parse_entry_line_spec : forall t e,
  parse_entry_line t = PrEntry e <->
  exists f1 f2 f3 f4 f5,
    t = [47] ++ f1 ++ [47] ++ f2 ++ [47] ++ f3 ++ [47] ++ f4 ++ [47] ++ f5 /\
    (~ In 47 f1 /\ ~ In 47 f2 /\ ~ In 47 f3 /\ ~ In 47 f4 /\ ~ In 47 f5) /\
    e = mk_cvs_entry f1 f2 f3 f4 f5.
Proof.
  intros t e. split.
  - unfold parse_entry_line, has_prefix.
    destruct (strip_prefix [47] t) as [r|] eqn:Ep; [|discriminate].
    apply strip_prefix_some in Ep as ->. change (split_slash ([47] ++ r)) with ([] :: split_slash r).
    pose proof (split_slash_join r) as Hj.
    pose proof (split_slash_no_slash r) as Hn.
    destruct (split_slash r) as [|f1 [|f2 [|f3 [|f4 [|f5 [|f6 l]]]]]]; try discriminate.
    intros [= <-]. exists f1, f2, f3, f4, f5. rewrite <- Hj.
    split; [reflexivity|]. split; [|reflexivity]. repeat split; apply Hn; cbn; tauto.
  - intros (f1 & f2 & f3 & f4 & f5 & -> & (H1 & H2 & H3 & H4 & H5) & ->).
    unfold parse_entry_line, has_prefix. cbn [app strip_prefix split_slash].
    change (47 =? 47) with true. cbv iota. rewrite !split_slash_app by assumption.
    rewrite split_slash_plain by assumption. reflexivity.
Qed.

(* split_slash mirrors len(strings.Split(s, "/")) = 1 + number of slashes *)
Lemma split_slash_length s :
  length (split_slash s) = S (length (filter (fun c => c =? 47) s)).
Proof.
  induction s as [|c s IH]; [reflexivity|].
  destruct (split_slash_cons c s) as (f & fs & E & ->). rewrite E in IH. cbn [filter].
  destruct (c =? 47); cbn [length] in *; congruence.
Qed.

(* the Go map as an association list: entries[k] = e, delete(entries, k), entries[k] *)

Lemma entries_lookup_put es k' e k :
  entries_lookup (entries_put es k' e) k = if str_eqb k k' then Some e else entries_lookup es k.
Proof.
  induction es as [|[k0 e0] es IH]; cbn [entries_put entries_lookup]; [reflexivity|].
  destruct (str_eqbP k' k0) as [<-|N0]; cbn [entries_lookup]; [destruct (str_eqb k k'); reflexivity|].
  rewrite IH. destruct (str_eqbP k k0) as [->|]; [|reflexivity].
  destruct (str_eqbP k0 k'); [congruence|reflexivity].
Qed.

Theorem entries_lookup_add es e k :
  entries_lookup (entries_add es e) k = if str_eqb k (ce_name e) then Some e else entries_lookup es k.
Proof. apply entries_lookup_put. Qed.

Theorem entries_lookup_del es k' k :
  entries_lookup (entries_del es k') k = if str_eqb k k' then None else entries_lookup es k.
Proof.
  induction es as [|[k0 e0] es IH]; cbn [entries_del entries_lookup]; [destruct (str_eqb k k'); reflexivity|].
  destruct (str_eqbP k' k0) as [<-|N0]; cbn [entries_lookup]; rewrite IH.
  - destruct (str_eqb k k'); reflexivity.
  - destruct (str_eqbP k k0) as [->|]; [|reflexivity]. destruct (str_eqbP k0 k'); [congruence|reflexivity].
Qed.

Definition entries_wf (es : entries) : Prop :=
  NoDup (map fst es) /\ forall k e, In (k, e) es -> k = ce_name e.

Lemma entries_put_in es k e x : In x (entries_put es k e) -> x = (k, e) \/ In x es.
Proof.
  induction es as [|[k0 e0] es IH]; cbn [entries_put]; [intros [<-|[]]; auto|].
  destruct (str_eqb k k0); cbn [In]; intuition.
Qed.

Lemma entries_add_wf es e : entries_wf es -> entries_wf (entries_add es e).
Proof.
  unfold entries_add. intros [Hnd Hk]. split.
  - clear Hk. induction es as [|[k0 e0] es IH]; cbn [entries_put map fst] in *.
    + repeat constructor. intros [].
    + apply NoDup_cons_iff in Hnd as [Hnot Hnd].
      destruct (str_eqbP (ce_name e) k0) as [<-|Hne]; cbn [map fst]; constructor; auto.
      intros Hin. apply in_map_iff in Hin as (x & <- & Hx).
      apply entries_put_in in Hx as [->|Hx]; [apply Hne; reflexivity|apply Hnot, in_map, Hx].
  - intros k e1 Hin. apply entries_put_in in Hin as [[= -> ->]|Hin]; auto.
Qed.

Lemma entries_del_incl es k x : In x (entries_del es k) -> In x es.
Proof.
  induction es as [|[k0 e0] es IH]; cbn [entries_del]; [tauto|].
  destruct (str_eqb k k0); cbn [In]; tauto.
Qed.

Lemma entries_del_keys es k :
  map fst (entries_del es k) = filter (fun x => negb (str_eqb k x)) (map fst es).
Proof.
  induction es as [|[k0 e0] es IH]; cbn [entries_del map fst filter]; [reflexivity|].
  destruct (str_eqb k k0); cbn [negb map fst]; congruence.
Qed.

Lemma entries_del_wf es k : entries_wf es -> entries_wf (entries_del es k).
Proof.
  intros [Hnd Hk]. split.
  - rewrite entries_del_keys. apply NoDup_filter, Hnd.
  - intros k' e' Hin. apply Hk, (entries_del_incl _ _ _ Hin).
Qed.

Lemma handle_line_wf st add text : entries_wf (fst st) -> entries_wf (fst (handle_line st add text)).
Proof.
  intro H. unfold handle_line. destruct (parse_entry_line text); cbn [fst]; try assumption.
  destruct add; [apply entries_add_wf|apply entries_del_wf]; assumption.
Qed.

Lemma handle_log_line_wf st text : entries_wf (fst st) -> entries_wf (fst (handle_log_line st text)).
Proof.
  intro H. unfold handle_log_line.
  destruct (strip_prefix [65; 32] text); [apply handle_line_wf; assumption|].
  destruct (strip_prefix [82; 32] text); [apply handle_line_wf; assumption|assumption].
Qed.

Lemma fold_left_invariant {A B} (P : A -> Prop) (f : A -> B -> A) :
  (forall a b, P a -> P (f a b)) -> forall l a, P a -> P (fold_left f l a).
Proof. intros Hf l. induction l as [|b l IH]; intros a H; [exact H|apply IH, Hf, H]. Qed.

Theorem load_entries_wf entries_lines log_lines :
  entries_wf (fst (load_entries entries_lines log_lines)).
Proof.
  unfold load_entries.
  apply (fold_left_invariant (fun st => entries_wf (fst st))); [intros; now apply handle_log_line_wf|].
  apply (fold_left_invariant (fun st => entries_wf (fst st))); [intros; now apply handle_line_wf|].
  split; [constructor|intros k e []].
Qed.

(* the last line that mentions a name decides: one step of the loop, seen through lookups *)
Theorem handle_line_lookup st add text k :
  entries_lookup (fst (handle_line st add text)) k =
  match parse_entry_line text with
  | PrEntry e => if str_eqb k (ce_name e) then (if add then Some e else None)
                 else entries_lookup (fst st) k
  | _ => entries_lookup (fst st) k
  end.
Proof.
  unfold handle_line. destruct (parse_entry_line text) as [| |e]; cbn [fst]; try reflexivity.
  destruct add; [rewrite entries_lookup_add|rewrite entries_lookup_del];
    destruct (str_eqb k (ce_name e)); reflexivity.
Qed.

Theorem handle_line_errors st add text :
  snd (handle_line st add text) =
  (snd st + match parse_entry_line text with PrInvalid => 1 | _ => 0 end)%N.
Proof.
  unfold handle_line. destruct (parse_entry_line text); cbn [snd]; try lia.
Qed.
