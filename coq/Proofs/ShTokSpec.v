(* Proofs about Model/ShTok.v, part 3: totality corollaries, the table-driven
   expression lexer of the correspondence run meets the advance contract, and the
   link to the executable specification Spec/ShPartition.v. *)
From PV Require Lib.LinesLib.
From PV Require Import Lib.Bytes Model.ShTok Spec.ShPartition Proofs.ShTok Proofs.ShTokLoop.
Open Scope N_scope.

Definition no_failure {A : Type} (x : res A) : Prop := x <> Panic /\ x <> OutOfFuel.

Lemma ok_no_failure {A : Type} (x : res A) a : x = Ok a -> no_failure x.
Proof. intros ->. split; discriminate. Qed.

Section WithExpr.

Variable expr : str -> option (str * str).
Hypothesis Hexpr : expr_contract expr.

Lemma sh_atom_total q iw (s : str) : no_failure (sh_atom expr q (iw, s)).
Proof.
  destruct (sh_atom_spec expr Hexpr q iw s) as (iw' & [E | (a & r & E & _)]);
    exact (ok_no_failure _ _ E).
Qed.

Lemma sh_atoms_from_total q iw (s : str) : no_failure (sh_atoms_from expr q (iw, s)).
Proof.
  destruct (sh_atoms_from_ok expr Hexpr q iw s) as (l & iw' & r & E & _).
  exact (ok_no_failure _ _ E).
Qed.

Lemma sh_token_total iw (s : str) : no_failure (sh_token expr (iw, s)).
Proof.
  destruct (sh_token_ok expr Hexpr iw s) as (p & iw' & r & _ & [(E & _) | (t & E & _)]);
    exact (ok_no_failure _ _ E).
Qed.

Lemma sh_tokens_total (s : str) : no_failure (sh_tokens expr s).
Proof.
  destruct (sh_tokens_ok expr Hexpr s) as (l & iw' & r & E & _).
  exact (ok_no_failure _ _ E).
Qed.

Lemma sh_atoms_ok (s : str) :
  exists atoms iw' r,
    sh_atoms expr s = Ok (atoms, (iw', r)) /\
    s = concat (map a_text atoms) ++ r /\ Forall (fun a => a_text a <> []) atoms.
Proof. exact (sh_atoms_from_ok expr Hexpr QPlain false s). Qed.

End WithExpr.

Lemma no_expr_contract : expr_contract (fun _ => None).
Proof. intros s t r H. discriminate. Qed.

Lemma table_expr_contract total tbl : expr_contract (table_expr total tbl).
Proof.
  intros s t r H. unfold table_expr in H.
  destruct (nth (total - length s) tbl 0%nat) as [|n] eqn:E; [discriminate|].
  remember (S n) as m eqn:Hm.
  destruct (m <=? length s)%nat eqn:L; [|discriminate].
  injection H as <- <-. apply Nat.leb_le in L. split.
  - symmetry. apply firstn_skipn.
  - intro Z. apply (f_equal (@length N)) in Z. rewrite firstn_length in Z. simpl in Z. lia.
Qed.

Lemma nonempty_true (p : str) : p <> [] -> nonempty p = true.
Proof. destruct p; [congruence|reflexivity]. Qed.

Lemma partition_ok_intro (s : str) pieces r :
  s = concat pieces ++ r -> Forall (fun p => p <> []) pieces -> partition_ok s pieces r = true.
Proof.
  intros -> H. unfold partition_ok. rewrite str_eqb_refl, andb_true_r.
  apply forallb_forall. intros p Hp. apply nonempty_true.
  rewrite Forall_forall in H. auto.
Qed.

Lemma sh_atoms_from_partition_ok expr (Hexpr : expr_contract expr) q iw (s : str) :
  exists atoms iw' r,
    sh_atoms_from expr q (iw, s) = Ok (atoms, (iw', r)) /\
    partition_ok s (map a_text atoms) r = true.
Proof.
  destruct (sh_atoms_from_ok expr Hexpr q iw s) as (l & iw' & r & E & Hs & Hn).
  exists l, iw', r. split; [exact E|]. apply partition_ok_intro; [exact Hs|].
  apply Forall_map. exact Hn.
Qed.

Lemma only_skipped_hspace p : forall (t : str) fuel,
  forallb is_hspace p = true ->
  (forall fuel', (length t < fuel')%nat -> only_skipped fuel' t = true) ->
  (length (p ++ t) < fuel)%nat -> only_skipped fuel (p ++ t) = true.
Proof.
  induction p as [|c p IH]; intros t fuel Hp Ht Hf; [exact (Ht fuel Hf)|].
  cbn [forallb] in Hp. apply andb_true_iff in Hp as [Hc Hp].
  destruct fuel as [|f]; [simpl in Hf; lia|].
  cbn [app only_skipped]. rewrite Hc. apply IH; auto. simpl in Hf. lia.
Qed.

Lemma only_skipped_concat pieces : Forall skipped_ok pieces ->
  forall fuel, (length (concat pieces) < fuel)%nat -> only_skipped fuel (concat pieces) = true.
Proof.
  induction 1 as [|p pieces [Hn [Hh | ->]] _ IH]; intros fuel Hf.
  - destruct fuel; [simpl in Hf; lia|reflexivity].
  - cbn [concat] in *. apply only_skipped_hspace; auto.
  - cbn [concat] in *. destruct fuel as [|f]; [simpl in Hf; lia|].
    assert (E : strip_prefix ulimit_text (ulimit_text ++ concat pieces) = Some (concat pieces))
      by (apply strip_prefix_some; reflexivity).
    change (only_skipped (S f) (ulimit_text ++ concat pieces)) with
      (match strip_prefix ulimit_text (ulimit_text ++ concat pieces) with
       | Some r => only_skipped f r | None => false end).
    rewrite E. apply IH. rewrite app_length in Hf. simpl in Hf. lia.
Qed.

Lemma skipped_prefix_ok (before : str) pieces (tail : str) :
  Forall skipped_ok pieces -> before = concat pieces ++ tail ->
  let n := (length before - length tail)%nat in
  (length tail <=? length before)%nat = true /\
  str_eqb (skipn n before) tail = true /\
  only_skipped (S (length before)) (firstn n before) = true.
Proof.
  intros Hp -> n. subst n.
  rewrite app_length, Nat.add_sub, LinesLib.skipn_app_exact, LinesLib.firstn_app_exact, str_eqb_refl.
  split; [apply Nat.leb_le; lia|]. split; [reflexivity|]. apply only_skipped_concat; [exact Hp|]. lia.
Qed.

Lemma chain_tokens_ok : forall l (before final : str),
  chain_ok before l final ->
  tokens_ok before (map (fun x => (fst (fst x), snd x)) l) final = true.
Proof.
  induction l as [|[[text atoms] after] l IH]; intros before final H; cbn [chain_ok map tokens_ok fst snd] in *.
  - destruct H as (pieces & Hp & Hb).
    destruct (skipped_prefix_ok before pieces final Hp Hb) as (A & B & C).
    rewrite A, B, C. reflexivity.
  - destruct H as ((pieces & Hp & Hb) & Hn & _ & _ & _ & Hc).
    rewrite (IH after final Hc), andb_true_r. unfold token_ok.
    destruct (skipped_prefix_ok before pieces (text ++ after) Hp Hb) as (A & B & C).
    rewrite A, B, C, (nonempty_true _ Hn). reflexivity.
Qed.

Lemma sh_tokens_meet_spec expr (Hexpr : expr_contract expr) (s : str) :
  exists l iw' r,
    sh_tokens expr s = Ok (l, (iw', r)) /\
    tokens_ok s (map (fun p => (tok_text (fst p), snd p)) l) r = true.
Proof.
  destruct (sh_tokens_ok expr Hexpr s) as (l & iw' & r & E & Hc & _).
  exists l, iw', r. split; [exact E|]. apply chain_tokens_ok in Hc. rewrite map_map in Hc. exact Hc.
Qed.

Lemma sh_tokens_chain_ok expr (Hexpr : expr_contract expr) (s : str) :
  exists l iw' r,
    sh_tokens expr s = Ok (l, (iw', r)) /\ chain_ok s (map token_view l) r.
Proof.
  destruct (sh_tokens_ok expr Hexpr s) as (l & iw' & r & E & Hc & _). eauto.
Qed.
