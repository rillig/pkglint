(* C02: the path PRINTED in an AUTOFIX line denotes the file that is WRITTEN.

   Included makefiles are loaded and saved under their raw path
   (dirname.JoinNoClean(includedFile), Package.loadIncluded; SaveAutofixChanges
   uses line.Filename()), while every diagnostic, the AUTOFIX lines included,
   prints what Logger.Logf makes of the file name:

       if !filename.IsEmpty() { filename = filename.CleanPath() }
       if filename == "." { filename = NewCurrPath("") }

   [printed_path] is exactly that; the run model (Model/Autofix.v) records in
   [g_file] the raw name [l_file] of the line.  This file composes the C02
   theorem "every operation concerns a file with a printed AUTOFIX line"
   (Proofs/AutofixFs.v) with the C19 theorem "CleanPath keeps the denotation"
   (Proofs/PathsClean.v). *)
From PV Require Import Lib.Bytes Model.Paths Spec.PathDenote Proofs.PathsClean
  Model.Autofix Proofs.AutofixFs.

(* Logger.Logf, the file name part of a diagnostic *)
Definition printed_path (f : str) : str :=
  if is_empty f then f
  else let c := clean_path f in
       if str_eqb c dotstr then [] else c.

Lemma printed_path_denotes cwd f : denote cwd (printed_path f) = denote cwd f.
Proof.
  unfold printed_path. destruct (is_empty f); [reflexivity|]. cbv zeta.
  destruct (str_eqb (clean_path f) dotstr) eqn:E.
  - apply str_eqb_spec in E. rewrite <- (clean_path_denotes cwd f), E. reflexivity.
  - apply clean_path_denotes.
Qed.

(* an AUTOFIX line was printed whose path, read relative to cwd, denotes the file
   that the path f (as given to the operating system, relative to cwd) denotes *)
Definition printed_names (cwd : str) (log : list logline) (f : str) : Prop :=
  exists g, In g log /\ denote cwd (printed_path (g_file g)) = denote cwd f.

Lemma logged_printed_names cwd log f : logged log f -> printed_names cwd log f.
Proof. intros (g & Hin & E). exists g. split; [exact Hin|]. rewrite E. apply printed_path_denotes. Qed.

(* [op_justified] with the printed path in the place of the logged raw name *)
Definition op_named (cwd : str) (log : list logline) (op : fsop) : Prop :=
  match op with
  | OpCreateExcl p => exists f, p = f ++ tmp_suffix /\ printed_names cwd log f
  | OpWrite p _ => exists f, p = f ++ tmp_suffix /\ printed_names cwd log f
  | OpChmodLike p like => exists f, p = f ++ tmp_suffix /\ like = f /\ printed_names cwd log f
  | OpRename a b => exists f, a = f ++ tmp_suffix /\ b = f /\ printed_names cwd log f
  | OpRemove p => exists f, p = f ++ tmp_suffix /\ printed_names cwd log f
  | OpChmod p => exists g, In g log /\ g_descr g = DChmod
                           /\ denote cwd (printed_path (g_file g)) = denote cwd p
  end.

Lemma op_justified_named cwd log op : op_justified log op -> op_named cwd log op.
Proof.
  destruct op; cbn; intros (y & H); exists y; [intuition auto using logged_printed_names..|].
  destruct H as (Hin & E & D). rewrite <- E. auto using printed_path_denotes.
Qed.

Theorem autofix_ops_named o keys evs st st' :
  o_autofix o = true -> fresh st -> run o keys evs st = Ok st' ->
  forall cwd, Forall (op_named cwd (s_log st')) (s_ops st').
Proof.
  intros Ha F R cwd. eapply Forall_impl; [|exact (autofix_touches_only_changed o keys evs st st' Ha F R)].
  intros op. apply op_justified_named.
Qed.

(* the file, other than a temporary f.pkglint.tmp, that an operation replaces or
   whose mode it changes *)
Definition op_target (op : fsop) : option str :=
  match op with
  | OpRename _ b => Some b
  | OpChmod p => Some p
  | _ => None
  end.

Theorem printed_path_denotes_written o keys evs st st' :
  o_autofix o = true -> fresh st -> run o keys evs st = Ok st' ->
  forall cwd,
  Forall (fun op => forall f, op_target op = Some f ->
            exists g, In g (s_log st') /\ denote cwd (printed_path (g_file g)) = denote cwd f)
         (s_ops st').
Proof.
  intros Ha F R cwd. eapply Forall_impl; [|exact (autofix_ops_named o keys evs st st' Ha F R cwd)].
  intros op N f T. destruct op; cbn in T; try discriminate; inversion T; subst; cbn in N.
  - destruct N as (f0 & _ & E & P). subst. exact P.
  - destruct N as (g & Hin & _ & E). exists g. split; assumption.
Qed.
