(* Proofs about Model/MkLineSplit.v and Model/MkTokensLexer.v: unescapeComment is
   exact, split recombines, tokenize partitions its text, the token lexer's Rest()
   is the concatenation of what is left. *)
From PV Require Import Lib.Bytes Gen.MkByteSets Model.MkLexPrim Model.MkLexer Model.MkTokensLexer
  Model.MkLineSplit Spec.MkPartition Proofs.MkLexPrim Proofs.MkLexer.
From Coq Require Import ZifyBool ZifyN ZifyNat.
Open Scope N_scope.

Lemma uh_cons_ne c r : c <> 92 -> unescape_hash (c :: r) = c :: unescape_hash r.
Proof.
  intro H. cbn [unescape_hash]. destruct r as [|d r']; [reflexivity|].
  destruct (N.eqb_spec c 92); [congruence|]. reflexivity.
Qed.

Lemma uh_bs_hash r : unescape_hash (92 :: 35 :: r) = 35 :: unescape_hash r.
Proof. reflexivity. Qed.

Lemma uh_bs_other d r : d <> 35 -> unescape_hash (92 :: d :: r) = 92 :: unescape_hash (d :: r).
Proof.
  intro H. cbn [unescape_hash]. destruct (N.eqb_spec d 35); [congruence|]. reflexivity.
Qed.

Lemma uh_cons_nohash c r : peek_is r 35 = false -> unescape_hash (c :: r) = c :: unescape_hash r.
Proof.
  intro H. cbn [unescape_hash]. destruct r as [|d r']; [reflexivity|].
  cbn [peek_is] in H. rewrite H, andb_false_r. reflexivity.
Qed.

Lemma uh_app_safe plain r : forallb comment_safe plain = true ->
  unescape_hash (plain ++ r) = plain ++ unescape_hash r.
Proof.
  induction plain as [|c p IH]; intro H; [reflexivity|].
  simpl in H. apply andb_true_iff in H as [Hc Hp].
  cbn [app]. rewrite uh_cons_ne; [rewrite IH by exact Hp; reflexivity|].
  intros ->. vm_compute in Hc. discriminate.
Qed.

Lemma comment_safe_false c : comment_safe c = false -> c = 92 \/ c = 35 \/ c = 91 \/ c = 10.
Proof.
  unfold comment_safe, unescape_unsafe_spec. cbn [in_set].
  destruct (N.eqb_spec 92 c); [auto|]. destruct (N.eqb_spec 35 c); [auto|].
  destruct (N.eqb_spec 91 c); [auto|]. destruct (N.eqb_spec 10 c); [auto|]. discriminate.
Qed.

Lemma comment_safe_hash : comment_safe 35 = false.
Proof. reflexivity. Qed.

Definition uc_exact (s main comment : str) : Prop :=
  exists pre, s = pre ++ comment /\ main = unescape_hash pre /\
    (comment = [] \/ exists t, comment = 35 :: t) /\ peek_is pre 35 = false.

Definition uc_post (s : str) (x : res (str * str)) : Prop :=
  match x with
  | Ok (main, comment) => uc_exact s main comment
  | Panic => In 10 s
  | OutOfFuel => False
  end.

Lemma unescape_comment_loop_post : forall fuel s, (length s < fuel)%nat ->
  uc_post s (unescape_comment_loop fuel s).
Proof.
  induction fuel as [|f IH]; intros s Hf; [lia|].
  cbn [unescape_comment_loop].
  (* `goto again` after inp has been read and w written *)
  assert (Again : forall inp w r, s = inp ++ r -> inp <> [] -> peek_is inp 35 = false ->
    (forall pre, peek_is pre 35 = false -> unescape_hash (inp ++ pre) = w ++ unescape_hash pre) ->
    uc_post s ('(m, c) <- unescape_comment_loop f r ;; Ok (w ++ m, c))).
  { intros inp w r -> Hne Hnh Hu.
    assert (Hr : uc_post r (unescape_comment_loop f r)).
    { apply IH. rewrite app_length in Hf. destruct inp; [congruence|simpl in Hf; lia]. }
    destruct (unescape_comment_loop f r) as [[m c]| |]; cbn [bind uc_post] in *;
      [|exact Hr|apply in_or_app; right; exact Hr].
    destruct Hr as (pre & -> & -> & Hc & Hp). exists (inp ++ pre).
    split; [apply app_assoc|]. split; [symmetry; apply Hu; exact Hp|].
    split; [exact Hc|]. destruct inp; [congruence|exact Hnh]. }
  unfold next_bytes.
  pose proof (span_app comment_safe s) as Eq. pose proof (span_all comment_safe s) as Hall.
  pose proof (span_rest_head comment_safe s) as Hhd.
  destruct (span comment_safe s) as [[|p0 plain] r]; cbn [fst snd app] in *.
  2:{ apply (Again (p0 :: plain) (p0 :: plain) r (eq_sym Eq)); [discriminate| |intros pre _; apply uh_app_safe, Hall].
    cbn [peek_is]. destruct (N.eqb_spec p0 35) as [->|]; [discriminate Hall|reflexivity]. }
  subst r.
  destruct (skip_string [92; 35] s) as [r1|] eqn:E1.
  { apply skip_string_some in E1. apply (Again [92; 35] [35] r1 E1); [discriminate|reflexivity|reflexivity]. }
  destruct (peek_is s 92 && (2 <=? length s)%nat) eqn:E2.
  { apply andb_true_iff in E2 as [Hp Hl]. apply Nat.leb_le in Hl.
    destruct s as [|c [|d r2]]; simpl in Hl; try lia.
    apply N.eqb_eq in Hp. subst c.
    change (skip 2 (92 :: d :: r2)) with (Ok r2). cbn [bind firstn].
    assert (Hd : d <> 35) by (intros ->; discriminate E1).
    apply (Again [92; d] [92; d] r2 eq_refl); [discriminate|reflexivity|].
    intros pre Hpre. cbn [app]. rewrite uh_bs_other, (uh_cons_nohash d pre Hpre) by exact Hd. reflexivity. }
  destruct (skip_byte 92 s) as [r3|] eqn:E3.
  { (* a single backslash at the very end *)
    apply skip_byte_some in E3. destruct r3 as [|x r3']; [|subst s; simpl in E2; discriminate].
    apply (Again [92] [92] [] E3); [discriminate|reflexivity|].
    intros pre Hpre. apply uh_cons_nohash, Hpre. }
  destruct (skip_string [91; 35] s) as [r4|] eqn:E4.
  { apply skip_string_some in E4. apply (Again [91; 35] [91; 35] r4 E4); [discriminate|reflexivity|].
    intros pre _. cbn [app]. rewrite !uh_cons_ne by discriminate. reflexivity. }
  destruct (skip_byte 91 s) as [r5|] eqn:E5.
  { apply skip_byte_some in E5. apply (Again [91] [91] r5 E5); [discriminate|reflexivity|].
    intros pre _. apply uh_cons_ne. discriminate. }
  destruct s as [|c t]; [exists []; repeat split; auto|].
  destruct (comment_safe_false c Hhd) as [-> | [-> | [-> | ->]]]; try discriminate.
  - exists []. repeat split; eauto.
  - left; reflexivity.
Qed.

Lemma unescape_comment_post s : uc_post s (unescape_comment s).
Proof. unfold unescape_comment. apply unescape_comment_loop_post. lia. Qed.

Lemma unescape_comment_exact s main comment : unescape_comment s = Ok (main, comment) ->
  exists pre, s = pre ++ comment /\ main = unescape_hash pre /\ (comment = [] \/ exists t, comment = 35 :: t).
Proof.
  intro H. pose proof (unescape_comment_post s) as P. rewrite H in P.
  destruct P as (pre & H1 & H2 & H3 & _). exists pre; auto.
Qed.

Lemma unescape_comment_total s : ~ In 10 s -> exists main comment, unescape_comment s = Ok (main, comment).
Proof.
  intro Hn. pose proof (unescape_comment_post s) as P.
  destruct (unescape_comment s) as [[m c]| |]; cbn [uc_post] in P; [eauto|contradiction|contradiction].
Qed.

Lemma unescape_comment_fuel s : unescape_comment s <> OutOfFuel.
Proof.
  pose proof (unescape_comment_post s) as P. intro H. rewrite H in P. exact P.
Qed.

Definition comment_tail (r : split_result) : str :=
  if sr_has_comment r then 35 :: sr_comment r else [].

Lemma split_inv text trim r : split text trim = Ok r ->
  exists pre comment, text = pre ++ comment /\ (comment = [] \/ exists t, comment = 35 :: t) /\
    (trim = true -> peek_is pre 35 = false) /\
    r = let mws := if trim then unescape_hash pre else pre in
        mk_split (rtrim_hspace mws) (skipn (length (rtrim_hspace mws)) mws) (nonempty comment)
          (if nonempty comment then skipn 1 comment else comment).
Proof.
  unfold split. destruct (peek_is text 9); [discriminate|]. destruct trim.
  - pose proof (unescape_comment_post text) as P.
    destruct (unescape_comment text) as [[mws comment]| |]; cbn [bind]; try discriminate.
    destruct P as (pre & -> & -> & Hc & Hnh). intros [= <-]. exists pre, comment. auto.
  - cbn [bind]. intros [= <-]. exists text, []. rewrite app_nil_r. repeat split; auto. discriminate.
Qed.

Lemma split_recombines text trim r : split text trim = Ok r ->
  exists pre, text = pre ++ comment_tail r /\
    (if trim then unescape_hash pre else pre) = sr_main r ++ sr_space_before_comment r /\
    forallb is_hspace (sr_space_before_comment r) = true /\
    rtrim_hspace (sr_main r ++ sr_space_before_comment r) = sr_main r /\
    (sr_has_comment r = false -> sr_comment r = []).
Proof.
  intro H. destruct (split_inv _ _ _ H) as (pre & comment & -> & Hc & _ & ->). clear H.
  exists pre. unfold comment_tail. cbn.
  destruct (rtrim_hspace_cut (if trim then unescape_hash pre else pre)) as [<- Hsp].
  repeat split; [|exact Hsp|destruct comment; [reflexivity|discriminate]].
  destruct Hc as [->|(t & ->)]; reflexivity.
Qed.

Lemma split_comment_line t sr : split (35 :: t) true = Ok sr -> sr = mk_split [] [] true t.
Proof.
  intro H. destruct (split_inv _ _ _ H) as ([|x pre] & comment & E & _ & Hnh & ->).
  - cbn [app] in E. subst comment. reflexivity.
  - injection E as <- _. discriminate (Hnh eq_refl).
Qed.

Lemma split_total text trim : ~ In 10 text -> peek_is text 9 = false -> exists r, split text trim = Ok r.
Proof.
  intros Hn Ht. unfold split. rewrite Ht. destruct trim.
  - destruct (unescape_comment_total text Hn) as (m & c & ->). cbn [bind]. eauto.
  - cbn [bind]. eauto.
Qed.

Lemma split_fuel text trim : split text trim <> OutOfFuel.
Proof.
  unfold split. destruct (peek_is text 9); [discriminate|]. destruct trim; cbn [bind]; [|discriminate].
  pose proof (unescape_comment_fuel text). destruct (unescape_comment text) as [[m c]| |]; cbn [bind]; congruence.
Qed.

Lemma parse_other_step_ok n : step_ok parse_other_step n.
Proof. apply orelse_ok; [apply st_string_ok; discriminate|apply st_bytes_ok]. Qed.

Lemma parse_other_none s : parse_other_step s = Ok None -> s = [] \/ exists t, s = 36 :: t.
Proof.
  unfold parse_other_step, orelse, st_string, st_bytes.
  destruct (skip_string [36; 36] s); [discriminate|].
  destruct s as [|c t]; [auto|]. cbn [span].
  destruct (N.eqb_spec c 36) as [->|]; [right; eauto|].
  cbn [negb]. destruct (span (fun b => negb (b =? 36)) t). discriminate.
Qed.

Definition starts_dollar_or_empty (s : str) : Prop :=
  match s with [] => True | c :: _ => c = 36 end.

(* a round chops off an expression (k), or the longest text without a lone `$`, or a lone `$` *)
Lemma tokenize_round (E : exprfn) n : step_ok E n -> forall f c t, (length (c :: t) <= n)%nat ->
  exists k r, chops (c :: t) r /\
    tokenize_loop E (S f) (c :: t) =
      (toks <- tokenize_loop E f r ;; Ok ((since (c :: t) r, k) :: toks)) /\
    (if k : bool then E (c :: t) = Ok (Some r)
     else E (c :: t) = Ok None /\ (c :: t = 36 :: r \/ starts_dollar_or_empty r)).
Proof.
  intros HE f c t Hn. cbn [tokenize_loop].
  destruct (HE (c :: t) Hn) as [-> | (s1 & -> & C)]; cbn [bind]; [|exists true, s1; auto].
  destruct (loop_ok _ n _ (c :: t) (parse_other_step_ok n) Hn (is_suffix_refl _)) as (s1 & -> & S1 & N1).
  cbn [bind]. apply parse_other_none in N1.
  destruct (since (c :: t) s1) as [|x other] eqn:Es.
  - apply (since_nil _ _ S1) in Es. subst s1.
    destruct N1 as [?|(t' & [= -> ->])]; [discriminate|]. cbn [skip_byte]. rewrite N.eqb_refl.
    exists false, t'. rewrite since_cons. auto using chops_cons.
  - exists false, s1. rewrite Es. split; [apply since_nonempty_chops; [exact S1|congruence]|].
    repeat split. right. destruct N1 as [->|(t' & ->)]; [exact I|reflexivity].
Qed.

Lemma tokenize_loop_ok (E : exprfn) n : step_ok E n ->
  forall fuel s, (length s <= n)%nat -> (length s < fuel)%nat ->
  exists toks, tokenize_loop E fuel s = Ok toks /\ partitions toks [] s.
Proof.
  intros HE. induction fuel as [|f IH]; intros s Hn Hf; [lia|].
  destruct s as [|c t]; [exists []; split; [reflexivity|apply partitions_nil]|].
  destruct (tokenize_round E n HE f c t Hn) as (k & r & C & -> & _).
  pose proof (chops_length _ _ C).
  destruct (IH r) as (toks & -> & P); [lia..|].
  cbn [bind]. eauto using partitions_chops.
Qed.

Lemma tokenize_partition s : exists toks, tokenize s = Ok toks /\ partitions toks [] s.
Proof. unfold tokenize. apply (tokenize_loop_ok Expr (length s) (Expr_ok _)); lia. Qed.

Lemma tokenize_first s t k rest : tokenize s = Ok ((t, k) :: rest) ->
  if k : bool then exists s', s = 36 :: s' else starts_dollar_or_empty (concat (map fst rest)).
Proof.
  unfold tokenize. destruct s as [|c0 s']; [discriminate|].
  destruct (tokenize_round Expr _ (Expr_ok _) (length (c0 :: s')) c0 s' (le_n _))
    as (k' & r & C & -> & Hk).
  destruct (tokenize_loop_ok Expr (length r) (Expr_ok _) (length (c0 :: s')) r (le_n _) (chops_length _ _ C))
    as (toks & -> & P & _).
  cbn [bind]. intros [= <- <- <-]. rewrite app_nil_r in P. rewrite P.
  destruct k'.
  - destruct (starts_expr (c0 :: s')) eqn:Se; [|apply Expr_none_iff in Se; congruence].
    destruct s' as [|c s'']; [discriminate|]. cbn [starts_expr] in Se.
    apply andb_true_iff in Se as [Se _]. apply N.eqb_eq in Se. subst c0. eauto.
  - destruct Hk as [Hn [[= -> ->]|Hr]]; [|exact Hr].
    apply Expr_none_iff in Hn. destruct r as [|c r']; [exact I|].
    cbn in Hn. destruct (N.eqb_spec c 36); [assumption|discriminate].
Qed.

Lemma tl_rest_new toks : tl_rest (tl_new toks) = concat (map fst toks).
Proof.
  unfold tl_new, tl_next, tl_rest. destruct toks as [|[text [|]] rest]; reflexivity.
Qed.

Lemma tl_next_expr_rest m t m' : tl_next_expr m = Some (t, m') ->
  snd t = true /\ tl_rest m = fst t ++ tl_rest m'.
Proof.
  unfold tl_next_expr. destruct m as [[|c cur] [|[text [|]] rest]]; try discriminate.
  intros [= <- <-]. split; [reflexivity|]. change (tl_next rest) with (tl_new rest). rewrite tl_rest_new. reflexivity.
Qed.

Lemma tl_skip_mixed_chopped : forall fuel k m m', tl_skip_mixed fuel k m = Ok m' ->
  exists c, tl_rest m = c ++ tl_rest m' /\ Z.of_nat (length c) = Z.max 0 k.
Proof.
  induction fuel as [|f IH]; intros k m m' H; [discriminate|].
  cbn [tl_skip_mixed] in H. destruct (Z.leb_spec k 0).
  { injection H as <-. exists []. split; [reflexivity|simpl; lia]. }
  destruct (tl_next_expr m) as [[[text e] m1]|] eqn:En.
  - destruct (Z.ltb_spec (k - Z.of_nat (length text)) 0); [discriminate|].
    apply tl_next_expr_rest in En as [_ ->]. destruct (IH _ _ _ H) as (c & -> & L).
    exists (text ++ c). rewrite app_assoc, app_length. split; [reflexivity|cbn [fst]; lia].
  - set (j := Z.min (Z.of_nat (length (fst m))) k) in *.
    destruct (Z.leb_spec j 0); [discriminate|].
    destruct (IH _ _ _ H) as (c & E & L). unfold tl_rest at 1 in E. cbn [fst snd] in E.
    exists (firstn (Z.to_nat j) (fst m) ++ c). split; [|rewrite app_length, firstn_length; lia].
    rewrite <- app_assoc, <- E, app_assoc, firstn_skipn. reflexivity.
Qed.

Lemma tl_skip_mixed_suffix fuel k m m' : tl_skip_mixed fuel k m = Ok m' ->
  is_suffix (tl_rest m') (tl_rest m).
Proof. intro H. destruct (tl_skip_mixed_chopped _ _ _ _ H) as (c & -> & _). apply is_suffix_app. Qed.

Lemma tl_skip_mixed_to fuel m m' v r : tl_rest m = v ++ r ->
  tl_skip_mixed fuel (Z.of_nat (length (tl_rest m)) - Z.of_nat (length r)) m = Ok m' -> tl_rest m' = r.
Proof.
  intros Hm H. destruct (tl_skip_mixed_chopped _ _ _ _ H) as (c & E & L).
  apply (suffix_same_length _ _ (tl_rest m)); [exists c; exact E|exists v; exact Hm|].
  apply (f_equal (@length N)) in E, Hm. rewrite app_length in E, Hm. lia.
Qed.

Lemma raw_value_align_loop_fuel : forall fuel r p, (length p < fuel)%nat ->
  raw_value_align_loop fuel r p <> OutOfFuel.
Proof.
  induction fuel as [|f IH]; intros r p Hf; [lia|].
  cbn [raw_value_align_loop]. destruct p as [|pch p1]; [discriminate|].
  destruct (match r with rch :: _ => pch =? rch | [] => false end).
  - unfold skip. destruct (1 <=? length r)%nat; cbn [bind]; [|discriminate]. apply IH. simpl in Hf. lia.
  - destruct (is_hspace pch) eqn:Hh.
    + apply IH. unfold next_bytes. cbn [span]. rewrite Hh.
      pose proof (span_length is_hspace p1). destruct (span is_hspace p1). simpl in *. lia.
    + destruct (negb (pch =? 35)); [discriminate|].
      destruct (skip_string [92; 35] r); [|discriminate]. apply IH. simpl in Hf. lia.
Qed.

Lemma get_raw_value_align_post raw parsed :
  match get_raw_value_align raw parsed with
  | Ok ra => exists r, raw = ra ++ r
  | Panic => True
  | OutOfFuel => False
  end.
Proof.
  unfold get_raw_value_align.
  pose proof (raw_value_align_loop_fuel (S (length parsed)) raw parsed ltac:(lia)) as F.
  destruct (raw_value_align_loop (S (length parsed)) raw parsed) as [r| |] eqn:E; cbn [bind]; [|congruence|exact I].
  exists (skipn (length raw - length r) raw). unfold since. symmetry. apply firstn_skipn.
Qed.
