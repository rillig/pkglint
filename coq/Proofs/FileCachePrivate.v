(* Lines handed out by FileCache.Get stay private to the caller: the cache never
   holds a Line object of a view that was served from the cache, at any later
   point of the run.  (The view of a cache MISS is what Put stores: that aliasing
   is the subject of C20_load_transparent_refuted.) *)
From PV Require Import Lib.Bytes Model.FileCache
  Proofs.FileCacheLists Proofs.FileCacheWf Proofs.FileCacheInv Proofs.FileCache.
From Coq Require Import Arith Lia.
Open Scope N_scope.
Arguments map_set : simpl never.

Definition addr_cached (s : state) (a : nat) : Prop :=
  exists eid, In eid (c_table (st_cache s)) /\ In a (e_lines (entry_at (c_store (st_cache s)) eid)).

Section Private.
Variable convert : str -> N -> list lval.
Variable is_mk : N -> bool.

Notation reach := (reach convert is_mk).
Notation load := (load convert is_mk).
Notation step := (step convert is_mk).
Notation Inv := (Inv convert).

Lemma cached_lt s a : Inv s -> addr_cached s a -> (a < length (st_heap s))%nat.
Proof.
  intros I (eid & Hin & Hl).
  destruct (inv_first _ _ I _ Hin) as (v & fn & V & _).
  destruct (inv_views _ _ I _ _ _ _ V Hl); auto.
Qed.

Lemma kept_cached s c' a : kept (st_cache s) c' ->
  (exists eid, In eid (c_table c') /\ In a (e_lines (entry_at (c_store c') eid))) -> addr_cached s a.
Proof.
  intros [_ K] (eid & Hin & Ha). destruct (K _ Hin) as [Hin0 HS]. apply shape_eq in HS.
  exists eid. split; auto. destruct HS as (_ & _ & <-). auto.
Qed.

Lemma load_cached s fn o s' r : Inv s -> load s fn o = Ok (s', r) ->
  forall a, addr_cached s' a ->
    addr_cached s a \/
    ((forall eid, map_get (key fn) (c_map (st_cache s)) = Some eid ->
                  e_opts (entry_at (c_store (st_cache s)) eid) <> o) /\
     (length (st_heap s) <= a)%nat).
Proof.
  intros I L a Hc.
  destruct (load_spec convert is_mk s fn o (inv_wf _ _ I) (inv_cap _ _ I))
    as (c' & _ & _ & [(eid & _ & _ & K & L')|(M & H)]).
  - rewrite L' in L. injection L as <- _. left. eapply kept_cached; eauto.
  - destruct (fresh_lines convert (st_disk s) fn o) as [nl|]; destruct H as [K L']; rewrite L' in L.
    + injection L as <- _. destruct Hc as (eid & Hin & Ha). simpl in Hin, Ha.
      destruct (K _ Hin) as [[Hin0 HS]|HE].
      * left. apply shape_eq in HS. exists eid. split; auto. destruct HS as (_ & _ & <-). auto.
      * right. split; auto. rewrite HE in Ha. apply in_seq in Ha. lia.
    + destruct (has_opt o MustSucceed); [discriminate|]. injection L as <- _. left. eapply kept_cached; eauto.
Qed.

Lemma step_cached md s o s' ob : Inv s -> step md s o = Ok (s', ob) ->
  forall a, (a < length (st_heap s))%nat -> addr_cached s' a -> addr_cached s a.
Proof.
  intros I St a Ha Hc. destruct (step_cases _ _ _ _ _ _ _ St) as [(fn & opts & r & -> & L)|[_ (ks & E)]].
  - destruct (load_cached _ _ _ _ _ I L a Hc) as [|[_ Hge]]; auto. lia.
  - destruct (evicts_spec ks _ (inv_wf _ _ I)) as (_ & K & _). rewrite <- E in K.
    eapply kept_cached; eauto.
Qed.

Lemma step_views_keep md s o s' ob v x : step md s o = Ok (s', ob) ->
  nth_error (st_views s) v = Some x -> nth_error (st_views s') v = Some x.
Proof.
  intros St H. destruct (step_views convert is_mk _ _ _ _ _ St) as [->|(fn & st & n & ->)]; auto.
  apply nth_error_snoc_old; auto.
Qed.

Lemma run_keeps_private md v fn addrs h : forall s s2 obs w,
  Inv s -> nth_error (st_views s) v = Some (fn, addrs) ->
  (forall a, In a addrs -> ~ addr_cached s a) ->
  run convert is_mk md s h = (s2, obs, w) ->
  Inv s2 /\ nth_error (st_views s2) v = Some (fn, addrs) /\
  (forall a, In a addrs -> ~ addr_cached s2 a).
Proof.
  induction h as [|o t IH]; intros s s2 obs w I V P; simpl.
  - intros H; inversion H; subst; auto.
  - destruct (step md s o) as [[s1 ob]|w1] eqn:St.
    + destruct (run convert is_mk md s1 t) as [[s3 obs3] w3] eqn:Rn.
      intros H; inversion H; subst; clear H.
      eapply IH; [| |  |exact Rn].
      * apply (Inv_step _ _ _ _ _ _ _ I St).
      * eapply step_views_keep; eauto.
      * intros a Ha Hc. apply (P a Ha).
        eapply step_cached; eauto.
        destruct (inv_views _ _ I _ _ _ _ V Ha); auto.
    + intros H; inversion H; subst; auto.
Qed.

(* C20: the view of a Load served by FileCache.Get holds no Line object of the
   cache, then and at every later point of the run; so nothing done to these lines
   (fixes, Line.once marks) reaches what a later Get copies from *)
Theorem get_lines_private : forall md cap disk s fn o eid s1 v, (1 <= cap)%nat -> reach md cap disk s ->
  map_get (key fn) (c_map (st_cache s)) = Some eid ->
  e_opts (entry_at (c_store (st_cache s)) eid) = o ->
  load s fn o = Ok (s1, Some v) ->
  forall h s2 obs w, run convert is_mk md s1 h = (s2, obs, w) ->
  exists addrs, nth_error (st_views s2) v = Some (fn, addrs) /\
    (forall a, In a addrs -> ~ addr_cached s2 a) /\
    (forall u fu au a, u <> v -> nth_error (st_views s2) u = Some (fu, au) -> In a au -> ~ In a addrs).
Proof.
  intros md cap disk s fn o eid s1 v Hc R E Ho L h s2 obs w Rn.
  pose proof (reach_Inv _ _ _ _ _ _ Hc R) as I.
  destruct (fresh_lines_per_load convert is_mk md cap disk s fn o s1 v Hc R L) as (-> & addrs & V1 & Hnew & _).
  assert (I1 : Inv s1) by apply (Inv_load _ _ _ _ _ _ _ I L).
  assert (P1 : forall a, In a addrs -> ~ addr_cached s1 a).
  { intros a Ha Hca. destruct (Hnew a Ha) as [[Hge _] _].
    destruct (load_cached _ _ _ _ _ I L a Hca) as [Hold|[Hmiss _]].
    - pose proof (cached_lt _ _ I Hold). lia.
    - apply (Hmiss eid E Ho). }
  destruct (run_keeps_private md _ _ _ h s1 s2 obs w I1 V1 P1 Rn) as (I2 & V2 & P2).
  exists addrs. split; auto. split; auto.
  intros u fu au a Hne U Ha Hin. apply Hne. eapply (inv_disj _ _ I2); eauto.
Qed.

End Private.
