(* C03: several in-memory views of one file.  A view = the lines of one load of
   the file; its history ends with a save.  Serial views (the second one is loaded
   from what the first one saved) compose; interleaved views (both loaded from the
   same bytes, saved one after the other) lose the first view's update. *)
From PV Require Import Lib.Bytes Spec.ApplyLog Model.Autofix Proofs.ApplyLog Proofs.Autofix.
From Coq Require Import Lia.
Open Scope Z_scope.

Definition view_run (o : opts) (file content : str) (groups : list (list str * str)) (evs : list event)
  : result state := run o [] (evs ++ [ESave]) (init_state file groups).

Definition view_disk (file before : str) (st : state) : str := disk_after file before None (s_ops st).

(* [serial content log final n]: n+1 views one after the other, each loaded from what
   the previous one saved; [log] = the concatenated AUTOFIX lines, [final] = the bytes at the end *)
Inductive serial (o : opts) (file : str) : str -> list entry -> str -> nat -> Prop :=
| serial_one content groups evs st :
    wf_groups content groups -> Forall no_sort_event evs ->
    view_run o file content groups evs = Ok st ->
    serial o file content (entries_of file (s_log st)) (view_disk file content st) 0
| serial_cons content groups evs st log final n :
    wf_groups content groups -> Forall no_sort_event evs ->
    view_run o file content groups evs = Ok st ->
    entries_of file (s_log st) <> [] -> log <> [] ->
    serial o file (view_disk file content st) log final n ->
    serial o file content (entries_of file (s_log st) ++ log) final (S n).

Theorem multi_view_serial_n o file content log final n :
  o_autofix o = true -> serial o file content log final n ->
  consistent_hist n content log final = true.
Proof.
  intros Ha S. induction S as [content groups evs st W N R|content groups evs st log final n W N R NeA NeB S IH].
  - cbn [consistent_hist]. rewrite orb_false_r.
    exact (disk_consistent_with_log o [] file content groups evs st Ha W N R).
  - destruct (disk_reach o [] file content groups evs st Ha W N R) as (HsA & blocks & Re & Hflat).
    fold (view_disk file content st) in Hflat.
    set (la := entries_of file (s_log st)) in *.
    cbn [consistent_hist]. apply orb_true_iff. right.
    apply existsb_exists. exists (length la). split.
    + apply in_seq. rewrite app_length. destruct la; [congruence|]. destruct log; [congruence|]. cbn. lia.
    + rewrite firstn_app_exact, skipn_app_exact, HsA. cbn [negb andb].
      apply existsb_exists. exists blocks. split; [apply reach_run_log; exact Re|]. rewrite Hflat. exact IH.
Qed.

Theorem multi_view_serial o file content groupsA evsA stA groupsB evsB stB :
  o_autofix o = true ->
  wf_groups content groupsA -> Forall no_sort_event evsA ->
  view_run o file content groupsA evsA = Ok stA ->
  let mid := view_disk file content stA in
  wf_groups mid groupsB -> Forall no_sort_event evsB ->
  view_run o file mid groupsB evsB = Ok stB ->
  entries_of file (s_log stA) <> [] -> entries_of file (s_log stB) <> [] ->
  consistent_hist 1 content (entries_of file (s_log stA) ++ entries_of file (s_log stB))
                  (view_disk file mid stB) = true.
Proof.
  intros Ha WA NA RA mid WB NB RB NeA NeB. apply (multi_view_serial_n o file content _ _ 1 Ha).
  apply (serial_cons o file content groupsA evsA stA _ _ 0 WA NA RA NeA NeB).
  exact (serial_one o file mid groupsB evsB stB WB NB RB).
Qed.

Definition multi_view_interleaved_full : Prop :=
  forall o file content groupsA evsA stA groupsB evsB stB,
    o_autofix o = true ->
    wf_groups content groupsA -> Forall no_sort_event evsA -> view_run o file content groupsA evsA = Ok stA ->
    wf_groups content groupsB -> Forall no_sort_event evsB -> view_run o file content groupsB evsB = Ok stB ->
    consistent_hist 2 content (entries_of file (s_log stA) ++ entries_of file (s_log stB))
                    (disk_after file content None (s_ops stA ++ s_ops stB)) = true.

Definition iv_file : str := [47;102]%N.
Definition iv_content : str := [97;10;98;10]%N.                                  (* "a\nb\n" *)
Definition iv_groups : list (list str * str) := [([[97;10]%N], [97]%N); ([[98;10]%N], [98]%N)].
Definition iv_evsA : list event := [ETxn (Txn 0 [68;46]%N [OReplaceAfter [] [97]%N [120]%N])].   (* a -> x in line 1 *)
Definition iv_evsB : list event := [ETxn (Txn 1 [68;46]%N [OReplaceAfter [] [98]%N [121]%N])].   (* b -> y in line 2 *)

(* the lost update: the disk holds "a\ny\n", the log says a->x in line 1 and b->y in line 2 *)
Theorem multi_view_interleaved_refuted : ~ multi_view_interleaved_full.
Proof.
  intro H.
  destruct (view_run (Opts true false []) iv_file iv_content iv_groups iv_evsA) as [stA|] eqn:RA;
    [|vm_compute in RA; discriminate].
  destruct (view_run (Opts true false []) iv_file iv_content iv_groups iv_evsB) as [stB|] eqn:RB;
    [|vm_compute in RB; discriminate].
  assert (W : wf_groups iv_content iv_groups).
  { split; [vm_compute; reflexivity|repeat constructor; discriminate]. }
  specialize (H (Opts true false []) iv_file iv_content iv_groups iv_evsA stA iv_groups iv_evsB stB
                eq_refl W ltac:(repeat constructor) RA W ltac:(repeat constructor) RB).
  vm_compute in RA. inversion RA; subst stA. vm_compute in RB. inversion RB; subst stB.
  vm_compute in H. discriminate.
Qed.
