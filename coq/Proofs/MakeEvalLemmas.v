(* Facts about the reference evaluator Spec/MakeEval.v: what an expansion and an
   assignment look at in the store, locality of assignments, and the behaviour
   of "plain" assignments (eager operators whose text contains no '$'). *)
From PV Require Import Lib.Bytes Spec.MakeEval.

Definition ext_eq (s1 s2 : store) : Prop := forall y, s1 y = s2 y.
Definition agree_off (x : str) (s1 s2 : store) : Prop := forall y, y <> x -> s1 y = s2 y.

Lemma str_eq_dec (a b : str) : {a = b} + {a <> b}.
Proof. apply list_eq_dec, N.eq_dec. Qed.

Lemma supd_same st k x : supd st k x k = Some x.
Proof. unfold supd. rewrite str_eqb_refl. reflexivity. Qed.

Lemma supd_other st k x y : y <> k -> supd st k x y = st y.
Proof. intro H. unfold supd. rewrite str_eqb_neq; [reflexivity|congruence]. Qed.

Lemma supd_agree s1 s2 k x y : (y <> k -> s1 y = s2 y) -> supd s1 k x y = supd s2 k x y.
Proof.
  intro H. destruct (str_eq_dec y k) as [->|Hn]; [rewrite !supd_same|rewrite !supd_other]; auto.
Qed.

Lemma tokenize_plain t : no_dollar t = true -> tokenize t = map TByte t.
Proof.
  unfold tokenize. induction t as [|c t IH]; simpl; intro H; [reflexivity|].
  apply andb_true_iff in H as [Hc Ht].
  apply negb_true_iff in Hc. rewrite Hc. f_equal. apply IH; exact Ht.
Qed.

Lemma expand_unfold fuel keep st ts :
  expand fuel keep st ts =
  match ts with
  | [] => Some []
  | TByte b :: r => match expand fuel keep st r with Some e => Some (b :: e) | None => None end
  | TBad :: _ => None
  | TRef x :: r =>
      match st x with
      | None =>
          match expand fuel keep st r with
          | Some e => Some ((if keep then ref_text x else []) ++ e)
          | None => None
          end
      | Some Err => None
      | Some (Txt t) =>
          match fuel with
          | O => None
          | S f =>
              match expand f keep st (tokenize t), expand fuel keep st r with
              | Some e, Some e' => Some (e ++ e')
              | _, _ => None
              end
          end
      end
  end.
Proof. destruct fuel; destruct ts as [|[b|x|] r]; reflexivity. Qed.

Lemma expand_bytes fuel keep st t : expand fuel keep st (map TByte t) = Some t.
Proof.
  induction t as [|c t IH]; rewrite expand_unfold; simpl map; cbv iota; [reflexivity|].
  rewrite IH. reflexivity.
Qed.

Lemma expand_plain fuel keep st t :
  no_dollar t = true -> expand fuel keep st (tokenize t) = Some t.
Proof. intro H. rewrite tokenize_plain by exact H. apply expand_bytes. Qed.

Lemma expand_agree (Q : str -> Prop) s1 s2 :
  (forall z, Q z -> s1 z = s2 z) ->
  (forall z t w, Q z -> s1 z = Some (Txt t) -> In (TRef w) (tokenize t) -> Q w) ->
  forall fuel keep ts, (forall w, In (TRef w) ts -> Q w) ->
  expand fuel keep s1 ts = expand fuel keep s2 ts.
Proof.
  intros Hag Hcl fuel. induction fuel as [fuel IHf] using lt_wf_ind. intros keep ts.
  induction ts as [|[b|x|] r IH]; intro Hts;
    rewrite (expand_unfold _ _ s1), (expand_unfold _ _ s2); try reflexivity.
  - rewrite IH; [reflexivity|]. intros w Hw. apply Hts. right. exact Hw.
  - assert (Hx : Q x) by (apply Hts; left; reflexivity).
    rewrite <- (Hag x Hx), IH by (intros w Hw; apply Hts; right; exact Hw).
    destruct (s1 x) as [[t|]|] eqn:Ex; try reflexivity.
    destruct fuel as [|f]; [reflexivity|].
    rewrite (IHf f (Nat.lt_succ_diag_r f) keep (tokenize t)); [reflexivity|].
    intros w Hw. exact (Hcl x t w Hx Ex Hw).
Qed.

Lemma expand_ext fuel keep s1 s2 ts :
  ext_eq s1 s2 -> expand fuel keep s1 ts = expand fuel keep s2 ts.
Proof. intro H. apply (expand_agree (fun _ => True)); auto. Qed.

Lemma final_ext_stores fuel s1 s2 x :
  ext_eq s1 s2 -> expand (S fuel) false s1 [TRef x] = expand (S fuel) false s2 [TRef x].
Proof. intro H. apply expand_ext; exact H. Qed.

Lemma exec_assign_other fuel st a y :
  y <> s_name a -> exec_assign fuel st a y = st y.
Proof.
  intro H. unfold exec_assign. destruct (s_op a).
  - apply supd_other; exact H.
  - destruct (st (s_name a)) as [[old|]|]; try (apply supd_other; exact H). reflexivity.
  - destruct (st (s_name a)); [reflexivity|apply supd_other; exact H].
  - destruct (expand fuel true _ (tokenize (s_text a))); apply supd_other; exact H.
  - destruct (expand fuel false st (tokenize (s_text a))); apply supd_other; exact H.
Qed.

(* the store in which ':=' expands its text *)
Definition eval_base (st : store) (x : str) : store :=
  match st x with None => supd st x (Txt []) | Some _ => st end.

Lemma eval_base_agree s1 s2 x y :
  s1 x = s2 x -> (y <> x -> s1 y = s2 y) -> eval_base s1 x y = eval_base s2 x y.
Proof.
  intros Hx Hy. unfold eval_base. rewrite <- Hx. destruct (s1 x) eqn:E; [|apply supd_agree; exact Hy].
  destruct (str_eq_dec y x) as [->|Hn]; [congruence|auto].
Qed.

Lemma exec_assign_cong fuel s1 s2 a y :
  (y <> s_name a -> s1 y = s2 y) ->
  (s_op a = SAppend \/ s_op a = SDefault -> s1 (s_name a) = s2 (s_name a)) ->
  (s_op a = SEval -> expand fuel true (eval_base s1 (s_name a)) (tokenize (s_text a)) =
                     expand fuel true (eval_base s2 (s_name a)) (tokenize (s_text a))) ->
  (s_op a = SShell -> expand fuel false s1 (tokenize (s_text a)) = expand fuel false s2 (tokenize (s_text a))) ->
  exec_assign fuel s1 a y = exec_assign fuel s2 a y.
Proof.
  intros Hy Hold Hev Hsh.
  assert (Hkept : s1 (s_name a) = s2 (s_name a) -> s1 y = s2 y).
  { intro E. destruct (str_eq_dec y (s_name a)) as [->|Hn]; auto. }
  unfold exec_assign. cbv zeta. fold (eval_base s1 (s_name a)) (eval_base s2 (s_name a)).
  destruct (s_op a).
  - apply supd_agree; exact Hy.
  - rewrite <- Hold by auto.
    destruct (s1 (s_name a)) as [[old|]|]; auto using supd_agree.
  - rewrite <- Hold by auto. destruct (s1 (s_name a)); auto using supd_agree.
  - rewrite Hev by reflexivity. destruct (expand fuel true (eval_base s2 _) _); apply supd_agree; exact Hy.
  - rewrite Hsh by reflexivity. destruct (expand fuel false s2 _); apply supd_agree; exact Hy.
Qed.

Lemma exec_assign_ext fuel s1 s2 a :
  ext_eq s1 s2 -> ext_eq (exec_assign fuel s1 a) (exec_assign fuel s2 a).
Proof.
  intros H y. apply exec_assign_cong; intros; auto; apply expand_ext; auto.
  intro z. apply eval_base_agree; auto.
Qed.

Definition exec_from (fuel : nat) (st : store) (p : sprogram) : store :=
  fold_left (exec_line fuel) p st.

Lemma exec_is_exec_from fuel p : exec fuel p = exec_from fuel empty_store p.
Proof. reflexivity. Qed.

Lemma exec_from_app fuel st p q :
  exec_from fuel st (p ++ q) = exec_from fuel (exec_from fuel st p) q.
Proof. unfold exec_from. apply fold_left_app. Qed.

Lemma exec_line_ext fuel s1 s2 l :
  ext_eq s1 s2 -> ext_eq (exec_line fuel s1 l) (exec_line fuel s2 l).
Proof. intro H. destruct l as [a|]; simpl; [apply exec_assign_ext; exact H|exact H]. Qed.

Lemma exec_from_ext fuel p : forall s1 s2,
  ext_eq s1 s2 -> ext_eq (exec_from fuel s1 p) (exec_from fuel s2 p).
Proof.
  induction p as [|l p IH]; intros s1 s2 H; simpl; [exact H|].
  apply IH. apply exec_line_ext; exact H.
Qed.

Definition sassigns (x : str) (l : option sassign) : bool :=
  match l with Some a => str_eqb (s_name a) x | None => false end.

Lemma exec_line_other fuel st l y :
  sassigns y l = false -> exec_line fuel st l y = st y.
Proof.
  destruct l as [a|]; simpl; [|reflexivity]. intro H.
  apply exec_assign_other. intro E. subst y. rewrite str_eqb_refl in H. discriminate.
Qed.

Definition splain (l : option sassign) : bool :=
  match l with
  | Some a => match s_op a with SEval | SShell => no_dollar (s_text a) | _ => true end
  | None => true
  end.

Definition plain_step (old : option sval) (a : sassign) : option sval :=
  match s_op a with
  | SAssign => Some (Txt (s_text a))
  | SAppend => match old with
               | None => Some (Txt (s_text a))
               | Some (Txt o) => Some (Txt (o ++ [32] ++ s_text a))
               | Some Err => Some Err
               end
  | SDefault => match old with None => Some (Txt (s_text a)) | Some v => Some v end
  | SEval => Some (Txt (s_text a))
  | SShell => Some (Txt (sh_output (s_text a)))
  end.

Lemma exec_assign_plain_at fuel st a :
  splain (Some a) = true -> exec_assign fuel st a (s_name a) = plain_step (st (s_name a)) a.
Proof.
  intro Hp. unfold exec_assign, plain_step. simpl in Hp.
  destruct (s_op a); try rewrite expand_plain by exact Hp; try apply supd_same.
  - destruct (st (s_name a)) as [[o|]|] eqn:E; try apply supd_same. exact E.
  - destruct (st (s_name a)) as [v|] eqn:E; [exact E|apply supd_same].
Qed.

Lemma exec_assign_plain fuel st a :
  splain (Some a) = true ->
  forall y, exec_assign fuel st a y =
            if str_eqb (s_name a) y then plain_step (st (s_name a)) a else st y.
Proof.
  intros Hp y. destruct (str_eq_dec y (s_name a)) as [->|Hn].
  - rewrite str_eqb_refl. apply exec_assign_plain_at; exact Hp.
  - rewrite str_eqb_neq by congruence. apply exec_assign_other; exact Hn.
Qed.

Definition err_free (st : store) : Prop := forall y, st y <> Some Err.

Lemma exec_line_err_free fuel st l :
  splain l = true -> err_free st -> err_free (exec_line fuel st l).
Proof.
  intros Hp H y. destruct l as [a|]; simpl; [|apply H].
  rewrite (exec_assign_plain fuel _ a Hp).
  destruct (str_eqb (s_name a) y); [|apply H].
  unfold plain_step. specialize (H (s_name a)).
  destruct (s_op a); try discriminate; destruct (st (s_name a)) as [[o|]|]; try discriminate; congruence.
Qed.
