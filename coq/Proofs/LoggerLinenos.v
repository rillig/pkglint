(* C06 linenos_in_range: what Line.Linenos prints for the lines that the loader
   (files.go convertToLogicalLines, Model/Lines.v from C09) produces, for the two
   pseudo-lines (NewLineWhole, NewLineEOF) and what Autofix.affectedLinenos prints. *)
From PV Require Import Lib.Bytes Model.Lines Proofs.LinesLoop Model.Logger.
From Coq Require Import ZifyBool ZifyN ZifyNat.
Open Scope N_scope.

(* the Logger's view of a loaded line: NewLineMulti(filename, lineno, text, rawLines) *)
Definition of_loaded (id : N) (file : str) (l : Lines.line) : Logger.line :=
  Logger.mk_line id file (Z.of_N (Lines.lineno l)) (Lines.raws l).

(* NewLineWhole(filename) = NewLineMulti(filename, 0, "", nil); NewLineEOF: lineno -1 *)
Definition line_whole (id : N) (file : str) : Logger.line := Logger.mk_line id file 0%Z [].
Definition line_eof (id : N) (file : str) : Logger.line := Logger.mk_line id file (-1)%Z [].

Lemma dec_of_Z_of_N n : dec_of_Z (Z.of_N n) = dec_of_N n.
Proof. destruct n; reflexivity. Qed.

Lemma loaded_raws_nonempty s mk ls e l :
  convert_to_logical_lines s mk = Ok (ls, e) -> In l ls -> (1 <= length (Lines.raws l))%nat.
Proof.
  intros H Hin. destruct mk.
  - destruct (in_split _ _ Hin) as (pre & post & ->).
    destruct (grouping_exact_mk s _ e H pre l post eq_refl) as (init & lst & -> & _).
    rewrite app_length. simpl. lia.
  - pose proof (grouping_exact_plain s ls e H) as G. rewrite Forall_forall in G.
    destruct (G l Hin) as (r & -> & _). simpl. lia.
Qed.

(* For every file content s, both loaders, every loaded line l: with
   n = the number of physical lines of the file, first = l's line number and
   last = first + (number of physical lines of l) - 1:  1 <= first <= last <= n,
   and Linenos prints "first" for a single physical line, else "first--last". *)
Theorem linenos_in_range s mk ls e :
  convert_to_logical_lines s mk = Ok (ls, e) ->
  forall l, In l ls -> forall id file,
    let n := N.of_nat (length (flat_map Lines.raws ls)) in
    let first := Lines.lineno l in
    let last := first + N.of_nat (length (Lines.raws l)) - 1 in
    1 <= first /\ first <= last /\ last <= n /\
    linenos (of_loaded id file l) =
      if Nat.eqb (length (Lines.raws l)) 1 then dec_of_N first
      else dec_of_N first ++ [45; 45] ++ dec_of_N last.
Proof.
  intros H l Hin id file n first last.
  pose proof (loaded_raws_nonempty s mk ls e l H Hin) as Hk.
  destruct (in_split _ _ Hin) as (pre & post & Hls).
  pose proof (numbering_exact_prop s mk ls e H pre l post Hls) as Hnum.
  assert (n = N.of_nat (length (flat_map Lines.raws pre)) + N.of_nat (length (Lines.raws l))
              + N.of_nat (length (flat_map Lines.raws post))) as Hn.
  { unfold n. rewrite Hls, flat_map_app. cbn [flat_map]. rewrite !app_length. lia. }
  unfold first, last in *. split; [lia|]. split; [lia|]. split; [lia|].
  unfold linenos, of_loaded. cbn [ln_lineno ln_raws].
  replace (Z.of_N (Lines.lineno l) =? -1)%Z with false by lia.
  replace (Z.of_N (Lines.lineno l) =? 0)%Z with false by lia.
  rewrite dec_of_Z_of_N.
  destruct (Nat.eqb (length (Lines.raws l)) 1); [reflexivity|].
  replace (Z.of_N (Lines.lineno l) + Z.of_nat (length (Lines.raws l)) - 1)%Z
    with (Z.of_N (Lines.lineno l + N.of_nat (length (Lines.raws l)) - 1)) by lia.
  rewrite dec_of_Z_of_N. reflexivity.
Qed.

(* the pseudo-lines print no number ("path: message") and "EOF" ("path:EOF: message") *)
Theorem linenos_pseudo id file :
  linenos (line_whole id file) = [] /\ linenos (line_eof id file) = [69; 79; 70].
Proof. split; reflexivity. Qed.

(* Autofix.affectedLinenos: when every action's line number is 0 ("no line") or lies in
   [lo, hi] (Describef: Location.Lineno(rawIndex) = first + rawIndex), the result is the
   line's own Linenos, or "a", or "a--b" with lo <= a < b <= hi *)
Theorem affected_linenos_in_range ln actions lo hi :
  (1 <= lo)%Z -> Forall (fun a : str * Z => snd a = 0%Z \/ (lo <= snd a <= hi)%Z) actions ->
  affected_linenos ln actions = linenos ln \/
  (exists a, (lo <= a <= hi)%Z /\ affected_linenos ln actions = dec_of_Z a) \/
  (exists a b, (lo <= a)%Z /\ (a < b)%Z /\ (b <= hi)%Z /\
               affected_linenos ln actions = dec_of_Z a ++ [45; 45] ++ dec_of_Z b).
Proof.
  intros Hlo Hact. unfold affected_linenos. destruct actions as [|a0 actions0] eqn:Ea; [left; reflexivity|].
  rewrite <- Ea in *. clear Ea a0 actions0.
  set (stepf := fun (fl : Z * Z) (a : str * Z) =>
                  let '(first, last) := fl in
                  let n := snd a in
                  if (n =? 0)%Z then (first, last)
                  else (if (last =? 0)%Z || (n <? first)%Z then n else first,
                        if (last =? 0)%Z || (last <? n)%Z then n else last)).
  assert (forall fl, (fl = (0, 0) \/ (lo <= fst fl /\ fst fl <= snd fl /\ snd fl <= hi))%Z ->
            let r := fold_left stepf actions fl in
            (r = (0, 0) \/ (lo <= fst r /\ fst r <= snd r /\ snd r <= hi))%Z) as Hinv.
  { induction Hact as [|a actions Ha Hact IH]; intros fl Hfl; [exact Hfl|].
    cbn [fold_left]. apply IH. destruct fl as [f l]. unfold stepf. cbn [fst snd] in *.
    destruct Ha as [Ha|Ha]; [rewrite Ha; exact Hfl|].
    destruct (snd a =? 0)%Z eqn:E0; [lia|].
    right. destruct Hfl as [Hfl|Hfl].
    - inversion Hfl; subst. cbn. lia.
    - destruct (l =? 0)%Z eqn:El; cbn [orb]; [lia|].
      destruct (snd a <? f)%Z eqn:E1, (l <? snd a)%Z eqn:E2; cbn [fst snd]; lia. }
  specialize (Hinv (0, 0)%Z (or_introl eq_refl)). cbv zeta in Hinv.
  change (fold_left _ actions (0%Z, 0%Z)) with (fold_left stepf actions (0, 0)%Z).
  destruct (fold_left stepf actions (0, 0)%Z) as [f l]. cbn [fst snd] in Hinv.
  destruct Hinv as [Hinv|Hinv].
  - inversion Hinv; subst. left. reflexivity.
  - replace (l =? 0)%Z with false by lia.
    destruct (f <? l)%Z eqn:E.
    + right. right. exists f, l. repeat split; lia.
    + right. left. exists f. split; [lia|reflexivity].
Qed.
