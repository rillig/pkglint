(* Model of the file cache of pkglint and of everything that can make it stale:
     /repo/v23/util.go    FileCache: NewFileCache, Put, removeOldEntries, Get, Evict, key
     /repo/v23/files.go   Load
     /repo/v23/line.go    Line, Line.Autofix
     /repo/v23/autofix.go NewAutofix, ReplaceAt, ReplaceAfter, InsertAbove, InsertBelow,
                          Delete, Apply (the `modified` flag only), SaveAutofixChanges
   One Gallina definition per Go function, same case structure.  No proofs here.

   The heap is explicit: Line objects live at addresses (positions of st_heap);
   a *Lines object is the list of the addresses of its lines.  FileCache.Put
   stores the caller's *Lines, so a cache entry and the first view of a file
   hold the SAME addresses; FileCache.Get allocates new Line objects but reads
   lineno, Text and raw of the cached objects at the time of the Get.
   RawLine.orignl is never assigned after construction, so raw lines are values.

   I/O errors while saving are an explicit argument of the save operation: the
   list `fail` of the files for which writing the temporary file or the rename
   fails (pre-existing *.pkglint.tmp, unwritable directory, full disk): such a
   file is evicted like every other changed file, but the disk keeps its content.

   Not modelled (assumptions, see docs/C20.md): the Logger output of Apply, --only
   (Autofix.skip() = false), int overflow of `count`,
   strings.Count on non-ASCII text with an empty pattern. *)
From PV Require Import Lib.Bytes.
Open Scope N_scope.

(* ---------- results ---------- *)

Inductive stop := PanicIndex | PanicAssert | Fatal.
(* PanicIndex: Go index out of range; PanicAssert: assert(...) failed;
   Fatal: Logger.TechFatalf (Load with MustSucceed) *)

Inductive res (A : Type) : Type :=
| Ok (a : A)
| Stop (w : stop).
Arguments Ok {A} a.
Arguments Stop {A} w.

Definition bind {A B} (r : res A) (f : A -> res B) : res B :=
  match r with Ok a => f a | Stop w => Stop w end.

(* ---------- lists as Go slices / maps ---------- *)

Fixpoint upd {A} (n : nat) (x : A) (l : list A) : list A :=
  match l, n with
  | [], _ => []
  | _ :: t, O => x :: t
  | h :: t, S n' => h :: upd n' x t
  end.

(* map[key]value with unique keys, as an association list *)
Fixpoint map_get {V} (k : N) (m : list (N * V)) : option V :=
  match m with
  | [] => None
  | (k', v) :: t => if k' =? k then Some v else map_get k t
  end.
Fixpoint map_del {V} (k : N) (m : list (N * V)) : list (N * V) :=
  match m with
  | [] => []
  | (k', v) :: t => if k' =? k then map_del k t else (k', v) :: map_del k t
  end.
Definition map_set {V} (k : N) (v : V) (m : list (N * V)) : list (N * V) :=
  (k, v) :: map_del k m.

(* ---------- strings: strings.Index, LastIndex, Count, replaceOnce ---------- *)

Fixpoint index_of (p s : str) : option nat :=
  if has_prefix p s then Some O else
  match s with
  | [] => None
  | _ :: s' => option_map S (index_of p s')
  end.

Fixpoint last_index_of (p s : str) : option nat :=
  match s with
  | [] => if has_prefix p [] then Some O else None
  | _ :: s' =>
    match last_index_of p s' with
    | Some i => Some (S i)
    | None => if has_prefix p s then Some O else None
    end
  end.

(* strings.Count for a non-empty pattern: non-overlapping occurrences, left to right *)
Fixpoint count_from (p s : str) (skip : nat) : nat :=
  match s with
  | [] => O
  | _ :: s' =>
    match skip with
    | S k => count_from p s' k
    | O => if has_prefix p s then S (count_from p s' (length p - 1)) else count_from p s' O
    end
  end.
Definition count_str (p s : str) : nat :=
  match p with
  | [] => S (length s)          (* ASCII: utf8.RuneCountInString(s) + 1 *)
  | _ => count_from p s O
  end.

(* util.go: replaceOnce *)
Definition replace_once (s from to : str) : bool * str :=
  match index_of from s, last_index_of from s with
  | Some i, Some j =>
    if Nat.eqb i j then (true, firstn i s ++ to ++ skipn (i + length from) s) else (false, s)
  | _, _ => (false, s)
  end.

(* ---------- file names, options, modes ---------- *)

(* A CurrPath is (file, spelling): two spellings of the same file ("a.mk",
   "./a.mk", "x/../a.mk") have the same key.  key = filename.Clean().String(). *)
Definition fname : Type := N * N.
Definition key (fn : fname) : N := fst fn.
Definition fname_eqb (a b : fname) : bool := (fst a =? fst b) && (snd a =? snd b).

(* LoadOptions bits *)
Definition MustSucceed : N := 0.
Definition NotEmpty : N := 1.
Definition Makefile : N := 2.
Definition LogErrors : N := 3.
Definition has_opt (o : N) (bit : N) : bool := N.testbit o bit.

Inductive mode := ModeDefault | ModeShowAutofix | ModeAutofix.
Definition opt_autofix (m : mode) : bool := match m with ModeAutofix => true | _ => false end.
(* Logger.IsAutofix: Opts.Autofix || Opts.ShowAutofix *)
Definition is_autofix (m : mode) : bool := match m with ModeDefault => false | _ => true end.

(* ---------- Line objects ---------- *)

Record fixrec := mkFix {
  fx_above : list str;
  fx_texts : list str;
  fx_below : list str;
  fx_modified : bool
}.

Record line := mkLine {
  ln_file : fname;
  ln_lineno : N;
  ln_text : str;
  ln_raw : list str;           (* orignl of each raw line, including "\n" *)
  ln_fix : option fixrec
}.

Definition dummy_line : line := mkLine (0, 0) 0 [] [] None.

(* what convertToLogicalLines computes for one logical line *)
Definition lval : Type := N * str * list str.

(* NewLineMulti(filename, lineno, text, raw) *)
Definition new_line (fn : fname) (v : lval) : line :=
  let '(no, text, raw) := v in mkLine fn no text raw None.

(* ---------- FileCache ---------- *)

Record entry := mkEntry {
  e_count : N;
  e_key : N;
  e_opts : N;
  e_lines : list nat           (* the *Lines object: addresses of its Line objects *)
}.

(* c_store: the fileCacheEntry objects (an entry id is a pointer);
   c_table: FileCache.table; c_map: FileCache.mapping; c_cap: cap(table) *)
Record cache := mkCache {
  c_store : list entry;
  c_table : list nat;
  c_map : list (N * nat);
  c_cap : nat;
  c_hits : N;
  c_misses : N
}.

Definition new_file_cache (size : nat) : cache := mkCache [] [] [] size 0 0.

Definition dummy_entry : entry := mkEntry 0 0 0 [].
Definition entry_at (st : list entry) (eid : nat) : entry := nth eid st dummy_entry.
Definition count_of (st : list entry) (eid : nat) : N := e_count (entry_at st eid).

(* sort.Slice(c.table, func(i, j) bool { return table[j].count < table[i].count }):
   descending by count; sort.Slice is not stable, any sorted permutation may
   come out.  The model takes the insertion sort; Proofs/FileCacheWf.v shows that
   what removeOldEntries does afterwards does not depend on the choice. *)
Fixpoint insert_desc (st : list entry) (x : nat) (l : list nat) : list nat :=
  match l with
  | [] => [x]
  | y :: t => if count_of st y <? count_of st x then x :: l else y :: insert_desc st x t
  end.
Definition sort_desc (st : list entry) (l : list nat) : list nat :=
  fold_right (insert_desc st) [] l.

(* the loop `for newLen > 0 && table[newLen-1].count == minCount`, on the reversed table *)
Fixpoint strip_min (st : list entry) (minc : N) (rt : list nat) (m : list (N * nat))
  : list nat * list (N * nat) :=
  match rt with
  | [] => ([], m)
  | x :: t =>
    if count_of st x =? minc
    then strip_min st minc t (map_del (e_key (entry_at st x)) m)
    else (rt, m)
  end.

Definition halve_entry (e : entry) : entry :=
  mkEntry (e_count e / 2) (e_key e) (e_opts e) (e_lines e).
Definition halve_all (st : list entry) (tbl : list nat) : list entry :=
  fold_left (fun s x => upd x (halve_entry (entry_at s x)) s) tbl st.

Definition remove_old_entries_sorted (c : cache) (sorted : list nat) : res cache :=
  match rev sorted with
  | [] => Stop PanicIndex                   (* c.table[len(c.table)-1] *)
  | lst :: _ =>
    let minc := count_of (c_store c) lst in
    let '(rkeep, m') := strip_min (c_store c) minc (rev sorted) (c_map c) in
    let keep := rev rkeep in
    Ok (mkCache (halve_all (c_store c) keep) keep m' (c_cap c) (c_hits c) (c_misses c))
  end.

Definition remove_old_entries (c : cache) : res cache :=
  remove_old_entries_sorted c (sort_desc (c_store c) (c_table c)).

(* FileCache.Put.  Since len(table) <= cap(table) always (capacity_respected),
   `append` never reallocates and cap(table) is constant. *)
Definition put (c : cache) (k o : N) (ls : list nat) : res cache :=
  match map_get k (c_map c) with
  | Some eid =>
    Ok (mkCache (upd eid (mkEntry 1 k o ls) (c_store c)) (c_table c) (c_map c)
                (c_cap c) (c_hits c) (c_misses c))
  | None =>
    bind (if Nat.eqb (length (c_table c)) (c_cap c) then remove_old_entries c else Ok c)
      (fun c1 =>
         let eid := length (c_store c1) in
         Ok (mkCache (c_store c1 ++ [mkEntry 1 k o ls]) (c_table c1 ++ [eid])
                     (map_set k eid (c_map c1)) (c_cap c1) (c_hits c1) (c_misses c1)))
  end.

Definition heap := list line.
Definition line_at (h : heap) (a : nat) : line := nth a h dummy_line.

(* FileCache.Get: on a hit, count++ and fresh Line objects that copy lineno and
   Text and share raw; they are appended to the heap. *)
Definition get (c : cache) (h : heap) (fn : fname) (o : N) : cache * heap * option (list nat) :=
  match map_get (key fn) (c_map c) with
  | Some eid =>
    let e := entry_at (c_store c) eid in
    if e_opts e =? o then
      let e' := mkEntry (e_count e + 1) (e_key e) (e_opts e) (e_lines e) in
      let fresh := map (fun a => let l := line_at h a in
                                 mkLine fn (ln_lineno l) (ln_text l) (ln_raw l) None)
                       (e_lines e) in
      (mkCache (upd eid e' (c_store c)) (c_table c) (c_map c) (c_cap c) (c_hits c + 1) (c_misses c),
       h ++ fresh,
       Some (seq (length h) (length fresh)))
    else
      (mkCache (c_store c) (c_table c) (c_map c) (c_cap c) (c_hits c) (c_misses c + 1), h, None)
  | None =>
    (mkCache (c_store c) (c_table c) (c_map c) (c_cap c) (c_hits c) (c_misses c + 1), h, None)
  end.

Fixpoint find_idx (x : nat) (l : list nat) : option nat :=
  match l with
  | [] => None
  | y :: t => if Nat.eqb y x then Some O else option_map S (find_idx x t)
  end.

(* table[i] = table[len-1]; table = table[:len-1] *)
Definition swap_remove (x : nat) (l : list nat) : list nat :=
  match find_idx x l with
  | None => l
  | Some i => removelast (upd i (last l O) l)
  end.

(* FileCache.Evict *)
Definition evict (c : cache) (k : N) : cache :=
  match map_get k (c_map c) with
  | None => c
  | Some eid =>
    mkCache (c_store c) (swap_remove eid (c_table c)) (map_del k (c_map c))
            (c_cap c) (c_hits c) (c_misses c)
  end.

(* ---------- the run state ---------- *)

(* st_pending is a ghost field (nothing in the Go code): the views through which
   a fix was made and which were not passed to SaveAutofixChanges since. *)
Record state := mkState {
  st_cache : cache;
  st_heap : heap;
  st_views : list (fname * list nat);     (* every *Lines handed out by Load, oldest first *)
  st_disk : list (N * str);               (* key -> content; absent = unreadable *)
  st_pending : list nat
}.

Definition init_state (cap : nat) (disk : list (N * str)) : state :=
  mkState (new_file_cache cap) [] [] disk [].

Section WithConvert.

(* convertToLogicalLines(filename, rawText, options&Makefile != 0), modelled elsewhere *)
Variable convert : str -> N -> list lval.
(* filename.HasSuffixText(".mk"), as a predicate on keys *)
Variable is_mk : N -> bool.

Definition is_empty (s : str) : bool := match s with [] => true | _ => false end.

(* files.go: Load.  Returns the id of the new view, or None for Go's nil. *)
Definition load (s : state) (fn : fname) (o : N) : res (state * option nat) :=
  let '(c1, h1, r) := get (st_cache s) (st_heap s) fn o in
  match r with
  | Some addrs =>
    Ok (mkState c1 h1 (st_views s ++ [(fn, addrs)]) (st_disk s) (st_pending s),
        Some (length (st_views s)))
  | None =>
    match map_get (key fn) (st_disk s) with
    | None =>
      if has_opt o MustSucceed then Stop Fatal
      else Ok (mkState c1 h1 (st_views s) (st_disk s) (st_pending s), None)
    | Some raw =>
      if is_empty raw && has_opt o NotEmpty then
        if has_opt o MustSucceed then Stop Fatal
        else Ok (mkState c1 h1 (st_views s) (st_disk s) (st_pending s), None)
      else
        let vals := convert raw o in
        let addrs := seq (length h1) (length vals) in
        let h2 := h1 ++ map (new_line fn) vals in
        bind (if is_mk (key fn) then put c1 (key fn) o addrs else Ok c1)
          (fun c2 =>
             Ok (mkState c2 h2 (st_views s ++ [(fn, addrs)]) (st_disk s) (st_pending s),
                 Some (length (st_views s))))
    end
  end.

End WithConvert.

(* ---------- Autofix ---------- *)

Inductive fixop :=
| FReplaceAt (ri ti : nat) (from to : str)
| FReplaceAfter (prefix from to : str)
| FInsertAbove (t : str)
| FInsertBelow (t : str)
| FDelete.

Definition nl : str := [10].
Definition is_nil (s : str) : bool := match s with [] => true | _ => false end.
Definition ends_with_nl (s : str) : bool := match rev s with c :: _ => c =? 10 | [] => false end.

(* autofix.go: NewAutofix *)
Definition new_autofix (l : line) : fixrec := mkFix [] (ln_raw l) [] false.
(* line.go: Line.Autofix *)
Definition autofix_of (l : line) : fixrec :=
  match ln_fix l with Some f => f | None => new_autofix l end.

(* the loop of ReplaceAfter over fix.texts: the first text in which replaceOnce succeeds *)
Fixpoint replace_first (texts : list str) (from to : str) : option (nat * str) :=
  match texts with
  | [] => None
  | t :: rest =>
    let '(ok, r) := replace_once t from to in
    if ok then Some (O, r)
    else match replace_first rest from to with
         | Some (i, r') => Some (S i, r')
         | None => None
         end
  end.

(* One fix operation.  Result: new Text, new fix record (without `modified`),
   and whether an action was described (len(fix.actions) > 0 at Apply). *)
Definition apply_fixop (md : mode) (text : str) (fx : fixrec) (op : fixop)
  : res (str * fixrec * bool) :=
  match op with
  | FReplaceAt ri ti from to =>
    if str_eqb from to then Stop PanicAssert else          (* assert(from != to) *)
    match nth_error (fx_texts fx) ri with
    | None => Stop PanicIndex                              (* fix.texts[rawIndex] *)
    | Some t =>
      if negb (Nat.ltb ti (length t)) then Stop PanicAssert        (* assert(textIndex < len(text)) *)
      else if negb (has_prefix from (skipn ti t)) then Stop PanicAssert
      else
        let replaced := firstn ti t ++ to ++ skipn (ti + length from) t in
        Ok (snd (replace_once text from to),
            mkFix (fx_above fx) (upd ri replaced (fx_texts fx)) (fx_below fx) (fx_modified fx),
            true)
    end
  | FReplaceAfter prefix from to =>
    let pf := prefix ++ from in
    let pt := prefix ++ to in
    let n := fold_left (fun acc t => (acc + count_str pf t)%nat) (fx_texts fx) O in
    if negb (Nat.eqb n 1) then Ok (text, fx, false)
    else match replace_first (fx_texts fx) pf pt with
         | None => Ok (text, fx, false)
         | Some (ri, replaced) =>
           if is_autofix md then
             Ok (snd (replace_once text pf pt),
                 mkFix (fx_above fx) (upd ri replaced (fx_texts fx)) (fx_below fx) (fx_modified fx),
                 true)
           else Ok (text, fx, true)
         end
  | FInsertAbove t =>
    Ok (text, mkFix (fx_above fx ++ [t ++ nl]) (fx_texts fx) (fx_below fx) (fx_modified fx), true)
  | FInsertBelow t =>
    (* an unterminated last line gets its newline first, once *)
    let texts :=
      match rev (fx_texts fx), fx_below fx with
      | lst :: before, [] =>
        if negb (is_nil lst) && negb (ends_with_nl lst) then rev ((lst ++ nl) :: before)
        else fx_texts fx
      | _, _ => fx_texts fx
      end in
    Ok (text, mkFix (fx_above fx) texts (fx_below fx ++ [t ++ nl]) (fx_modified fx), true)
  | FDelete =>
    Ok (text, mkFix (fx_above fx) (map (fun _ => []) (fx_texts fx)) (fx_below fx) (fx_modified fx),
        negb (Nat.eqb (length (fx_texts fx)) 0))
  end.

(* fix := line.Autofix(); fix.Notef(...); <op>; fix.Apply() on the Line object l.
   Apply's reset(): modified = true when an action was described. *)
Definition fix_line (md : mode) (l : line) (op : fixop) : res (line * bool) :=
  let fx := autofix_of l in
  if ln_lineno l <? 1 then Stop PanicAssert else          (* assertRealLine *)
  bind (apply_fixop md (ln_text l) fx op)
    (fun '(text', fx', acted) =>
       Ok (mkLine (ln_file l) (ln_lineno l) text' (ln_raw l)
                  (Some (mkFix (fx_above fx') (fx_texts fx') (fx_below fx')
                               (fx_modified fx' || acted))),
           acted)).

(* ---------- SaveAutofixChanges ---------- *)

Definition is_modified (l : line) : bool :=
  match ln_fix l with Some f => fx_modified f | None => false end.

Definition line_chunks (l : line) : list str :=
  match ln_fix l with
  | Some f => fx_above f ++ fx_texts f ++ fx_below f
  | None => ln_raw l
  end.

Fixpoint nodup_fname (l : list fname) : list fname :=
  match l with
  | [] => []
  | x :: t => if existsb (fname_eqb x) t then nodup_fname t else x :: nodup_fname t
  end.

Definition file_content (ls : list line) (fn : fname) : str :=
  concat (concat (map line_chunks (filter (fun l => fname_eqb (ln_file l) fn) ls))).

(* Returns the new cache and disk and the list of rewritten files.
   fail: the keys of the files whose rewrite fails (OpenFile(O_EXCL) / WriteString /
   Close / Chmod / Rename returns an error): the loop body is left with `continue`
   AFTER G.fileCache.Evict(filename), the file keeps its content. *)
Definition key_in (k : N) (l : list N) : bool := existsb (N.eqb k) l.
Definition save_lines (md : mode) (fail : list N) (c : cache) (disk : list (N * str)) (ls : list line)
  : cache * list (N * str) * list (N * str) :=
  if negb (opt_autofix md) then
    (* fast lane: evict the file of every line that carries a modified fix *)
    (fold_left (fun c l => if is_modified l then evict c (key (ln_file l)) else c) ls c, disk, [])
  else
    let changed := nodup_fname (map ln_file (filter is_modified ls)) in
    fold_left (fun '(c, d, w) fn =>
                 let content := file_content ls fn in
                 if key_in (key fn) fail
                 then (evict c (key fn), d, w)
                 else (evict c (key fn), map_set (key fn) content d, w ++ [(key fn, content)]))
              changed (c, disk, []).

(* ---------- operations of a run and what they show ---------- *)

Inductive op :=
| OLoad (fn : fname) (o : N)               (* Load(fn, o) *)
| OFix (v : nat) (i : nat) (f : fixop)     (* one fix transaction on line i of view v *)
| OSave (v : nat) (fail : list N)          (* SaveAutofixChanges(view v); writing the files in `fail` fails *)
| OModify (k : N) (c : option str).        (* write/remove the file, then G.fileCache.Evict *)

(* lineno, Text, raw, fix attached *)
Definition lobs : Type := N * str * list str * bool.
Definition obs_line (l : line) : lobs :=
  (ln_lineno l, ln_text l, ln_raw l, match ln_fix l with Some _ => true | None => false end).

Inductive obs :=
| ObsLoad (r : option (list lobs))
| ObsFix (acted : bool)
| ObsSave (written : list (N * str))
| ObsModify
| ObsBad.          (* the operation names a view or line that does not exist; nothing happens *)

Definition view_lines (s : state) (v : nat) : option (fname * list line) :=
  match nth_error (st_views s) v with
  | Some (fn, addrs) => Some (fn, map (line_at (st_heap s)) addrs)
  | None => None
  end.

Definition remove_nat (x : nat) (l : list nat) : list nat :=
  filter (fun y => negb (Nat.eqb y x)) l.

Section WithConvert2.
Variable convert : str -> N -> list lval.
Variable is_mk : N -> bool.

Definition step (md : mode) (s : state) (o : op) : res (state * obs) :=
  match o with
  | OLoad fn opts =>
    bind (load convert is_mk s fn opts)
      (fun '(s', r) =>
         Ok (s', ObsLoad (match r with
                          | Some v => option_map (fun p => map obs_line (snd p)) (view_lines s' v)
                          | None => None
                          end)))
  | OFix v i f =>
    match nth_error (st_views s) v with
    | None => Ok (s, ObsBad)
    | Some (_, addrs) =>
      match nth_error addrs i with
      | None => Ok (s, ObsBad)
      | Some a =>
        bind (fix_line md (line_at (st_heap s) a) f)
          (fun '(l', acted) =>
             Ok (mkState (st_cache s) (upd a l' (st_heap s)) (st_views s) (st_disk s)
                         (v :: remove_nat v (st_pending s)),
                 ObsFix acted))
      end
    end
  | OSave v fail =>
    match view_lines s v with
    | None => Ok (s, ObsBad)
    | Some (_, ls) =>
      let '(c', d', w) := save_lines md fail (st_cache s) (st_disk s) ls in
      Ok (mkState c' (st_heap s) (st_views s) d' (remove_nat v (st_pending s)), ObsSave w)
    end
  | OModify k c =>
    let d' := match c with Some x => map_set k x (st_disk s) | None => map_del k (st_disk s) end in
    Ok (mkState (evict (st_cache s) k) (st_heap s) (st_views s) d' (st_pending s), ObsModify)
  end.

(* the whole history; stops at the first panic / fatal *)
Fixpoint run (md : mode) (s : state) (h : list op) : state * list obs * option stop :=
  match h with
  | [] => (s, [], None)
  | o :: t =>
    match step md s o with
    | Stop w => (s, [], Some w)
    | Ok (s', ob) =>
      let '(s'', obs, w) := run md s' t in (s'', ob :: obs, w)
    end
  end.

End WithConvert2.

(* The protocol guard, as a ghost check: "each fixed view is saved before the
   file is loaded again". *)
Definition view_key (s : state) (v : nat) : option N :=
  match nth_error (st_views s) v with Some (fn, _) => Some (key fn) | None => None end.

Definition guard_step (s : state) (o : op) : bool :=
  match o with
  | OLoad fn _ =>
    forallb (fun v => match view_key s v with
                      | Some k => negb (k =? key fn)
                      | None => true
                      end) (st_pending s)
  | _ => true
  end.

(* ---------- the non-Makefile branch of convertToLogicalLines ----------
   strings.SplitAfter(rawText, "\n") without empty pieces; Text = TrimSuffix(raw, "\n");
   line numbers from 1.  Used to run the model (extraction, refutation witness);
   the theorems hold for every convert. *)
Fixpoint split_after_nl (s : str) (cur : str) : list str :=
  match s with
  | [] => match cur with [] => [] | _ => [rev cur] end
  | c :: s' => if c =? 10 then rev (c :: cur) :: split_after_nl s' [] else split_after_nl s' (c :: cur)
  end.
Definition trim_nl (s : str) : str :=
  match rev s with
  | c :: r => if c =? 10 then rev r else s
  | [] => s
  end.
Fixpoint number_from (n : N) (raws : list str) : list lval :=
  match raws with
  | [] => []
  | r :: t => (n, trim_nl r, [r]) :: number_from (n + 1) t
  end.
Definition convert_plain (raw : str) (o : N) : list lval := number_from 1 (split_after_nl raw []).
