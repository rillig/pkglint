(* File-system protocol machine (DESIGN.md section 4) and the save protocol of
   pkglint's autofix (C05).

   Go code modelled (one definition per function, same case structure):
     v23/path.go     CurrPath.WriteString -> os.WriteFile   = write_file (no longer used by the save)
                     CurrPath.Rename      -> os.Rename      = sys (Rename a b)
                     CurrPath.Chmod       -> os.Chmod       = sys (Chmod p m)
     v23/autofix.go  SaveAutofixChanges, loop over `changed` = save_one / run
     v23/pkglint.go  checkExecutable, fix.Custom             = chmod_fix
     v23/logging.go  Logger.TechErrorf                       = tech_error

   No proofs in this file. *)
From PV Require Import Lib.Bytes.
Open Scope N_scope.

(* ---------- the file system: finite map path -> (kind, bytes, mode) ---------- *)

Definition path := str.
(* what a directory entry is.  The save protocol itself only ever creates regular
   files; the other kinds occur as FOREIGN entries of the initial tree (in particular
   at a name F.pkglint.tmp).  For a directory f_data is [] (its members are entries of
   their own), for a symbolic link f_data is the link text (lstat view: the link itself,
   never its target). *)
Inductive kind := KReg | KDir | KSymlink.
Record file := mkfile { f_kind : kind; f_data : str; f_mode : N }.
Definition fsmap := list (path * file).

Fixpoint lookup (p : path) (m : fsmap) : option file :=
  match m with
  | [] => None
  | (q, f) :: m' => if str_eqb q p then Some f else lookup p m'
  end.

Fixpoint remove (p : path) (m : fsmap) : fsmap :=
  match m with
  | [] => []
  | (q, f) :: m' => if str_eqb q p then remove p m' else (q, f) :: remove p m'
  end.

Definition set (p : path) (f : file) (m : fsmap) : fsmap := (p, f) :: remove p m.

(* open file descriptors: fd -> current name of the inode it refers to
   (None: the inode has lost its name by unlink or by being renamed over).
   Every inode has at most one name: hard links are outside the model. *)
Definition fdtab := list (N * option path).

Fixpoint fd_lookup (fd : N) (t : fdtab) : option (option path) :=
  match t with
  | [] => None
  | (k, v) :: t' => if k =? fd then Some v else fd_lookup fd t'
  end.

Fixpoint fd_remove (fd : N) (t : fdtab) : fdtab :=
  match t with
  | [] => []
  | (k, v) :: t' => if k =? fd then fd_remove fd t' else (k, v) :: fd_remove fd t'
  end.

Definition fd_set (fd : N) (v : option path) (t : fdtab) : fdtab := (fd, v) :: fd_remove fd t.

(* after rename a b: descriptors on the old b lose their name, those on a follow it *)
Definition fd_renamed (a b : path) (t : fdtab) : fdtab :=
  map (fun kv : N * option path =>
         match snd kv with
         | Some q => if str_eqb q b then (fst kv, None)
                     else if str_eqb q a then (fst kv, Some b) else kv
         | None => kv
         end) t.

Definition fd_unlinked (p : path) (t : fdtab) : fdtab :=
  map (fun kv : N * option path =>
         match snd kv with
         | Some q => if str_eqb q p then (fst kv, None) else kv
         | None => kv
         end) t.

Record state := mkstate { st_fs : fsmap; st_fds : fdtab; st_umask : N }.

Inductive errno := ENOENT | EBADF | ENOSPC | EIO | EACCES | EXDEV | EEXIST | ELOOP.

(* ---------- operations = the mutating system calls ---------- *)

Inductive op :=
| Open (fd : N) (p : path) (perm : N)  (* openat(p, O_WRONLY|O_CREAT|O_TRUNC, perm) = fd; only in the refuted variants *)
| OpenExcl (fd : N) (p : path) (perm : N) (* openat(p, O_WRONLY|O_CREAT|O_EXCL, perm) = fd *)
| Write (fd : N) (data : str)          (* write(fd, data) = |data| *)
| Close (fd : N)
| Rename (a b : path)                  (* renameat(a, b) *)
| Chmod (p : path) (mode : N)          (* fchmodat(p, mode) *)
| Unlink (p : path).                   (* unlinkat(p): the save removes its temporary file after a failure *)

(* one successful system call; errors that the file system itself produces
   (missing file, unknown descriptor) are explicit results, never silent no-ops *)
Definition step (s : state) (o : op) : state * option errno :=
  match o with
  | Open fd p perm =>
    let f := match lookup p (st_fs s) with
             | Some old => mkfile (f_kind old) [] (f_mode old)       (* O_TRUNC keeps the mode *)
             | None => mkfile KReg [] (N.ldiff perm (st_umask s))    (* O_CREAT: perm &^ umask *)
             end in
    (mkstate (set p f (st_fs s)) (fd_set fd (Some p) (st_fds s)) (st_umask s), None)
  | OpenExcl fd p perm =>
    match lookup p (st_fs s) with
    | Some _ => (s, Some EEXIST)        (* O_EXCL: an existing entry of ANY kind (regular, empty or not,
                                           directory, symbolic link -- also a dangling one) is never touched *)
    | None =>
      (mkstate (set p (mkfile KReg [] (N.ldiff perm (st_umask s))) (st_fs s))
               (fd_set fd (Some p) (st_fds s)) (st_umask s), None)
    end
  | Write fd data =>
    match fd_lookup fd (st_fds s) with
    | None => (s, Some EBADF)
    | Some None => (s, None)            (* the inode has no name any more: the bytes are lost *)
    | Some (Some p) =>
      match lookup p (st_fs s) with
      | None => (s, Some EBADF)
      | Some f => (mkstate (set p (mkfile (f_kind f) (f_data f ++ data) (f_mode f)) (st_fs s)) (st_fds s) (st_umask s), None)
      end
    end
  | Close fd =>
    match fd_lookup fd (st_fds s) with
    | None => (s, Some EBADF)
    | Some _ => (mkstate (st_fs s) (fd_remove fd (st_fds s)) (st_umask s), None)
    end
  | Rename a b =>                         (* kind-agnostic: the protocol renames a regular temporary file it created onto the file it loaded; a directory as rename TARGET is outside the model (checks/C05.json, assumptions) *)
    match lookup a (st_fs s) with
    | None => (s, Some ENOENT)
    | Some f =>
      if str_eqb a b then (s, None)
      else (mkstate (set b f (remove a (st_fs s))) (fd_renamed a b (st_fds s)) (st_umask s), None)
    end
  | Chmod p mode =>
    match lookup p (st_fs s) with
    | None => (s, Some ENOENT)
    | Some f => (mkstate (set p (mkfile (f_kind f) (f_data f) mode) (st_fs s)) (st_fds s) (st_umask s), None)
    end
  | Unlink p =>
    match lookup p (st_fs s) with
    | None => (s, Some ENOENT)
    | Some _ => (mkstate (remove p (st_fs s)) (fd_unlinked p (st_fds s)) (st_umask s), None)
    end
  end.

(* a plain sequence of system calls (what is left of a run after a crash) *)
Definition exec (ops : list op) (s : state) : state :=
  fold_left (fun s o => fst (step s o)) ops s.

(* ---------- faults ---------- *)

(* One system call fails with `fl_errno`. Its documented partial effect:
   write: the first fl_short bytes have reached the file (the kernel accepted a
          short write, Go's poll.FD.Write loop retried the rest and got the error);
   close: the descriptor is released all the same (Linux);
   open, rename, chmod, unlink: none. *)
Record fault := mkfault { fl_short : nat; fl_errno : errno }.

Definition step_fault (s : state) (o : op) (fl : fault) : state :=
  match o with
  | Write fd data => fst (step s (Write fd (firstn (fl_short fl) data)))
  | Close fd => fst (step s (Close fd))
  | _ => s
  end.

(* ---------- the running program ---------- *)

Inductive errkind := CannotWrite | CannotOverwrite | CannotClearExec.

Record world := mkworld {
  w_st : state;
  w_count : nat;                          (* system calls issued so far *)
  w_plan : option (nat * fault);          (* fail the system call with this index *)
  w_trace : list (op * option errno);     (* issued system calls with their results *)
  w_stderr : list (errkind * path);       (* ERROR lines written by TechErrorf *)
  w_saved : bool                          (* `autofixed`, the result of the latest SaveAutofixChanges *)
}.

Definition sys (o : op) (w : world) : world * option errno :=
  let hit := match w_plan w with
             | Some (k, fl) => if Nat.eqb k (w_count w) then Some fl else None
             | None => None
             end in
  match hit with
  | Some fl =>
    (mkworld (step_fault (w_st w) o fl) (S (w_count w)) (w_plan w)
             (w_trace w ++ [(o, Some (fl_errno fl))]) (w_stderr w) (w_saved w), Some (fl_errno fl))
  | None =>
    let (s', r) := step (w_st w) o in
    (mkworld s' (S (w_count w)) (w_plan w) (w_trace w ++ [(o, r)]) (w_stderr w) (w_saved w), r)
  end.

(* Logger.TechErrorf: one line on stderr, nothing else (no counter, no exit status) *)
Definition tech_error (k : errkind) (loc : path) (w : world) : world :=
  mkworld (w_st w) (w_count w) (w_plan w) (w_trace w) (w_stderr w ++ [(k, loc)]) (w_saved w).

Definition set_saved (b : bool) (w : world) : world :=
  mkworld (w_st w) (w_count w) (w_plan w) (w_trace w) (w_stderr w) b.

(* os.WriteFile(name, data, perm):
     f, err := OpenFile(name, O_WRONLY|O_CREATE|O_TRUNC, perm); if err != nil { return err }
     _, err = f.Write(data)
     if err1 := f.Close(); err1 != nil && err == nil { err = err1 }
     return err
   The program has one file open at a time; its descriptor is called 0 here. *)
Definition write_file (name : path) (data : str) (perm : N) (w : world) : world * option errno :=
  match sys (Open 0 name perm) w with
  | (w1, Some e) => (w1, Some e)
  | (w1, None) =>
    let (w2, err) := sys (Write 0 data) w1 in
    let (w3, err1) := sys (Close 0) w2 in
    (w3, match err with Some e => Some e | None => err1 end)
  end.

Definition tmp_suffix : str := [46; 112; 107; 103; 108; 105; 110; 116; 46; 116; 109; 112]. (* ".pkglint.tmp" *)
Definition tmp_name (f : path) : path := f ++ tmp_suffix.

(* SaveAutofixChanges for lines of one changed file (after the three repairs:
   exclusive creation of the temporary file, mode of the original carried over,
   temporary file removed when the save fails):

     tmpFile, err := os.OpenFile(tmpName, O_WRONLY|O_CREATE|O_EXCL, 0666)
     if err != nil { TechErrorf(tmpName, "Cannot write"); continue }
     _, err = tmpFile.WriteString(text)
     if closeErr := tmpFile.Close(); err == nil { err = closeErr }
     if st, statErr := filename.Stat(); err == nil && statErr == nil { err = tmpName.Chmod(st.Mode().Perm()) }
     if err != nil { TechErrorf(tmpName, "Cannot write"); _ = os.Remove(tmpName); continue }
     err = tmpName.Rename(filename)
     if err != nil { TechErrorf(tmpName, "Cannot overwrite ..."); _ = os.Remove(tmpName); continue }
     autofixed = true

   Stat is not a mutating call: it is a lookup in the current state. *)
Definition save_one (f : path) (new : str) (w : world) : world :=
  let tmp := tmp_name f in
  match sys (OpenExcl 0 tmp 438 (* 0666 *)) (set_saved false w) with
  | (w1, Some _) => tech_error CannotWrite tmp w1                       (* continue *)
  | (w1, None) =>
    let (w2, err) := sys (Write 0 new) w1 in
    let (w3, err1) := sys (Close 0) w2 in
    let err' := match err with Some e => Some e | None => err1 end in
    let (w4, err'') :=
      match err', lookup f (st_fs (w_st w3)) with
      | None, Some old => sys (Chmod tmp (f_mode old)) w3
      | _, _ => (w3, err')
      end in
    match err'' with
    | Some _ => fst (sys (Unlink tmp) (tech_error CannotWrite tmp w4))  (* continue *)
    | None =>
      match sys (Rename tmp f) w4 with
      | (w5, Some _) => fst (sys (Unlink tmp) (tech_error CannotOverwrite tmp w5))  (* continue *)
      | (w5, None) => set_saved true w5                                 (* autofixed = true *)
      end
    end
  end.

(* checkExecutable's custom fix: filename.Chmod(mode &^ 0111), mode from the earlier Lstat *)
Definition chmod_fix (f : path) (mode : N) (w : world) : world :=
  match sys (Chmod f (N.ldiff mode 73 (* 0111 *))) w with
  | (w1, Some _) => tech_error CannotClearExec f w1
  | (w1, None) => w1
  end.

(* what one --autofix run does to the tree, in order.  Two callers look at the
   result of SaveAutofixChanges:
     plist.go   PlistChecker.Check: sorter.Sort() saves the sorted lines;
                `if !sorter.autofixed { SaveAutofixChanges(plainLines) }`   = AIfSaved false
     patches.go `if SaveAutofixChanges(ck.lines) && pkg != nil { pkg.AutofixDistinfo(..) }`
                (which ends in another SaveAutofixChanges)                    = AIfSaved true *)
Inductive action :=
| ASave (f : path) (new : str)
| AChmod (f : path) (mode : N)
| AIfSaved (b : bool) (f : path) (new : str).

Definition run_action (w : world) (a : action) : world :=
  match a with
  | ASave f new => save_one f new w
  | AChmod f mode => chmod_fix f mode w
  | AIfSaved b f new => if Bool.eqb (w_saved w) b then save_one f new w else w
  end.

Definition run (prog : list action) (w : world) : world := fold_left run_action prog w.

Definition init_world (s : state) (plan : option (nat * fault)) : world :=
  mkworld s 0 plan [] [] false.

(* ---------- the same protocol as a plain list (no fault) ---------- *)

(* the system calls of one save that meets no error, in state s: when the temporary
   name is taken the exclusive open fails and that is all; the mode is carried over
   when the original exists *)
Definition save_ops (s : state) (f : path) (new : str) : list op :=
  match lookup (tmp_name f) (st_fs s) with
  | Some _ => [OpenExcl 0 (tmp_name f) 438]
  | None =>
    [OpenExcl 0 (tmp_name f) 438; Write 0 new; Close 0] ++
    match lookup f (st_fs s) with
    | Some old => [Chmod (tmp_name f) (f_mode old)]
    | None => []
    end ++ [Rename (tmp_name f) f]
  end.

Definition save_succeeds (s : state) (f : path) : bool :=
  match lookup (tmp_name f) (st_fs s) with Some _ => false | None => true end.

(* without a fault the only error a save can meet is EEXIST (Proofs: run_nofault), so
   the condition of AIfSaved is known from the state *)
Fixpoint prog_ops_from (saved : bool) (s : state) (prog : list action) : list op :=
  match prog with
  | [] => []
  | ASave f new :: rest =>
    save_ops s f new ++ prog_ops_from (save_succeeds s f) (exec (save_ops s f new) s) rest
  | AChmod f mode :: rest =>
    Chmod f (N.ldiff mode 73) :: prog_ops_from saved (exec [Chmod f (N.ldiff mode 73)] s) rest
  | AIfSaved b f new :: rest =>
    if Bool.eqb saved b
    then save_ops s f new ++ prog_ops_from (save_succeeds s f) (exec (save_ops s f new) s) rest
    else prog_ops_from saved s rest
  end.

Definition prog_ops (s : state) (prog : list action) : list op := prog_ops_from false s prog.

(* ---------- other ways to write the file, all refuted by the crash spec ---------- *)

(* the protocol before the repair: the temporary file is opened with O_TRUNC *)
Definition trunc_tmp_ops (f : path) (new : str) : list op :=
  [Open 0 (tmp_name f) 438; Write 0 new; Close 0; Rename (tmp_name f) f].

Definition inplace_ops (f : path) (new : str) : list op :=
  [Open 0 f 438; Write 0 new; Close 0].

Definition remove_rename_ops (f : path) (new : str) : list op :=
  [Open 0 (tmp_name f) 438; Write 0 new; Close 0; Unlink f; Rename (tmp_name f) f].

Definition copyback_ops (f : path) (new : str) : list op :=
  [Open 0 (tmp_name f) 438; Write 0 new; Close 0;
   Open 0 f 438; Write 0 new; Close 0; Unlink (tmp_name f)].
