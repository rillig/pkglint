(* The Logger state machine: model of /repo/v23/logging.go (Logger.Diag, Explain,
   FirstTime, Relevant, shallBeLogged, writeSource, writeDiff, writeLine, Logf,
   TechErrorf, ShowSummary, SeparatorWriter) and of the calls that
   Autofix.Apply / SaveAutofixChanges (autofix.go) make into the Logger.
   No proofs here.  Used by C08 and C06 (and meant to be reused by the Autofix
   machine of C02-C04: see "Interface" below).

   Interface
   ---------
   opts      the LoggerOpts record (ShowAutofix Autofix Explain ShowSource GccOutput Quiet Only)
   line      what the Logger reads of a *Line: an identity (pointer equality
             `line == l.prevLine`), Filename(), Location.lineno, the raw lines
   fixview   what writeSource reads of line.fix in the autofix modes: above, texts, below
   event     what checks do to the Logger:
               EvDiag line level format msg        line.Errorf/Warnf/Notef: Logger.Diag; msg = sprintf(format, args...)
               EvExplain lines                     Logger.Explain
               EvFix line view level format msg explanation actions
                                                   Autofix.Apply with the diagnostic given by Errorf/Warnf/Notef/Silent,
                                                   the explanation and the (description, lineno) of every action
                                                   recorded since the last Apply; `view` is line.fix at that moment
               EvSaved modified                    SaveAutofixChanges on lines of which one is / none is modified
               EvTechError location msg            Logger.TechErrorf
               EvSummary args                      Logger.ShowSummary(args)
   log_step o l ev, log_run o evs                         the machine
   Observables: l_out / l_err (sw_out = the bytes that reached the underlying
   writer), the counters, l_expl_avail, l_fix_avail, exit_status; plus the ghost
   field l_emitted (one tuple (level, file, linenos, msg) per line Logf wrote) and
   the ghost flag l_panicked.

   What is abstracted
   ------------------
   - sprintf is not modelled: an event carries the format (used by --only and by
     the SilentAutofixFormat test) and the finished message.
   - Once (logged, explained) is the exact set of the NUL-joined keys; crc64 is not modelled.
   - file names are clean already: filename.Clean() and CleanPath() are the identity on them.
   - Logger.verbose = false, G.Profiling = false, G.Testing = false (the binary).
   - a panic (assert in SeparatorWriter.Separate, index out of range in writeDiff
     and ShowSummary) sets the ghost flag l_panicked and the machine goes on as if
     the assertion had held; Proofs/LoggerOut.v (logger_never_panics) shows the
     flag stays false for well-formed events. *)
From PV Require Import Lib.Bytes Lib.Utf8 Model.Escape.
Open Scope N_scope.

(* ---------- small string functions ---------- *)

(* strings.Contains *)
Fixpoint contains (s sub : str) : bool :=
  has_prefix sub s || match s with [] => false | _ :: s' => contains s' sub end.

Fixpoint has_suffix_nl (s : str) : bool :=   (* hasSuffix(s, "\n") *)
  match s with
  | [] => false
  | [c] => c =? 10
  | _ :: s' => has_suffix_nl s'
  end.

Fixpoint join (sep : str) (l : list str) : str :=
  match l with
  | [] => []
  | [a] => a
  | a :: l' => a ++ sep ++ join sep l'
  end.

(* decimal digits of a natural number, most significant first (strconv.Itoa, %d):
   the standard library's binary-to-decimal conversion N.to_uint, digit by digit
   (the same printer as Spec/OutputGrammar.v print_dec) *)
Fixpoint uint_digits (u : Decimal.uint) : str :=
  match u with
  | Decimal.Nil => []
  | Decimal.D0 u => 48 :: uint_digits u
  | Decimal.D1 u => 49 :: uint_digits u
  | Decimal.D2 u => 50 :: uint_digits u
  | Decimal.D3 u => 51 :: uint_digits u
  | Decimal.D4 u => 52 :: uint_digits u
  | Decimal.D5 u => 53 :: uint_digits u
  | Decimal.D6 u => 54 :: uint_digits u
  | Decimal.D7 u => 55 :: uint_digits u
  | Decimal.D8 u => 56 :: uint_digits u
  | Decimal.D9 u => 57 :: uint_digits u
  end.
Definition dec_of_N (n : N) : str := uint_digits (N.to_uint n).
Definition dec_of_Z (z : Z) : str :=
  match z with
  | Z0 => [48] (*0*)
  | Zpos p => dec_of_N (Npos p)
  | Zneg p => 45 :: dec_of_N (Npos p)
  end.

Definition nonempty_list {A : Type} (l : list A) : bool := match l with [] => false | _ => true end.

(* ---------- options, levels, lines ---------- *)

Record opts := mk_opts {
  lo_show_autofix : bool;
  lo_autofix : bool;
  lo_explain : bool;
  lo_show_source : bool;
  lo_gcc : bool;
  lo_quiet : bool;
  lo_only : list str
}.

Definition is_autofix (o : opts) : bool := lo_autofix o || lo_show_autofix o.

Inductive level := LError | LWarn | LNote | LAutofix.

Definition level_eqb (a b : level) : bool :=
  match a, b with
  | LError, LError | LWarn, LWarn | LNote, LNote | LAutofix, LAutofix => true
  | _, _ => false
  end.

Definition traditional_name (lv : level) : str :=
  match lv with LError => [69; 82; 82; 79; 82] (*ERROR*) | LWarn => [87; 65; 82; 78] (*WARN*) | LNote => [78; 79; 84; 69] (*NOTE*) | LAutofix => [65; 85; 84; 79; 70; 73; 88] (*AUTOFIX*) end.
Definition gcc_name (lv : level) : str :=
  match lv with LError => [101; 114; 114; 111; 114] (*error*) | LWarn => [119; 97; 114; 110; 105; 110; 103] (*warning*) | LNote => [110; 111; 116; 101] (*note*) | LAutofix => [97; 117; 116; 111; 102; 105; 120] (*autofix*) end.

Record line := mk_line {
  ln_id : N;            (* pointer identity *)
  ln_file : str;        (* Filename(), clean *)
  ln_lineno : Z;        (* Location.lineno: 0 = whole file, -1 = EOF, else the first line number *)
  ln_raws : list str    (* RawLine.orignl of every raw line, each including its newline *)
}.

Record fixview := mk_fixview {
  fv_above : list str;
  fv_texts : list str;
  fv_below : list str
}.

Definition no_fix : fixview := mk_fixview [] [] [].

(* Line.Linenos *)
Definition linenos (ln : line) : str :=
  let first := ln_lineno ln in
  if (first =? -1)%Z then [69; 79; 70] (*EOF*)
  else if (first =? 0)%Z then []
  else
    let n := length (ln_raws ln) in
    if Nat.eqb n 1 then dec_of_Z first
    else dec_of_Z first ++ [45; 45] (*--*) ++ dec_of_Z (first + Z.of_nat n - 1).

(* ---------- SeparatorWriter ---------- *)

Record swriter := mk_sw {
  sw_state : N;    (* 0 = beginning of line, 1 = in line, 2 = separator wanted, 3 = paragraph *)
  sw_line : str;   (* the line buffer, flushed at every newline *)
  sw_out : str     (* what reached the underlying writer *)
}.

Definition new_sw : swriter := mk_sw 3 [] [].

Definition sw_write_byte (w : swriter) (b : N) : swriter :=
  if b =? 10 then
    mk_sw (if sw_state w =? 1 then 0 else 3) [] (sw_out w ++ sw_line w ++ [10])
  else if sw_state w =? 2 then
    mk_sw 1 [b] (sw_out w ++ sw_line w ++ [10])
  else
    mk_sw 1 (sw_line w ++ [b]) (sw_out w).

Definition sw_write (w : swriter) (text : str) : swriter := fold_left sw_write_byte text w.
Definition sw_write_line (w : swriter) (text : str) : swriter := sw_write_byte (sw_write w text) 10.

(* Separate: (writer, assertion violated) *)
Definition sw_separate (w : swriter) : swriter * bool :=
  (if sw_state w <? 2 then mk_sw 2 (sw_line w) (sw_out w) else w, sw_state w =? 1).

(* ---------- the Logger ---------- *)

Definition diag_tuple := (level * str * str * str)%type. (* level, file, linenos, message *)

Record logger := mk_logger {
  l_suppress_diag : bool;
  l_suppress_expl : bool;
  l_prev_line : option N;
  l_logged : list str;
  l_explained : list str;
  l_errors : N;
  l_warnings : N;
  l_notes : N;
  l_expl_avail : bool;
  l_fix_avail : bool;
  l_out : swriter;
  l_err : swriter;
  l_emitted : list diag_tuple;  (* ghost *)
  l_panicked : bool             (* ghost *)
}.

Definition new_logger : logger :=
  mk_logger false false None [] [] 0 0 0 false false new_sw new_sw [] false.

(* field updates *)
Definition set_suppress_diag (l : logger) (v : bool) : logger :=
  mk_logger v (l_suppress_expl l) (l_prev_line l) (l_logged l) (l_explained l) (l_errors l) (l_warnings l) (l_notes l) (l_expl_avail l) (l_fix_avail l) (l_out l) (l_err l) (l_emitted l) (l_panicked l).
Definition set_suppress_expl (l : logger) (v : bool) : logger :=
  mk_logger (l_suppress_diag l) v (l_prev_line l) (l_logged l) (l_explained l) (l_errors l) (l_warnings l) (l_notes l) (l_expl_avail l) (l_fix_avail l) (l_out l) (l_err l) (l_emitted l) (l_panicked l).
Definition set_prev_line (l : logger) (v : option N) : logger :=
  mk_logger (l_suppress_diag l) (l_suppress_expl l) v (l_logged l) (l_explained l) (l_errors l) (l_warnings l) (l_notes l) (l_expl_avail l) (l_fix_avail l) (l_out l) (l_err l) (l_emitted l) (l_panicked l).
Definition set_logged (l : logger) (v : list str) : logger :=
  mk_logger (l_suppress_diag l) (l_suppress_expl l) (l_prev_line l) v (l_explained l) (l_errors l) (l_warnings l) (l_notes l) (l_expl_avail l) (l_fix_avail l) (l_out l) (l_err l) (l_emitted l) (l_panicked l).
Definition set_explained (l : logger) (v : list str) : logger :=
  mk_logger (l_suppress_diag l) (l_suppress_expl l) (l_prev_line l) (l_logged l) v (l_errors l) (l_warnings l) (l_notes l) (l_expl_avail l) (l_fix_avail l) (l_out l) (l_err l) (l_emitted l) (l_panicked l).
Definition set_errors (l : logger) (v : N) : logger :=
  mk_logger (l_suppress_diag l) (l_suppress_expl l) (l_prev_line l) (l_logged l) (l_explained l) v (l_warnings l) (l_notes l) (l_expl_avail l) (l_fix_avail l) (l_out l) (l_err l) (l_emitted l) (l_panicked l).
Definition set_warnings (l : logger) (v : N) : logger :=
  mk_logger (l_suppress_diag l) (l_suppress_expl l) (l_prev_line l) (l_logged l) (l_explained l) (l_errors l) v (l_notes l) (l_expl_avail l) (l_fix_avail l) (l_out l) (l_err l) (l_emitted l) (l_panicked l).
Definition set_notes (l : logger) (v : N) : logger :=
  mk_logger (l_suppress_diag l) (l_suppress_expl l) (l_prev_line l) (l_logged l) (l_explained l) (l_errors l) (l_warnings l) v (l_expl_avail l) (l_fix_avail l) (l_out l) (l_err l) (l_emitted l) (l_panicked l).
Definition set_expl_avail (l : logger) (v : bool) : logger :=
  mk_logger (l_suppress_diag l) (l_suppress_expl l) (l_prev_line l) (l_logged l) (l_explained l) (l_errors l) (l_warnings l) (l_notes l) v (l_fix_avail l) (l_out l) (l_err l) (l_emitted l) (l_panicked l).
Definition set_fix_avail (l : logger) (v : bool) : logger :=
  mk_logger (l_suppress_diag l) (l_suppress_expl l) (l_prev_line l) (l_logged l) (l_explained l) (l_errors l) (l_warnings l) (l_notes l) (l_expl_avail l) v (l_out l) (l_err l) (l_emitted l) (l_panicked l).
Definition set_out (l : logger) (v : swriter) : logger :=
  mk_logger (l_suppress_diag l) (l_suppress_expl l) (l_prev_line l) (l_logged l) (l_explained l) (l_errors l) (l_warnings l) (l_notes l) (l_expl_avail l) (l_fix_avail l) v (l_err l) (l_emitted l) (l_panicked l).
Definition set_err (l : logger) (v : swriter) : logger :=
  mk_logger (l_suppress_diag l) (l_suppress_expl l) (l_prev_line l) (l_logged l) (l_explained l) (l_errors l) (l_warnings l) (l_notes l) (l_expl_avail l) (l_fix_avail l) (l_out l) v (l_emitted l) (l_panicked l).
Definition set_emitted (l : logger) (v : list diag_tuple) : logger :=
  mk_logger (l_suppress_diag l) (l_suppress_expl l) (l_prev_line l) (l_logged l) (l_explained l) (l_errors l) (l_warnings l) (l_notes l) (l_expl_avail l) (l_fix_avail l) (l_out l) (l_err l) v (l_panicked l).
Definition set_panicked (l : logger) (v : bool) : logger :=
  mk_logger (l_suppress_diag l) (l_suppress_expl l) (l_prev_line l) (l_logged l) (l_explained l) (l_errors l) (l_warnings l) (l_notes l) (l_expl_avail l) (l_fix_avail l) (l_out l) (l_err l) (l_emitted l) v.

Definition out_write (l : logger) (s : str) : logger := set_out l (sw_write (l_out l) s).
Definition out_write_line (l : logger) (s : str) : logger := set_out l (sw_write_line (l_out l) s).
Definition out_separate (l : logger) : logger :=
  let (w, bad) := sw_separate (l_out l) in
  set_panicked (set_out l w) (l_panicked l || bad).

(* Once.FirstTimeSlice: the key is the parts joined by a NUL byte *)
Definition once_key (parts : list str) : str := join [0] parts.
Definition once_seen (set : list str) (key : str) : bool := existsb (str_eqb key) set.

(* ---------- shallBeLogged, Relevant, FirstTime ---------- *)

Definition shall_be_logged (o : opts) (format : str) : bool :=
  match lo_only o with
  | [] => true
  | only => existsb (contains format) only
  end.

Definition relevant (o : opts) (l : logger) (format : str) : bool * logger :=
  let r := shall_be_logged o format in
  (r, set_suppress_expl (set_suppress_diag l (negb r)) (negb r)).

Definition first_time (l : logger) (filename lnos msg : str) : bool * logger :=
  let key := once_key [filename; lnos; msg] in
  if once_seen (l_logged l) key then
    (false, set_suppress_expl (set_suppress_diag l true) true)
  else
    (true, set_logged l (key :: l_logged l)).

(* ---------- writeLine, writeDiff, writeSource ---------- *)

Definition write_line (l : logger) (prefix text : str) : logger :=
  let l := out_write l prefix in
  let l := out_write l (escape_printable text) in
  if has_suffix_nl text then l else out_write l [10].

Definition write_lines (l : logger) (prefix : str) (texts : list str) : logger :=
  fold_left (fun l t => write_line l prefix t) texts l.

(* showAsChanged for every raw line; None = line.fix.texts[rawIndex] is out of range *)
Fixpoint changed_flags (raws texts : list str) : option (list bool) :=
  match raws with
  | [] => Some []
  | r :: raws' =>
    match texts with
    | [] => None
    | t :: texts' => option_map (cons (negb (str_eqb t r))) (changed_flags raws' texts')
    end
  end.

Fixpoint write_diff_lines (l : logger) (prefix : str) (raws texts : list str) (flags : list bool) : logger :=
  match raws, flags with
  | r :: raws', f :: flags' =>
    let t := hd [] texts in
    let l :=
      if f then
        let l := write_line l [45; 9] r in
        if nonempty_list t then write_line l [43; 9] t else l
      else write_line l prefix r in
    write_diff_lines l prefix raws' (tl texts) flags'
  | _, _ => l
  end.

Definition write_diff (o : opts) (l : logger) (ln : line) (fv : fixview) : logger :=
  let raws := ln_raws ln in
  if is_autofix o then
    match changed_flags raws (fv_texts fv) with
    | None => set_panicked l true
    | Some flags =>
      let prefix := if existsb (fun b => b) flags then [9] else [62; 9] in
      write_diff_lines l prefix raws (fv_texts fv) flags
    end
  else
    write_diff_lines l [62; 9] raws [] (map (fun _ => false) raws).

Definition write_source (o : opts) (l : logger) (ln : line) (fv : fixview) : logger :=
  if negb (lo_show_source o) then l
  else if is_autofix o then
    let l := write_lines l [43; 9] (fv_above fv) in
    let l := write_diff o l ln fv in
    let l := write_lines l [43; 9] (fv_below fv) in
    out_separate l
  else
    if match l_prev_line l with Some p => p =? ln_id ln | None => false end then l
    else
      let l := set_prev_line l (Some (ln_id ln)) in
      let l := out_separate l in
      write_diff o l ln fv.

(* ---------- Logf ---------- *)

Definition format_diag (o : opts) (lv : level) (filename effLineno msg : str) : str :=
  let filenameSep := if nonempty_list filename then [58; 32] (*: *) else [] in
  let linenoSep := if nonempty_list effLineno then [58] (*:*) else [] in
  if lo_gcc o then
    filename ++ linenoSep ++ effLineno ++ filenameSep ++ gcc_name lv ++ [58; 32] (*: *) ++ msg ++ [10]
  else
    traditional_name lv ++ filenameSep ++ filename ++ linenoSep ++ effLineno ++ [58; 32] (*: *) ++ msg ++ [10].

Definition bump (l : logger) (lv : level) : logger :=
  match lv with
  | LError => set_errors l (l_errors l + 1)
  | LWarn => set_warnings l (l_warnings l + 1)
  | LNote => set_notes l (l_notes l + 1)
  | LAutofix => l
  end.

Definition logf (o : opts) (l : logger) (lv : level) (filename lineno msg : str) : logger :=
  if l_suppress_diag l then set_suppress_diag l false
  else
    let filename := if str_eqb filename [46] (*.*) then [] else filename in
    let effLineno := if nonempty_list filename then lineno else [] in
    let l := out_write l (escape_printable (format_diag o lv filename effLineno msg)) in
    let l := bump l lv in
    set_emitted l (l_emitted l ++ [(lv, filename, effLineno, msg)]).

(* ---------- Explain ---------- *)

Definition is_space (c : N) : bool := (c =? 9) || (c =? 10) || (c =? 32).

(* the Lexer loop of wrap: (NextBytesSet(Space), NextBytesSet(notSpace)) pairs until EOF *)
Fixpoint space_word_pairs (s : str) (sp wd : str) (in_word : bool) : list (str * str) :=
  match s with
  | [] => if nonempty_list sp || nonempty_list wd then [(sp, wd)] else []
  | c :: s' =>
    if is_space c then
      if in_word then (sp, wd) :: space_word_pairs s' [c] [] false
      else space_word_pairs s' (sp ++ [c]) [] false
    else space_word_pairs s' sp (wd ++ [c]) true
  end.

Fixpoint wrap_pairs (max : nat) (pairs : list (str * str)) (bol : bool) (sb : str) (acc : list str) : str * list str :=
  match pairs with
  | [] => (sb, acc)
  | (sp, wd) :: ps =>
    let sp := if bol && nonempty_list sb then [32] else sp in
    let '(sb, acc, sp) :=
      if nonempty_list sb && (max <? length sb + length sp + length wd)%nat
      then ([], acc ++ [sb], [])
      else (sb, acc, sp) in
    wrap_pairs max ps false (sb ++ sp ++ wd) acc
  end.

Fixpoint wrap_lines (max : nat) (lines : list str) (sb : str) (acc : list str) : list str :=
  match lines with
  | [] => if nonempty_list sb then acc ++ [sb] else acc
  | ln :: lines' =>
    match ln with
    | [] => wrap_lines max lines' [] ((if nonempty_list sb then acc ++ [sb] else acc) ++ [ln])
    | c :: _ =>
      if (c =? 32) || (c =? 9) || (c =? 42) then
        wrap_lines max lines' [] ((if nonempty_list sb then acc ++ [sb] else acc) ++ [ln])
      else
        let (sb', acc') := wrap_pairs max (space_word_pairs ln [] [] false) true sb acc in
        wrap_lines max lines' sb' acc'
    end
  end.

Definition wrap (max : nat) (lines : list str) : list str := wrap_lines max lines [] [].

Definition explanation_width : nat := 68. (* 80 - 8 - 4 *)

Definition explain (o : opts) (l : logger) (explanation : list str) : logger :=
  if l_suppress_expl l then l
  else
    let l := set_expl_avail l true in
    if negb (lo_explain o) then l
    else
      let key := once_key explanation in
      if once_seen (l_explained l) key then l
      else
        let l := set_explained l (key :: l_explained l) in
        let l := set_prev_line l None in
        let l := out_separate l in
        let l := fold_left (fun l e =>
                   let l := if nonempty_list e then out_write l [9] else l in
                   out_write_line l (escape_printable e))
                 (wrap explanation_width explanation) l in
        out_write_line l [].

(* ---------- Diag ---------- *)

Definition diag (o : opts) (l : logger) (ln : line) (lv : level) (format msg : str) : logger :=
  if is_autofix o then set_suppress_expl l true
  else
    let (r, l) := relevant o l format in
    if negb r then l
    else
      let (ft, l) := first_time l (ln_file ln) (linenos ln) msg in
      if negb ft then set_suppress_diag l false
      else
        let l :=
          if lo_show_source o then
            let l := if match l_prev_line l with Some p => p =? ln_id ln | None => false end
                     then l else out_separate l in
            write_source o l ln no_fix
          else l in
        logf o l lv (ln_file ln) (linenos ln) msg.

(* ---------- Autofix.Apply, as far as the Logger is concerned ---------- *)

Definition silent_autofix_format : str := [83; 105; 108; 101; 110; 116; 65; 117; 116; 111; 102; 105; 120; 70; 111; 114; 109; 97; 116] (*SilentAutofixFormat*).

(* Autofix.affectedLinenos *)
Definition affected_linenos (ln : line) (actions : list (str * Z)) : str :=
  match actions with
  | [] => linenos ln
  | _ =>
    let '(first, last) :=
      fold_left (fun (fl : Z * Z) (a : str * Z) =>
                   let '(first, last) := fl in
                   let n := snd a in
                   if (n =? 0)%Z then (first, last)
                   else
                     let first := if (last =? 0)%Z || (n <? first)%Z then n else first in
                     let last := if (last =? 0)%Z || (last <? n)%Z then n else last in
                     (first, last))
                actions (0%Z, 0%Z) in
    if (last =? 0)%Z then linenos ln
    else if (first <? last)%Z then dec_of_Z first ++ [45; 45] (*--*) ++ dec_of_Z last
    else dec_of_Z first
  end.

Definition apply_fix (o : opts) (l : logger) (ln : line) (fv : fixview) (lv : level)
           (format msg : str) (explanation : list str) (actions : list (str * Z)) : logger :=
  let (r, l) := relevant o l format in
  if negb (r && (nonempty_list actions || negb (is_autofix o))) then l
  else
    let logDiagnostic :=
      if str_eqb format silent_autofix_format then false
      else if lo_autofix o && negb (lo_show_autofix o) then false
      else true in
    let logFix := is_autofix o in
    let l :=
      if logDiagnostic then
        let lnos := affected_linenos ln actions in
        let l :=
          if logFix then l
          else
            let (ft, l) := first_time l (ln_file ln) lnos msg in
            if ft then write_source o l ln fv else l in
        logf o l lv (ln_file ln) lnos msg
      else l in
    let l :=
      if logFix then
        let l := fold_left (fun l (a : str * Z) =>
                   logf o l LAutofix (ln_file ln) (if (snd a =? 0)%Z then [] else dec_of_Z (snd a)) (fst a))
                 actions l in
        write_source o l ln fv
      else l in
    if logDiagnostic && nonempty_list explanation then explain o l explanation else l.

(* SaveAutofixChanges: the fast lane taken without --autofix *)
Definition saved (o : opts) (l : logger) (modified : bool) : logger :=
  if negb (lo_autofix o) && modified then set_fix_avail l true else l.

(* ---------- TechErrorf ---------- *)

Definition tech_error (l : logger) (location msg : str) : logger :=
  let loc := location ++ (if nonempty_list location then [58; 32] (*: *) else []) in
  set_err l (sw_write (l_err l) (escape_printable ([69; 82; 82; 79; 82; 58; 32] (*ERROR: *) ++ loc ++ msg ++ [10]))).

(* ---------- ShowSummary ---------- *)

Definition shquote_safe (c : N) : bool :=   (* [!%+,\-./0-9:=@A-Z_a-z] *)
  (c =? 33) || (c =? 37) || (c =? 43) || (c =? 44) || (c =? 45) || (c =? 46) || (c =? 47) ||
  is_digit c || (c =? 58) || (c =? 61) || (c =? 64) || is_upper c || (c =? 95) || is_lower c.

Definition shquote (s : str) : str :=
  if nonempty_list s && forallb shquote_safe s then s
  else [39] ++ flat_map (fun c => if c =? 39 then [39; 92; 39; 39] else [c]) s ++ [39].

Definition num (n : N) (singular plural : str) : str :=
  if n =? 0 then []
  else if n =? 1 then dec_of_N n ++ [32] ++ singular
  else dec_of_N n ++ [32] ++ plural.

(* joinCambridge: "a", "a and b", "a, b and c" over the non-empty elements *)
Definition join_cambridge (conn : str) (elements : list str) : str :=
  match filter nonempty_list elements with
  | [] => []
  | [a] => a
  | l => join [44; 32] (*, *) (removelast l) ++ [32] ++ conn ++ [32] ++ last l []
  end.

Definition summary_counts (errors warnings notes : N) : str :=
  join_cambridge [97; 110; 100] (*and*) [num errors [101; 114; 114; 111; 114] (*error*) [101; 114; 114; 111; 114; 115] (*errors*); num warnings [119; 97; 114; 110; 105; 110; 103] (*warning*) [119; 97; 114; 110; 105; 110; 103; 115] (*warnings*); num notes [110; 111; 116; 101] (*note*) [110; 111; 116; 101; 115] (*notes*)]
  ++ [32; 102; 111; 117; 110; 100; 46; 10].

(* the closure commandLine; None = args[0] does not exist (index out of range) *)
Definition command_line (args : list str) (arg : str) : option str :=
  match args with
  | [] => None
  | a0 :: rest => Some (escape_printable (join [32] (map shquote (a0 :: arg :: rest))))
  end.

Definition hint (l : logger) (args : list str) (arg : str) (what : str) : logger :=
  match command_line args arg with
  | None => set_panicked l true
  | Some cl => out_write_line l ([40; 82; 117; 110; 32; 34] ++ cl ++ [34; 32; 116; 111; 32] ++ what ++ [46; 41])
  end.

(* the first line of the summary *)
Definition summary_line (errors warnings notes : N) : str :=
  if negb (errors =? 0) || negb (warnings =? 0)
  then summary_counts errors warnings notes
  else [76; 111; 111; 107; 115; 32; 102; 105; 110; 101; 46; 10].

Definition show_summary (o : opts) (l : logger) (args : list str) : logger :=
  if lo_quiet o || lo_autofix o then l
  else
    let l := if lo_show_source o then out_separate l else l in
    let l := out_write l (summary_line (l_errors l) (l_warnings l) (l_notes l)) in
    let l := if l_expl_avail l && negb (lo_explain o)
             then hint l args [45; 101] (*-e*) [115; 104; 111; 119; 32; 101; 120; 112; 108; 97; 110; 97; 116; 105; 111; 110; 115] (*show explanations*) else l in
    if l_fix_avail l then
      let l := if negb (lo_show_autofix o)
               then hint l args [45; 102; 115] (*-fs*) [115; 104; 111; 119; 32; 119; 104; 97; 116; 32; 99; 97; 110; 32; 98; 101; 32; 102; 105; 120; 101; 100; 32; 97; 117; 116; 111; 109; 97; 116; 105; 99; 97; 108; 108; 121] (*show what can be fixed automatically*) else l in
      hint l args [45; 70] (*-F*) [97; 117; 116; 111; 109; 97; 116; 105; 99; 97; 108; 108; 121; 32; 102; 105; 120; 32; 115; 111; 109; 101; 32; 105; 115; 115; 117; 101; 115] (*automatically fix some issues*)
    else l.

(* ---------- events ---------- *)

Inductive event :=
| EvDiag (ln : line) (lv : level) (format msg : str)
| EvExplain (explanation : list str)
| EvFix (ln : line) (fv : fixview) (lv : level) (format msg : str) (explanation : list str) (actions : list (str * Z))
| EvSaved (modified : bool)
| EvTechError (location msg : str)
| EvSummary (args : list str).

Definition log_step (o : opts) (l : logger) (ev : event) : logger :=
  match ev with
  | EvDiag ln lv format msg => diag o l ln lv format msg
  | EvExplain e => explain o l e
  | EvFix ln fv lv format msg e actions => apply_fix o l ln fv lv format msg e actions
  | EvSaved m => saved o l m
  | EvTechError loc msg => tech_error l loc msg
  | EvSummary args => show_summary o l args
  end.

Definition log_run (o : opts) (evs : list event) : logger := fold_left (log_step o) evs new_logger.

(* Pkglint.Main after ShowSummary; werror = p.WarnError (-Werror) *)
Definition exit_status (werror : bool) (l : logger) : N :=
  if werror && negb (l_warnings l =? 0) then 1
  else if negb (l_errors l =? 0) then 1
  else 0.
