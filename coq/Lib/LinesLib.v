(* Generic list and byte-string lemmas beyond Lib/Bytes.v. *)
From PV Require Import Lib.Bytes.
Open Scope N_scope.

Definition head_not (f : N -> bool) (s : str) : Prop :=
  match s with [] => True | c :: _ => f c = false end.

Lemma span_rest_head_not f s : head_not f (snd (span f s)).
Proof. exact (span_rest_head f s). Qed.

Lemma span_app_exact f a b :
  forallb f a = true -> head_not f b -> span f (a ++ b) = (a, b).
Proof.
  induction a as [|c a IH]; simpl; intros Ha Hb.
  - destruct b as [|d b]; simpl in *; [reflexivity|]. rewrite Hb. reflexivity.
  - apply andb_true_iff in Ha as [Hc Ha]. rewrite Hc, (IH Ha Hb). reflexivity.
Qed.

Lemma span_eq f s : span f s = (fst (span f s), snd (span f s)).
Proof. destruct (span f s); reflexivity. Qed.

Lemma has_prefix_true p s : has_prefix p s = true <-> exists r, s = p ++ r.
Proof.
  unfold has_prefix. destruct (strip_prefix p s) as [r|] eqn:E.
  - apply strip_prefix_some in E. split; [intros _; eauto|reflexivity].
  - split; [discriminate|]. intros [r Hr]. apply strip_prefix_some in Hr. congruence.
Qed.

Lemma last_snoc {A} (l : list A) (x d : A) : last (l ++ [x]) d = x.
Proof. apply last_last. Qed.

Lemma removelast_snoc {A} (l : list A) (x : A) : removelast (l ++ [x]) = l.
Proof. apply removelast_last. Qed.

Lemma list_snoc_cases {A} (l : list A) : l = [] \/ exists l' x, l = l' ++ [x].
Proof.
  destruct l as [|a l]; [left; reflexivity|right].
  destruct (exists_last (l := a :: l)) as [l' [x H]]; [discriminate|]. eauto.
Qed.

Lemma firstn_app_len {A} (a b : list A) : firstn (length (a ++ b) - length b) (a ++ b) = a.
Proof.
  rewrite app_length. replace (length a + length b - length b)%nat with (length a + 0)%nat by lia.
  rewrite firstn_app_2. simpl. apply app_nil_r.
Qed.

Lemma firstn_app_exact {A} (a x : list A) : firstn (length a) (a ++ x) = a.
Proof. rewrite firstn_app, Nat.sub_diag, firstn_all. simpl. apply app_nil_r. Qed.

Lemma skipn_app_exact {A} (a x : list A) : skipn (length a) (a ++ x) = x.
Proof. rewrite skipn_app, Nat.sub_diag, skipn_all. reflexivity. Qed.

Lemma forallb_rev {A} (f : A -> bool) (l : list A) : forallb f (rev l) = forallb f l.
Proof.
  induction l as [|a l IH]; simpl; [reflexivity|].
  rewrite forallb_app, IH. simpl. rewrite andb_true_r. apply andb_comm.
Qed.

Lemma concat_filter_nonempty {A} (l : list (list A)) :
  concat (filter (fun r => negb (match r with [] => true | _ => false end)) l) = concat l.
Proof.
  induction l as [|r l IH]; simpl; [reflexivity|].
  destruct r; simpl; [exact IH|]. rewrite IH. reflexivity.
Qed.
