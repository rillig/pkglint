(* Byte strings: a Go string is modelled as a list of bytes, a byte as an N < 256.
   Everything here is executable; lemmas are stdlib-only and closed under the
   global context. *)
From Coq Require Export List NArith ZArith Bool Lia.
From Coq Require Import ZifyBool ZifyN ZifyNat.
Export ListNotations.
Open Scope N_scope.

Definition byte := N.
Definition str := list N.

Definition is_digit (c : N) : bool := (48 <=? c) && (c <=? 57).
Definition is_lower (c : N) : bool := (97 <=? c) && (c <=? 122).
Definition is_upper (c : N) : bool := (65 <=? c) && (c <=? 90).
Definition is_alpha (c : N) : bool := is_lower c || is_upper c.
Definition is_alnum (c : N) : bool := is_alpha c || is_digit c.
Definition is_hspace (c : N) : bool := (c =? 32) || (c =? 9).
Definition to_lower (c : N) : N := if is_upper c then c + 32 else c.
Definition lower (s : str) : str := map to_lower s.
Definition is_ascii (c : N) : bool := c <? 128.

Fixpoint str_eqb (a b : str) : bool :=
  match a, b with
  | [], [] => true
  | x :: a', y :: b' => (x =? y) && str_eqb a' b'
  | _, _ => false
  end.

Lemma str_eqb_spec a b : str_eqb a b = true <-> a = b.
Proof.
  revert b; induction a as [|x a IH]; intros [|y b]; simpl; split; intro H;
    try reflexivity; try discriminate.
  - apply andb_true_iff in H as [H1 H2]. apply N.eqb_eq in H1. apply IH in H2. congruence.
  - inversion H; subst. rewrite N.eqb_refl. simpl. apply IH. reflexivity.
Qed.

Lemma str_eqb_refl a : str_eqb a a = true.
Proof. apply str_eqb_spec; reflexivity. Qed.

Lemma str_eqbP a b : reflect (a = b) (str_eqb a b).
Proof. apply iff_reflect. symmetry. apply str_eqb_spec. Qed.

Lemma str_eqb_neq a b : a <> b -> str_eqb a b = false.
Proof. destruct (str_eqbP a b); [contradiction|reflexivity]. Qed.

Lemma str_eqb_sym a b : str_eqb a b = str_eqb b a.
Proof. destruct (str_eqbP a b) as [->|H]; [symmetry; apply str_eqb_refl|]. symmetry. apply str_eqb_neq. congruence. Qed.

(* strip_prefix p s = Some r  iff  s = p ++ r  (strings.HasPrefix + slicing) *)
Fixpoint strip_prefix (p s : str) : option str :=
  match p with
  | [] => Some s
  | x :: p' => match s with
               | y :: s' => if x =? y then strip_prefix p' s' else None
               | [] => None
               end
  end.

Lemma strip_prefix_some p s r : strip_prefix p s = Some r <-> s = p ++ r.
Proof.
  revert s; induction p as [|x p IH]; intros s; simpl.
  - split; intro H; congruence.
  - destruct s as [|y s]; [split; intro H; discriminate|].
    destruct (N.eqb_spec x y) as [->|Hne].
    + rewrite IH. split; intro H; congruence.
    + split; intro H; [discriminate|]. inversion H; congruence.
Qed.

Definition has_prefix (p s : str) : bool :=
  match strip_prefix p s with Some _ => true | None => false end.

Lemma has_prefix_skipn p s : has_prefix p s = true -> s = p ++ skipn (length p) s.
Proof.
  unfold has_prefix. destruct (strip_prefix p s) as [r|] eqn:E; [|discriminate].
  intros _. apply strip_prefix_some in E. subst s. rewrite skipn_app, skipn_all, Nat.sub_diag. reflexivity.
Qed.

(* span f s = (longest prefix all of whose bytes satisfy f, the rest) *)
Fixpoint span (f : N -> bool) (s : str) : str * str :=
  match s with
  | [] => ([], [])
  | c :: s' => if f c then let (a, b) := span f s' in (c :: a, b) else ([], s)
  end.

Lemma span_app f s : fst (span f s) ++ snd (span f s) = s.
Proof.
  induction s as [|c s IH]; simpl; [reflexivity|].
  destruct (f c); [|reflexivity]. destruct (span f s) as [a b]; simpl in *. congruence.
Qed.

Lemma span_all f s : forallb f (fst (span f s)) = true.
Proof.
  induction s as [|c s IH]; simpl; [reflexivity|].
  destruct (f c) eqn:E; [|reflexivity]. destruct (span f s) as [a b]; simpl in *.
  rewrite E; exact IH.
Qed.

Lemma span_rest_head f s : match snd (span f s) with [] => True | c :: _ => f c = false end.
Proof.
  induction s as [|c s IH]; simpl; [exact I|].
  destruct (f c) eqn:E; [|simpl; exact E]. destruct (span f s) as [a b]; simpl in *. exact IH.
Qed.

Lemma span_length f s : (length (fst (span f s)) + length (snd (span f s)) = length s)%nat.
Proof. rewrite <- app_length, span_app. reflexivity. Qed.

(* decimal value of a digit string, unbounded *)
Definition digit_val (c : N) : Z := Z.of_N c - 48.
Definition dec_value (ds : str) : Z := fold_left (fun acc c => acc * 10 + digit_val c)%Z ds 0%Z.

(* suffix relation: r is what is left of s after chopping off a prefix *)
Definition is_suffix (r s : str) : Prop := exists c, s = c ++ r.

Lemma is_suffix_refl s : is_suffix s s.
Proof. exists []; reflexivity. Qed.

Lemma is_suffix_trans a b c : is_suffix a b -> is_suffix b c -> is_suffix a c.
Proof. intros [x ->] [y ->]. exists (y ++ x). rewrite app_assoc. reflexivity. Qed.

Lemma is_suffix_length r s : is_suffix r s -> (length r <= length s)%nat.
Proof. intros [c ->]. rewrite app_length. lia. Qed.

Lemma is_suffix_cons c s : is_suffix s (c :: s).
Proof. exists [c]; reflexivity. Qed.

Lemma is_suffix_skipn n s : is_suffix (skipn n s) s.
Proof. exists (firstn n s). symmetry; apply firstn_skipn. Qed.
